(* AtomicRun2: the two thread-side facts that AtomicRun.RunOK assumed --
   t_rel <= t_caus for every thread and the bound on the number of threads --
   as invariants of the executions from init_exec; RunOK2 / run_goodAt2.

   The pass over the micro-operations is the thread half of the one of
   ClockFacts (relation ck), with the invariant tinv. *)
From Coq Require Import List Arith Lia Bool NArith.
Import ListNotations.
From LV Require Import Base VV VVFacts Path PathSpec PathApi Prog Objects Exec Atomic Ops Check
  SyncFacts ExecFacts SyncMono NotifyFacts ClockFacts AtomicFacts AtomicCoherence
  AtomicCoRR AtomicClosure AtomicBridge AtomicRun.

(* ================================================================== *)
(* 1. The invariant and the relation                                    *)
(* ================================================================== *)

Definition tinv (e : exec) : Prop :=
  e_max_threads e <= MAX_THREADS /\
  length (e_threads e) <= Nat.max 1 (e_max_threads e) /\
  (forall i t, nth_error (e_threads e) i = Some t -> vle (t_rel t) (t_caus t)).

Definition tk (e e' : exec) : Prop := tinv e -> tinv e'.

Lemma tk_refl e : tk e e.
Proof. intros H. exact H. Qed.
Lemma tk_trans e1 e2 e3 : tk e1 e2 -> tk e2 e3 -> tk e1 e3.
Proof. unfold tk. auto. Qed.

Lemma tk_same e e' :
  e_threads e' = e_threads e -> e_max_threads e' = e_max_threads e -> tk e e'.
Proof. intros Ht Hm. unfold tk, tinv. rewrite Ht, Hm. auto. Qed.

(* stated over all states so that the equations are checked on a variable and
   not on the large state of a walk *)
Lemma tk_same_fun (F : exec -> exec) :
  (forall e, e_threads (F e) = e_threads e) -> (forall e, e_max_threads (F e) = e_max_threads e) ->
  forall e, tk e (F e).
Proof. intros H1 H2 e. apply tk_same; [apply H1|apply H2]. Qed.

Lemma tk_set_h_k e0 e x : tk e0 e -> tk e0 (ex_set_h e x).
Proof. intros H. apply (tk_trans _ _ _ H). apply tk_same; reflexivity. Qed.

(* what one thread update has to respect *)
Definition rstep (t t' : thread) : Prop := vle (t_rel t) (t_caus t) -> vle (t_rel t') (t_caus t').

Lemma rstep_refl t : rstep t t.
Proof. intros H. exact H. Qed.
Lemma rstep_keep t t' : t_caus t' = t_caus t -> t_rel t' = t_rel t -> rstep t t'.
Proof. intros H1 H2 H. rewrite H1, H2. exact H. Qed.
Lemma rstep_join t t' c : t_caus t' = vv_join (t_caus t) c -> t_rel t' = t_rel t -> rstep t t'.
Proof. intros H1 H2 H. rewrite H1, H2. eapply vle_trans; [exact H|apply vle_join_l]. Qed.
Lemma rstep_rel t t' : t_rel t' = t_caus t' -> rstep t t'.
Proof. intros H1 _. rewrite H1. apply vle_refl. Qed.

Lemma tk_set_threads e ths :
  length ths = length (e_threads e) ->
  (forall j t t', nth_error (e_threads e) j = Some t -> nth_error ths j = Some t' -> rstep t t') ->
  tk e (ex_set_threads e ths).
Proof.
  intros Hlen Hj (Hm & Hl & Ht). split; [exact Hm|]. split.
  - cbn [ex_set_threads e_threads e_max_threads]. rewrite Hlen. exact Hl.
  - intros i t' Hi. cbn [ex_set_threads e_threads] in Hi.
    destruct (nth_error (e_threads e) i) as [t|] eqn:Hi0.
    + exact (Hj i t t' Hi0 Hi (Ht i t Hi0)).
    + apply nth_error_None in Hi0. assert (i < length ths) by (apply nth_error_Some; congruence). lia.
Qed.

Lemma tk_upd_thread e i f : (forall t, rstep t (f t)) -> tk e (upd_thread e i f).
Proof.
  intros Hf. apply tk_set_threads; [apply list_upd_length|].
  intros j t t' Hj Hj'. destruct (Nat.eq_dec i j) as [->|Hne].
  - rewrite nth_error_list_upd_same, Hj in Hj'. cbn [option_map] in Hj'. injection Hj' as <-. apply Hf.
  - rewrite nth_error_list_upd_other in Hj' by exact Hne.
    assert (t' = t) by congruence. subst t'. apply rstep_refl.
Qed.

Lemma tk_mapi e g :
  (forall id t, rstep t (g id t)) -> tk e (ex_set_threads e (mapi g (e_threads e))).
Proof.
  intros Hg. apply tk_set_threads; [apply mapi_from_length|].
  intros j t t' Hj Hj'. rewrite nth_error_mapi, Hj in Hj'. cbn [option_map] in Hj'. injection Hj' as <-.
  apply Hg.
Qed.

Lemma tk_map_others e me p f : (forall t, rstep t (f t)) -> tk e (map_others e me p f).
Proof.
  intros Hf. unfold map_others. apply tk_mapi. intros id t.
  destruct (negb (Nat.eqb id me) && p t); [apply Hf|apply rstep_refl].
Qed.

Lemma tk_set_caus e me v : vle (caus_of e me) v -> tk e (set_caus e me v).
Proof.
  intros Hle. unfold set_caus. apply tk_set_threads; [apply list_upd_length|].
  intros j t t' Hj Hj'. destruct (Nat.eq_dec me j) as [->|Hne].
  - rewrite nth_error_list_upd_same, Hj in Hj'. cbn [option_map] in Hj'. injection Hj' as <-.
    intros H. cbn [th_set_caus t_rel t_caus].
    unfold caus_of, get_thread in Hle. rewrite Hj in Hle.
    eapply vle_trans; [exact H|exact Hle].
  - rewrite nth_error_list_upd_other in Hj' by exact Hne.
    assert (t' = t) by congruence. subst t'. apply rstep_refl.
Qed.

Lemma tk_causality_inc e me : tk e (causality_inc e me).
Proof. rewrite causality_inc_eq. apply tk_set_caus. apply vle_inc. Qed.

Lemma tk_spawn e nt :
  t_rel nt = vv_new -> negb (Nat.ltb (length (e_threads e)) (e_max_threads e)) = false ->
  tk e (ex_set_threads e (e_threads e ++ [nt])).
Proof.
  intros Hr Hlt (Hm & Hl & Ht).
  apply negb_false_iff, Nat.ltb_lt in Hlt.
  split; [exact Hm|]. split.
  - cbn [ex_set_threads e_threads e_max_threads]. rewrite app_length. cbn [length]. lia.
  - intros i t Hi. cbn [ex_set_threads e_threads] in Hi.
    destruct (Nat.lt_ge_cases i (length (e_threads e))) as [Hlt'|Hge].
    + rewrite nth_error_app1 in Hi by exact Hlt'. exact (Ht i t Hi).
    + rewrite nth_error_app2 in Hi by exact Hge.
      destruct (i - length (e_threads e)) as [|d]; [|destruct d; discriminate Hi].
      injection Hi as <-. rewrite Hr. apply vle_new.
Qed.

Lemma tk_log_op e me r : tk e (log_op e me r).
Proof. unfold log_op. destruct (get_thread e me); [apply tk_same; reflexivity|apply tk_refl]. Qed.
Lemma tk_log_poll e me : tk e (log_poll e me).
Proof. unfold log_poll. destruct (get_thread e me); [apply tk_same; reflexivity|apply tk_refl]. Qed.

Ltac rstep_tac :=
  intros; cbv beta;
  repeat match goal with
         | |- context [match ?x with _ => _ end] => destruct x
         end;
  first [ apply rstep_refl
        | apply rstep_keep;
          [first [reflexivity|apply t_caus_set_unparked]|first [reflexivity|apply t_rel_set_unparked]]
        | eapply rstep_join;
          [first [reflexivity|apply t_caus_thread_unpark]
          |first [reflexivity|apply t_rel_thread_unpark]]
        | apply rstep_rel; reflexivity ].

Lemma tk_threads_unpark e me id : tk e (threads_unpark e me id).
Proof. unfold threads_unpark. destruct (Nat.eqb id me); apply tk_upd_thread; rstep_tac. Qed.

Lemma tk_fold_unpark me l : forall e, tk e (fold_left (fun e t => threads_unpark e me t) l e).
Proof.
  induction l as [|x l IH]; intros e; cbn [fold_left]; [apply tk_refl|].
  eapply tk_trans; [apply tk_threads_unpark|apply IH].
Qed.

(* the new clock of a thread is above its old one (side_caus: the clock that an
   atomic access returns) *)
Ltac tvle_side :=
  first [ apply sync_load_keeps | apply vle_join_l | apply fence_acq_keeps | apply vle_refl | apply vle_inc
        | side_caus ].

(* tk e0 (F e) from tk e0 e: F is framed by the lemma that tac applies *)
Tactic Notation "tk_after" constr(e) tactic3(tac) :=
  match goal with |- tk ?e0 ?x => apply (tk_trans e0 e x); [|tac] end.

Ltac tclose_step :=
  match goal with
  | |- tk ?e ?e => apply tk_refl
  | H : tk ?E ?x |- tk _ ?x => apply (tk_trans _ E x); [|exact H]
  | |- tk _ (log_op ?e _ _) => tk_after e (apply tk_log_op)
  | |- tk _ (log_poll ?e _) => tk_after e (apply tk_log_poll)
  | |- tk _ (causality_inc ?e _) => tk_after e (apply tk_causality_inc)
  | |- tk _ (threads_unpark ?e _ _) => tk_after e (apply tk_threads_unpark)
  | |- tk _ (fold_left _ _ ?e) => tk_after e (apply tk_fold_unpark)
  | |- tk _ (ex_set_threads ?e (e_threads ?e ++ [_])) =>
      tk_after e (eapply tk_spawn; [reflexivity|assumption])
  | |- tk _ (set_caus ?e _ _) => tk_after e (apply tk_set_caus; tvle_side)
  | |- tk _ (map_others ?e _ _ _) => tk_after e (apply tk_map_others; rstep_tac)
  | |- tk _ (push_cont ?e _ _) => tk_after e (apply tk_upd_thread; rstep_tac)
  | |- tk _ (push_guard ?e _ _ _) => tk_after e (apply tk_upd_thread; rstep_tac)
  | |- tk _ (drop_guard ?e _ _ _) => tk_after e (apply tk_upd_thread; rstep_tac)
  | |- tk _ (upd_thread ?e _ _) => tk_after e (apply tk_upd_thread; rstep_tac)
  | |- tk ?e0 ?x =>
      let e := match x with
               | upd_object ?e _ _ => e
               | ex_set_objects ?e _ => e
               | _ => under_setter x
               | _ => under_h_setter x
               end in
      let F := match eval pattern e in x with ?f _ => f end in
      refine (tk_trans e0 e x _ (tk_same_fun F _ _ e)); [|intro; reflexivity..]
  end.

Ltac tclose :=
  cbn [res_exec lp_exec fst];
  repeat tclose_step.

Lemma schedule_tk e : tk e (res_exec (fst (schedule e))).
Proof.
  destruct (schedule_shape e) as (Hth & _ & _ & _ & Hmx & _). intros (Hm & Hl & Ht).
  split; [rewrite Hmx; exact Hm|]. split; [rewrite (proj1 Hth), Hmx; exact Hl|].
  intros i t' Hi. destruct (pointwise_inv _ _ _ _ _ Hth Hi) as (t & Hi0 & t1 & Hd & Hy).
  pose proof (Ht i t Hi0) as H. destruct Hd as [->|[d ->]]; destruct Hy as [->|[_ ->]]; exact H.
Qed.

(* SyncMono.walk_step for tk; inside the helpers nothing is framed *)
Ltac tk_sched :=
  idtac; match goal with |- tk _ (res_exec (fst (schedule ?e))) => tk_after e (apply schedule_tk) end.
Ltac tk_frame0 H t := fail.
Ltac tstep0 := walk_step tk_sched tk_frame0.

Lemma release_lock_tk e me m : tk e (release_lock e me m).
Proof. unfold release_lock. repeat tstep0. all: tclose. Qed.

Ltac tclose_step' :=
  first [ match goal with
          | |- tk _ (release_lock ?e _ _) => tk_after e (apply release_lock_tk)
          end
        | tclose_step ].

Lemma post_acquire_tk e me m : tk e (fst (post_acquire e me m)).
Proof. unfold post_acquire. repeat tstep0. all: tclose. Qed.

Lemma post_acquire_read_tk e me r : tk e (fst (post_acquire_read e me r)).
Proof. unfold post_acquire_read. repeat tstep0. all: tclose. Qed.

Lemma post_acquire_write_tk e me r : tk e (fst (post_acquire_write e me r)).
Proof. unfold post_acquire_write. repeat tstep0. all: tclose. Qed.

Lemma release_read_tk e me r : tk e (res_exec (release_read e me r)).
Proof. unfold release_read. repeat tstep0. all: tclose. Qed.

Lemma release_write_tk e me r : tk e (res_exec (release_write e me r)).
Proof. unfold release_write. repeat tstep0. all: tclose. Qed.

Lemma choose_store_same2 e seed :
  e_threads (fst (choose_store e seed)) = e_threads e /\
  e_max_threads (fst (choose_store e seed)) = e_max_threads e.
Proof.
  unfold choose_store.
  repeat match goal with
         | |- context [match ?x with _ => _ end] =>
             lazymatch x with
             | context [match _ with _ => _ end] => fail
             | _ => destruct x
             end
         end; cbn [fst]; auto.
Qed.

Lemma choose_store_tk e seed : tk e (fst (choose_store e seed)).
Proof. destruct (choose_store_same2 e seed) as (H1 & H2). apply tk_same; assumption. Qed.

Ltac tk_frame1 H t :=
  lazymatch t with
  | post_acquire ?e ?me ?m => pose proof (post_acquire_tk e me m) as H
  | post_acquire_read ?e ?me ?m => pose proof (post_acquire_read_tk e me m) as H
  | post_acquire_write ?e ?me ?m => pose proof (post_acquire_write_tk e me m) as H
  | release_read ?e ?me ?m => pose proof (release_read_tk e me m) as H
  | release_write ?e ?me ?m => pose proof (release_write_tk e me m) as H
  | choose_store ?e ?s => pose proof (choose_store_tk e s) as H
  end.

Lemma load_post_tk e me a o : tk e (lp_exec (load_post e me a o)).
Proof. unfold load_post. repeat walk_step tk_sched tk_frame1. all: cbn [res_exec lp_exec fst]; repeat tclose_step'. Qed.

Ltac tk_frame H t :=
  lazymatch t with
  | load_post ?e ?me ?a ?o => pose proof (load_post_tk e me a o) as H
  | _ => tk_frame1 H t
  end.

Lemma exec_micro_tk e me m : tk e (res_exec (exec_micro e me m)).
Proof.
  destruct m; cbn [exec_micro]; unfold lift_path, mbind; cbv beta iota;
    repeat walk_step tk_sched tk_frame;
    cbn [res_exec lp_exec fst]; repeat tclose_step'.
Qed.

(* ================================================================== *)
(* 2. The invariant along executions                                    *)
(* ================================================================== *)

Lemma pop_cont_tk e me rest : tk e (upd_thread e me (fun t => th_set_cont t rest)).
Proof. apply tk_upd_thread. rstep_tac. Qed.

Theorem steps_tinv : forall e e', steps e e' -> tinv e -> tinv e'.
Proof.
  apply (steps_invariant tinv). intros e me t m rest e1 Hi _ _ _ Hx.
  pose proof (exec_micro_tk (upd_thread e me (fun t => th_set_cont t rest)) me m) as Hk.
  rewrite Hx in Hk. apply Hk, (pop_cont_tk e me rest Hi).
Qed.

Theorem init_tinv : forall p pa, max_threads (p_cfg p) <= MAX_THREADS -> tinv (init_exec p pa).
Proof.
  intros p pa Hm. unfold init_exec. cbv zeta. split; [exact Hm|]. split.
  - cbn [e_threads e_max_threads length]. lia.
  - intros i t Hi. cbn [e_threads] in Hi. destruct i as [|i]; [|destruct i; discriminate Hi].
    injection Hi as <-. apply vle_refl.
Qed.

(* (A) every thread's released clock is below its clock, in every reachable state *)
Theorem run_rel_le_caus : forall p pa e i t,
  max_threads (p_cfg p) <= MAX_THREADS -> steps (init_exec p pa) e ->
  nth_error (e_threads e) i = Some t -> vle (t_rel t) (t_caus t).
Proof.
  intros p pa e i t Hm Hs Hi.
  destruct (steps_tinv _ _ Hs (init_tinv p pa Hm)) as (_ & _ & H). exact (H i t Hi).
Qed.

(* (B) never more than MAX_THREADS threads *)
Theorem run_threads_bound : forall p pa e,
  max_threads (p_cfg p) <= MAX_THREADS -> steps (init_exec p pa) e ->
  length (e_threads e) <= MAX_THREADS.
Proof.
  intros p pa e Hm Hs.
  destruct (steps_tinv _ _ Hs (init_tinv p pa Hm)) as (H1 & H2 & _).
  unfold MAX_THREADS in *. lia.
Qed.

(* ================================================================== *)
(* 3. The run-level theorem with two hypotheses                         *)
(* ================================================================== *)

(* what remains: the ring of a has room at every access (loom's history bound),
   and the replayed path holds only candidate indices at the accesses to a *)
Definition SideOK2 (a : nat) (e : exec) (me : nat) (m : micro) : Prop :=
  (forall s, get_atomic e a = Some s -> at_cnt s < MAX_ATOMIC_HISTORY) /\
  (forall s t0 seed e2 idx l,
     get_atomic e a = Some s -> get_thread e me = Some t0 -> micro_seed s me t0 m = Some seed ->
     choose_store (causality_inc e me) seed = (e2, inl idx) -> seed = Some l -> l <> [] -> In idx l).

Definition RunOK2 (p : prog) (pa : path) (a : nat) : Prop :=
  forall e me t m rest,
    steps (init_exec p pa) e -> e_active e = Some me ->
    nth_error (e_threads e) me = Some t -> t_cont t = m :: rest -> acc_on a m ->
    SideOK2 a (upd_thread e me (fun t => th_set_cont t rest)) me m.

Theorem RunOK2_RunOK : forall p pa a,
  max_threads (p_cfg p) <= MAX_THREADS -> RunOK2 p pa a -> RunOK p pa a.
Proof.
  intros p pa a Hm Hok e me t m rest Hs Hact Ht Hc Ha.
  destruct (Hok e me t m rest Hs Hact Ht Hc Ha) as [H3 H4].
  pose proof (steps_tinv _ _ Hs (init_tinv p pa Hm)) as Hi.
  pose proof (pop_cont_tk e me rest Hi) as (_ & _ & Hrel).
  split; [|split; [|split; [exact H3|exact H4]]].
  - pose proof (run_threads_bound p pa e Hm Hs) as Hb.
    assert (me < length (e_threads e)) by (apply nth_error_Some; congruence). lia.
  - intros t0 Ht0. exact (Hrel me t0 Ht0).
Qed.

Theorem run_goodAt2 : forall p pa a s0 e,
  max_threads (p_cfg p) <= MAX_THREADS ->
  get_atomic (init_exec p pa) a = Some s0 -> RunOK2 p pa a ->
  steps (init_exec p pa) e -> GoodAt a e.
Proof.
  intros p pa a s0 e Hm Hs0 Hok Hs.
  exact (run_goodAt p pa a s0 e Hs0 (RunOK2_RunOK p pa a Hm Hok) Hs).
Qed.

Theorem run_atomicity2 : forall p pa a s0 e s r sl sid,
  max_threads (p_cfg p) <= MAX_THREADS ->
  get_atomic (init_exec p pa) a = Some s0 -> RunOK2 p pa a -> steps (init_exec p pa) e ->
  get_atomic e a = Some s -> r < at_cnt s -> st_rmw_src (get_store s r) = Some (sl, sid) ->
  sl < at_cnt s /\ vv_lt (mo s sl) (mo s r) = true /\
  forall x, x < at_cnt s -> vv_lt (mo s sl) (mo s x) && vv_lt (mo s x) (mo s r) = false.
Proof.
  intros p pa a s0 e s r sl sid Hm Hs0 Hok.
  exact (run_atomicity p pa a s0 e s r sl sid Hs0 (RunOK2_RunOK p pa a Hm Hok)).
Qed.

Theorem steps_stable2 : forall p pa a s0 e e' s x y,
  max_threads (p_cfg p) <= MAX_THREADS ->
  get_atomic (init_exec p pa) a = Some s0 -> RunOK2 p pa a ->
  steps (init_exec p pa) e -> steps e e' ->
  get_atomic e a = Some s -> x < at_cnt s -> y < at_cnt s -> vv_lt (mo s x) (mo s y) = true ->
  exists s', get_atomic e' a = Some s' /\ x < at_cnt s' /\ y < at_cnt s' /\
             vv_lt (mo s' x) (mo s' y) = true.
Proof.
  intros p pa a s0 e e' s x y Hm Hs0 Hok.
  exact (steps_stable p pa a s0 e e' s x y Hs0 (RunOK2_RunOK p pa a Hm Hok)).
Qed.

Theorem CoRR_CoWR_steps2 : forall p pa a s0 e e' s t i j,
  max_threads (p_cfg p) <= MAX_THREADS ->
  get_atomic (init_exec p pa) a = Some s0 -> RunOK2 p pa a ->
  steps (init_exec p pa) e -> steps e e' ->
  get_atomic e a = Some s -> t < MAX_THREADS -> i < at_cnt s -> j < at_cnt s ->
  vv_lt (mo s i) (mo s j) = true ->
  is_seen_by_current (st_seen (get_store s j)) (caus_of e t) = true ->
  exists s', get_atomic e' a = Some s' /\
    (forall ly o l, match_load_to_stores s' t (vv_inc (caus_of e' t) t) ly o = Some l -> ~ In i l) /\
    (forall l, match_rmw_to_stores s' = Some l -> ~ In i l).
Proof.
  intros p pa a s0 e e' s t i j Hm Hs0 Hok.
  exact (CoRR_CoWR_steps p pa a s0 e e' s t i j Hs0 (RunOK2_RunOK p pa a Hm Hok)).
Qed.

Print Assumptions exec_micro_tk.
Print Assumptions steps_tinv.
Print Assumptions init_tinv.
Print Assumptions run_rel_le_caus.
Print Assumptions run_threads_bound.
Print Assumptions RunOK2_RunOK.
Print Assumptions run_goodAt2.
Print Assumptions run_atomicity2.
Print Assumptions steps_stable2.
Print Assumptions CoRR_CoWR_steps2.
