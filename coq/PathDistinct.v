(* Every two iterations of an exploration follow different decision sequences,
   and they part ways at a definite position (depth-first order).

   Proof idea.  [precc c e'] says: the entry [e'] is a later state of a stack
   slot whose decision, at some earlier time, was [c]; that earlier decision is
   "used up" in [e'] (thread marked Visited / load position passed / spurious
   flag flipped), so [choice_of e' <> c].  [precc c] is stable under backtrack
   marks (ext) and under advance_entry.  [R p p'] says that [p] and [p'] agree
   on the first q decisions and slot q of [p'] is a later state of a slot whose
   decision in [p] is used up.  R is preserved by step (depth-first: the
   advanced slot either is after q, is q, or is before q, in which case it is
   the new witness) and by an iteration, and is established by step itself. *)
Require Import LV.Base LV.Path LV.PathSpec LV.PathTerm.
From Coq Require Import Lia.

Set Implicit Arguments.

(* ---------- list helpers ---------- *)

Lemma nth_error_firstn_lt :
  forall (A : Type) (l : list A) q i,
    i < q -> nth_error (firstn q l) i = nth_error l i.
Proof.
  intros A l; induction l as [|x l IH]; intros [|q] [|i] Hlt; simpl;
    try lia; auto.
  apply IH; lia.
Qed.

Lemma firstn_agree_le :
  forall (A : Type) (a b : list A) q q2,
    firstn q a = firstn q b -> q2 <= q -> firstn q2 a = firstn q2 b.
Proof.
  intros A a b q q2 Heq Hle.
  assert (Hf : forall l : list A, firstn q2 l = firstn q2 (firstn q l)).
  { intro l. rewrite firstn_firstn. f_equal. lia. }
  rewrite (Hf a), (Hf b), Heq. reflexivity.
Qed.

Lemma firstn_agree_nth :
  forall (A : Type) (a b : list A) q i,
    firstn q a = firstn q b -> i < q -> nth_error a i = nth_error b i.
Proof.
  intros A a b q i Heq Hlt.
  rewrite <- (nth_error_firstn_lt a Hlt), <- (nth_error_firstn_lt b Hlt), Heq.
  reflexivity.
Qed.

Lemma nth_error_map_inv :
  forall (A B : Type) (f : A -> B) (l : list A) i y,
    nth_error (map f l) i = Some y -> exists x, nth_error l i = Some x /\ y = f x.
Proof.
  intros A B f l; induction l as [|h t IH]; intros [|i] y H; simpl in *;
    try discriminate.
  - inversion H; subst. eexists; split; reflexivity.
  - apply IH; exact H.
Qed.

(* ---------- thread-status lists ---------- *)

Lemma activate_pending_active :
  forall l l', activate_pending l = Some l' -> find_index is_active l' <> None.
Proof.
  intros l l' H Hn. destruct (activate_pending_inv _ _ H) as (i & Hi & ->).
  assert (Ha : nth_error (list_set l i Active) i = Some Active).
  { apply nth_error_list_set_same, nth_error_Some. congruence. }
  discriminate (find_index_None _ _ _ _ _ Hn Ha).
Qed.

Lemma ext_t_active : forall t t', ext_t t t' -> is_active t' = is_active t.
Proof. intros t t' [H|[H1 H2]]; subst; reflexivity. Qed.

Lemma ext_threads_kept :
  forall l l' a t, Forall2 ext_t l l' -> t <> Skip ->
                   nth_error l a = Some t -> nth_error l' a = Some t.
Proof.
  intros l l' a t H Ht Hn. pose proof (Forall2_nth _ _ _ _ _ a H) as Ha. rewrite Hn in Ha.
  destruct (nth_error l' a) as [t'|]; [|contradiction].
  destruct Ha as [->|[Hc _]]; [reflexivity|contradiction].
Qed.

(* ---------- "the decision c has been used up in entry e'" ---------- *)

Definition precc (c : choice) (e' : entry) : Prop :=
  match c, e' with
  | CThread o, ESched s' =>
      active_thread_index s' <> None /\
      forall a, o = Some a -> nth_error (s_threads s') a = Some Visited
  | CLoad n, ELoad l' => n < l_pos l'
  | CSpur b, ESpur s' => b = false /\ p_spur s' = true
  | _, _ => False
  end.

Lemma precc_neq : forall c e', precc c e' -> c <> choice_of e'.
Proof.
  intros c e' H Heq. subst c.
  destruct e' as [s|l|s]; simpl in H.
  - destruct H as [Hne Hv].
    destruct (active_thread_index s) as [a|] eqn:Ha; try congruence.
    specialize (Hv a eq_refl).
    unfold active_thread_index in Ha.
    rewrite (find_index_tstat Active _ _ Ha) in Hv. discriminate.
  - lia.
  - destruct H as [H1 H2]. congruence.
Qed.

Lemma ext_choice : forall e e', ext e e' -> choice_of e' = choice_of e.
Proof.
  intros e e' H; destruct H as [e|s th' Hex Hth]; auto.
  simpl. unfold active_thread_index; simpl.
  rewrite <- (ext_t_active_index _ _ Hth). reflexivity.
Qed.

Lemma ext_precc : forall c e e', ext e e' -> precc c e -> precc c e'.
Proof.
  intros c e e' H; destruct H as [e|s th' Hex Hth]; auto.
  destruct c as [o|n|b]; simpl; auto.
  unfold active_thread_index; simpl.
  rewrite <- (ext_t_active_index _ _ Hth).
  intros [Hne Hv]; split; auto.
  intros a Ha. eapply ext_threads_kept; eauto. discriminate.
Qed.

Lemma advance_precc_base :
  forall e e2, advance_entry e = Some e2 -> precc (choice_of e) e2.
Proof.
  intros e e2 H. destruct (advance_entry_inv _ _ H) as [s th _ Hth|l _ Hlt|s _ Hsp]; simpl.
  - unfold active_thread_index; simpl. split.
    + eapply activate_pending_active; eauto.
    + intros a Ha.
      destruct (advance_threads_nth _ _ a Hth) as [(Hne & _)|[(_ & _ & Hv)|(Hne & _)]];
        congruence.
  - lia.
  - auto.
Qed.

Lemma advance_precc_keep :
  forall c e e2, advance_entry e = Some e2 -> precc c e -> precc c e2.
Proof.
  intros c e e2 H.
  destruct (advance_entry_inv _ _ H) as [s th _ Hth|l _ Hlt|s _ Hsp];
    destruct c as [o|n|b]; simpl; auto.
  - intros [_ Hv]. unfold active_thread_index at 1; simpl. split.
    + eapply activate_pending_active; eauto.
    + intros a Ha. specialize (Hv a Ha).
      destruct (advance_threads_nth _ _ a Hth) as [(_ & Hn)|[(_ & _ & Hn)|(_ & Hp & _)]];
        congruence.
  - intros [H1 H2]. congruence.
Qed.

(* ---------- the relation between an earlier and a later path ---------- *)

Definition R (p p' : path) : Prop :=
  exists q c e',
    firstn q (choices p) = firstn q (choices p') /\
    nth_error (choices p) q = Some c /\
    nth_error (branches p') q = Some e' /\
    precc c e'.

Lemma R_diverge : forall p p', R p p' -> exists q, diverge_at (choices p) (choices p') q.
Proof.
  intros p p' [q [c [e' [Hf [Hc [He Hp]]]]]].
  exists q. split; auto.
  exists c, (choice_of e'). repeat split; auto.
  - unfold choices. apply map_nth_error. exact He.
  - apply precc_neq. exact Hp.
Qed.

Lemma choices_app_firstn :
  forall (pre : list entry) x y,
    firstn (length pre) (map choice_of (pre ++ x)) =
    firstn (length pre) (map choice_of (pre ++ y)).
Proof.
  intros pre x y. rewrite !map_app.
  rewrite <- (map_length choice_of pre).
  rewrite !firstn_app, !Nat.sub_diag. simpl. rewrite !firstn_all. reflexivity.
Qed.

(* step establishes R between the path it is applied to and its result *)
Lemma step_R_base : forall E S, step E = Some S -> R E S.
Proof.
  intros E S H.
  destruct (step_cases _ _ H) as (pre & e & e2 & post & HE & HS & Ha & _).
  exists (length pre), (choice_of e), e2. unfold choices. rewrite HE, HS.
  repeat split.
  - apply choices_app_firstn.
  - apply map_nth_error. rewrite nth_error_app2, Nat.sub_diag; auto.
  - rewrite nth_error_app2, Nat.sub_diag; auto.
  - apply advance_precc_base. exact Ha.
Qed.

(* step preserves R *)
Lemma step_R_pres : forall pi E S, step E = Some S -> R pi E -> R pi S.
Proof.
  intros pi E S H [q [c [e' [Hf [Hc [He Hp]]]]]].
  destruct (step_cases _ _ H) as (pre & e & e2 & post & HE & HS & Ha & _).
  assert (Hpre : firstn (length pre) (choices E) = firstn (length pre) (choices S)).
  { unfold choices. rewrite HE, HS. apply choices_app_firstn. }
  destruct (lt_eq_lt_dec q (length pre)) as [[Hlt|Heq]|Hgt].
  - (* the advanced slot is after q *)
    exists q, c, e'. repeat split; auto.
    + rewrite Hf. eapply firstn_agree_le; eauto. lia.
    + rewrite HS, nth_error_app1 by exact Hlt.
      rewrite HE, nth_error_app1 in He by exact Hlt. exact He.
  - (* the advanced slot is q *)
    subst q. exists (length pre), c, e2. repeat split; auto.
    + rewrite Hf. exact Hpre.
    + rewrite HS, nth_error_app2, Nat.sub_diag; auto.
    + rewrite HE, nth_error_app2, Nat.sub_diag in He; auto.
      simpl in He. inversion He; subst e'.
      eapply advance_precc_keep; eauto.
  - (* the advanced slot is before q: it is the new witness *)
    exists (length pre), (choice_of e), e2. repeat split.
    + rewrite (firstn_agree_le _ _ Hf (Nat.lt_le_incl _ _ Hgt)). exact Hpre.
    + rewrite (firstn_agree_nth _ _ Hf Hgt). unfold choices.
      apply map_nth_error. rewrite HE, nth_error_app2, Nat.sub_diag; auto.
    + rewrite HS, nth_error_app2, Nat.sub_diag; auto.
    + apply advance_precc_base. exact Ha.
Qed.

Lemma Forall2_ext_choices :
  forall l l', Forall2 ext l l' -> map choice_of l' = map choice_of l.
Proof.
  induction 1 as [|e e' l l' He Hl IH]; simpl; auto.
  rewrite (ext_choice He), IH. reflexivity.
Qed.

Lemma Forall2_nth_error :
  forall (A B : Type) (P : A -> B -> Prop) l l' i x,
    Forall2 P l l' -> nth_error l i = Some x ->
    exists y, nth_error l' i = Some y /\ P x y.
Proof.
  intros A B P l l' i x H Hn. pose proof (Forall2_nth _ _ _ _ _ i H) as Hi. rewrite Hn in Hi.
  destruct (nth_error l' i) as [y|]; [eauto|contradiction].
Qed.

(* an iteration preserves R *)
Lemma ext_R : forall pi S E', extends S E' -> R pi S -> R pi E'.
Proof.
  intros pi S E' [_ [_ [_ [old [new [Hb Hold]]]]]] [q [c [e' [Hf [Hc [He Hp]]]]]].
  destruct (Forall2_nth_error _ Hold He) as [e'' [He'' Hext]].
  assert (Hq : q < length (branches S)).
  { apply nth_error_Some. congruence. }
  exists q, c, e''. repeat split; auto.
  - rewrite Hf. unfold choices. rewrite Hb, map_app.
    rewrite (Forall2_ext_choices Hold).
    rewrite firstn_app.
    replace (q - length (map choice_of (branches S))) with 0
      by (rewrite map_length; lia).
    simpl. rewrite app_nil_r. reflexivity.
  - rewrite Hb. rewrite nth_error_app1; auto.
    apply nth_error_Some. congruence.
  - eapply ext_precc; eauto.
Qed.

(* ---------- the exploration loop ---------- *)

Section Explore.
  Variable it : path -> path.
  Hypothesis Hit : iter_ok it.

  (* from a start-of-iteration path related to pi, everything explored later
     is related to pi *)
  Lemma explore_R_from :
    forall n p pi j pj,
      wf_path p -> R pi p ->
      nth_error (explore it n p) j = Some pj -> R pi pj.
  Proof.
    induction n as [|n IH]; intros p pi j pj Hwf HR Hj; simpl in Hj.
    - destruct j; discriminate.
    - destruct (Hit Hwf) as [Hext Hwf'].
      assert (HR' : R pi (it p)) by (eapply ext_R; eauto).
      destruct j as [|j]; simpl in Hj.
      + inversion Hj; subst. exact HR'.
      + destruct (step (it p)) as [p'|] eqn:Hs.
        * eapply IH; [ | | exact Hj].
          -- eapply step_wf; eauto.
          -- eapply step_R_pres; eauto.
        * destruct j; discriminate.
  Qed.

  Lemma explore_R :
    forall n p i j pi pj,
      wf_path p ->
      nth_error (explore it n p) i = Some pi ->
      nth_error (explore it n p) j = Some pj ->
      i < j -> R pi pj.
  Proof.
    induction n as [|n IH]; intros p i j pi pj Hwf Hi Hj Hlt; simpl in Hi, Hj.
    - destruct i; discriminate.
    - destruct (Hit Hwf) as [Hext Hwf'].
      destruct j as [|j]; [lia|]. simpl in Hj.
      destruct (step (it p)) as [p'|] eqn:Hs; [|destruct j; discriminate].
      assert (Hwfp' : wf_path p') by (eapply step_wf; eauto).
      destruct i as [|i]; simpl in Hi.
      + inversion Hi; subst pi.
        eapply explore_R_from; [exact Hwfp' | | exact Hj].
        apply step_R_base. exact Hs.
      + eapply IH; [exact Hwfp' | exact Hi | exact Hj | lia].
  Qed.
End Explore.

Theorem decisions_distinct :
  forall it n p i j pi pj,
    iter_ok it -> wf_path p ->
    nth_error (explore it n p) i = Some pi ->
    nth_error (explore it n p) j = Some pj ->
    i < j ->
    exists q, diverge_at (choices pi) (choices pj) q.
Proof.
  intros it n p i j pi pj Hit Hwf Hi Hj Hlt.
  apply R_diverge. eapply explore_R; eauto.
Qed.

Lemma diverge_at_neq : forall a b q, diverge_at a b q -> a <> b.
Proof.
  intros a b q [_ [x [y [Hx [Hy Hne]]]]] Heq. subst b. congruence.
Qed.

(* the consecutive case, stated on its own *)
Corollary consecutive_diverge :
  forall it n p i pi pj,
    iter_ok it -> wf_path p ->
    nth_error (explore it n p) i = Some pi ->
    nth_error (explore it n p) (S i) = Some pj ->
    exists q, diverge_at (choices pi) (choices pj) q.
Proof.
  intros it n p i pi pj Hit Hwf Hi Hj.
  eapply decisions_distinct; eauto.
Qed.

Corollary decisions_nodup :
  forall it n p, iter_ok it -> wf_path p -> NoDup (map choices (explore it n p)).
Proof.
  intros it n p Hit Hwf.
  apply NoDup_nth_error. intros i j Hi Heq.
  rewrite map_length in Hi.
  destruct (nth_error (explore it n p) i) as [pi|] eqn:Hpi;
    [|apply nth_error_None in Hpi; lia].
  rewrite (map_nth_error choices _ _ Hpi) in Heq. symmetry in Heq.
  destruct (nth_error_map_inv _ _ _ Heq) as [pj [Hpj Hc]].
  destruct (lt_eq_lt_dec i j) as [[Hlt|He]|Hgt]; auto; exfalso.
  - destruct (@decisions_distinct _ _ _ _ _ _ _ Hit Hwf Hpi Hpj Hlt) as [q Hd].
    exact (diverge_at_neq Hd Hc).
  - destruct (@decisions_distinct _ _ _ _ _ _ _ Hit Hwf Hpj Hpi Hgt) as [q Hd].
    exact (diverge_at_neq Hd (eq_sym Hc)).
Qed.

Print Assumptions decisions_distinct.
Print Assumptions decisions_nodup.
