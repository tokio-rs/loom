(* C15, independent reading: "with preemption_bound = Some n every explored
   execution contains at most n switches away from a thread that could have
   continued".

   PathApi.v proves that loom's STORED count ([preemptions s]) never exceeds
   the bound.  This file defines the count independently of the stored fields
   ([switches]: look only at which thread is Active in consecutive Schedule
   entries and whether the thread that was running is still runnable), and
   proves that the stored count is an upper bound of it:

       switches (branches p) <= preemptions (last Schedule entry) <= bound.

   The link between the two is a well-formedness invariant of the stack
   ([pre_inv]) which is established by [path_new] and preserved by every API
   function and by [step].  [branch_thread] preserves it only for seeds that
   satisfy [seed_switch_ok]: if the seed does not keep the previously running
   thread Active, that thread is Disabled or Yield in the seed.  This is a
   property of the caller (Execution::schedule), not of path.rs; it is stated
   on the seed list and the previously active thread only. *)
Require Import LV.Base LV.Path LV.PathSpec LV.PathApi.
From Coq Require Import Lia.

(* ------------------------------------------------------------------ *)
(* 1. the independent count                                            *)
(* ------------------------------------------------------------------ *)

Fixpoint sched_entries (b : list entry) : list schedule :=
  match b with
  | [] => []
  | ESched s :: t => s :: sched_entries t
  | _ :: t => sched_entries t
  end.

Definition runnable_status (t : tstat) : bool :=
  match t with
  | Active | Skip | Pending | Visited => true
  | Disabled | TYield => false
  end.

(* status of thread [u] at a scheduling point (threads beyond the array do
   not exist: Disabled) *)
Definition thread_status (s : schedule) (u : nat) : tstat := nth u (s_threads s) Disabled.

(* a switch away from a thread that could have continued *)
Definition switch_at (prev : option nat) (s : schedule) : bool :=
  match active_thread_index s, prev with
  | Some t, Some u => negb (Nat.eqb t u) && runnable_status (thread_status s u)
  | _, _ => false
  end.

Fixpoint switches_from (prev : option nat) (l : list schedule) : nat :=
  match l with
  | [] => 0
  | s :: t => (if switch_at prev s then 1 else 0) + switches_from (active_thread_index s) t
  end.

(* the thread running before the first scheduling point is the main thread *)
Definition switches (b : list entry) : nat := switches_from (Some 0) (sched_entries b).

Fixpoint last_opt (l : list schedule) : option schedule :=
  match l with
  | [] => None
  | s :: t => match last_opt t with Some x => Some x | None => Some s end
  end.

Definition last_sched (b : list entry) : option schedule := last_opt (sched_entries b).

(* the thread that is running at the end of the stack *)
Definition prev_active (b : list entry) : option nat :=
  match last_sched b with
  | Some s => active_thread_index s
  | None => Some 0
  end.

(* ------------------------------------------------------------------ *)
(* 2. the invariant                                                    *)
(* ------------------------------------------------------------------ *)

(* what a new Schedule entry reads from the stack below it: index, current
   preemptions and current active thread of the last Schedule entry *)
Record st := mkSt { st_idx : option nat; st_pre : nat; st_act : option nat }.

Definition st0 : st := mkSt None 0 (Some 0).
Definition st_of (idx : nat) (s : schedule) : st :=
  mkSt (Some idx) (preemptions s) (active_thread_index s).

Fixpoint st_after (idx : nat) (a : st) (b : list entry) : st :=
  match b with
  | [] => a
  | ESched s :: t => st_after (S idx) (st_of idx s) t
  | _ :: t => st_after (S idx) a t
  end.

(* the k-th Schedule entry [s] against its predecessor (summarised by [a]):
     - s_prev points to the predecessor (None for the first entry);
     - s_pre is the predecessor's preemptions (0 for the first entry);
     - for k > 0, initial_active, when set, is the predecessor's active thread;
     - initial_active is the previously running thread, or else the
       previously running thread is not runnable at this point. *)
Definition link (a : st) (s : schedule) : Prop :=
  s_prev s = st_idx a /\
  s_pre s = st_pre a /\
  (st_idx a <> None -> forall i, s_ia s = Some i -> st_act a = Some i) /\
  (s_ia s = st_act a \/
   forall u, st_act a = Some u -> runnable_status (thread_status s u) = false).

Fixpoint pre_inv_from (idx : nat) (a : st) (b : list entry) : Prop :=
  match b with
  | [] => True
  | ESched s :: t => link a s /\ pre_inv_from (S idx) (st_of idx s) t
  | _ :: t => pre_inv_from (S idx) a t
  end.

Definition pre_inv (b : list entry) : Prop := pre_inv_from 0 st0 b.

(* ---- the hypothesis on seeds ---- *)
(* if the seed does not make the previously running thread [u] Active, then
   [u] is Disabled or Yield in the seed (threads beyond the seed: Disabled) *)
Definition seed_switch_ok (pa : option nat) (seed : list tstat) : Prop :=
  forall u, pa = Some u -> find_index is_active seed <> Some u ->
            nth u seed Disabled = Disabled \/ nth u seed Disabled = TYield.

Definition seed_ok (pa : option nat) (seed : list tstat) : Prop :=
  seed_switch_ok pa seed /\ Forall (fun t => t <> Pending /\ t <> Visited) seed.

(* three ways to establish it, matching Execution::schedule: the running
   thread stays Active / the running thread is blocked or yielded / there is
   no running thread *)
Lemma seed_switch_ok_keep pa seed :
  find_index is_active seed = pa -> seed_switch_ok pa seed.
Proof. intros Heq u Hu Hne. exfalso. apply Hne. congruence. Qed.

Lemma seed_switch_ok_blocked u seed :
  nth u seed Disabled = Disabled \/ nth u seed Disabled = TYield ->
  seed_switch_ok (Some u) seed.
Proof. intros H v Hv _. injection Hv as <-. exact H. Qed.

Lemma seed_switch_ok_none seed : seed_switch_ok None seed.
Proof. intros u Hu. discriminate. Qed.

(* ------------------------------------------------------------------ *)
(* 3. the theorem: stored count >= independent count                   *)
(* ------------------------------------------------------------------ *)

Lemma preemptions_ge s : s_pre s <= preemptions s.
Proof.
  unfold preemptions.
  destruct (is_some (s_ia s) && negb (opt_nat_eqb (s_ia s) (active_thread_index s))); lia.
Qed.

Lemma switch_at_counted a s :
  link a s -> switch_at (st_act a) s = true -> preemptions s = S (s_pre s).
Proof.
  intros (_ & _ & _ & H4) Hsw. unfold switch_at in Hsw.
  destruct (active_thread_index s) as [t|] eqn:Hact; [|discriminate].
  destruct (st_act a) as [u|] eqn:Hpa; [|discriminate].
  apply andb_true_iff in Hsw. destruct Hsw as [Hne Hrun].
  destruct H4 as [Hia|Hnr].
  - unfold preemptions. rewrite Hia, Hact. cbn [is_some opt_nat_eqb andb].
    rewrite Nat.eqb_sym. rewrite Hne. reflexivity.
  - rewrite (Hnr u eq_refl) in Hrun. discriminate.
Qed.

Lemma switches_from_le b : forall idx a,
  pre_inv_from idx a b ->
  switches_from (st_act a) (sched_entries b) + st_pre a <= st_pre (st_after idx a b).
Proof.
  induction b as [|e b IH]; intros idx a H; cbn [sched_entries st_after switches_from].
  - lia.
  - destruct e as [s|l|sp]; cbn [pre_inv_from] in H; [|apply IH; exact H..].
    destruct H as [Hl Hr]. cbn [switches_from].
    specialize (IH _ _ Hr). cbn [st_of st_act st_pre] in IH.
    assert (Hs : (if switch_at (st_act a) s then 1 else 0) + st_pre a <= preemptions s).
    { destruct (switch_at (st_act a) s) eqn:Hsw.
      - rewrite (switch_at_counted _ _ Hl Hsw).
        destruct Hl as (_ & -> & _). lia.
      - pose proof (preemptions_ge s) as Hge.
        destruct Hl as (_ & Hpre & _). lia. }
    lia.
Qed.

Lemma st_after_last b : forall idx a,
  match last_sched b with
  | Some s => exists i, st_after idx a b = st_of i s
  | None => st_after idx a b = a
  end.
Proof.
  unfold last_sched.
  induction b as [|e b IH]; intros idx a; cbn [sched_entries last_opt st_after].
  - reflexivity.
  - destruct e as [s|l|sp]; [|apply IH..].
    cbn [last_opt]. specialize (IH (S idx) (st_of idx s)).
    destruct (last_opt (sched_entries b)) as [x|].
    + exact IH.
    + exists idx. exact IH.
Qed.

Lemma prev_active_st b : prev_active b = st_act (st_after 0 st0 b).
Proof.
  unfold prev_active. pose proof (st_after_last b 0 st0) as H.
  destruct (last_sched b) as [s|].
  - destruct H as [i ->]. reflexivity.
  - rewrite H. reflexivity.
Qed.

Lemma last_sched_none_switches b : last_sched b = None -> switches b = 0.
Proof.
  unfold last_sched, switches. destruct (sched_entries b) as [|s t]; [reflexivity|].
  cbn [last_opt]. destruct (last_opt t); discriminate.
Qed.

Theorem switches_le_preemptions b :
  pre_inv b ->
  forall s, last_sched b = Some s -> switches b <= preemptions s.
Proof.
  intros Hinv s Hlast.
  pose proof (switches_from_le _ _ _ Hinv) as Hle.
  pose proof (st_after_last b 0 st0) as Hst. rewrite Hlast in Hst.
  destruct Hst as [i Hst]. rewrite Hst in Hle. cbn [st0 st_act st_pre st_of] in Hle.
  unfold switches. lia.
Qed.

Lemma last_opt_In l s : last_opt l = Some s -> In s l.
Proof.
  induction l as [|x l IH]; cbn [last_opt]; [discriminate|].
  destruct (last_opt l) as [y|]; intros H; injection H as <-.
  - right. apply IH. reflexivity.
  - left. reflexivity.
Qed.

Lemma sched_entries_In b s : In s (sched_entries b) -> In (ESched s) b.
Proof.
  induction b as [|e b IH]; cbn [sched_entries]; [auto|].
  destruct e as [s0|l|sp]; cbn [In]; intros H.
  - destruct H as [->|H]; auto.
  - right; auto.
  - right; auto.
Qed.

Lemma last_sched_In b s : last_sched b = Some s -> In (ESched s) b.
Proof. intros H. apply sched_entries_In, last_opt_In. exact H. Qed.

Corollary switches_le_bound p bd :
  pre_inv (branches p) -> c15_inv p -> bound p = Some bd ->
  switches (branches p) <= bd.
Proof.
  intros Hinv Hc Hbd.
  destruct (last_sched (branches p)) as [s|] eqn:Hlast.
  - pose proof (switches_le_preemptions _ Hinv _ Hlast) as H1.
    pose proof (preemptions_le_bound p bd Hc Hbd s (last_sched_In _ _ Hlast)) as H2. lia.
  - rewrite (last_sched_none_switches _ Hlast). lia.
Qed.

(* ------------------------------------------------------------------ *)
(* 4. [last_sched] is what path.rs reads through [last_schedule]       *)
(* ------------------------------------------------------------------ *)

Lemma get_sched_cons e b i : get_sched (e :: b) (S i) = get_sched b i.
Proof. reflexivity. Qed.

Lemma fli_spec b : forall idx a,
  match find_last_index is_sched b with
  | Some i => exists s, get_sched b i = Some s /\ last_sched b = Some s /\
                        st_after idx a b = st_of (idx + i) s
  | None => last_sched b = None /\ st_after idx a b = a
  end.
Proof.
  unfold last_sched.
  induction b as [|e b IH]; intros idx a; cbn [find_last_index].
  - split; reflexivity.
  - destruct (find_last_index is_sched b) as [i|].
    + assert (Hany : forall a', exists s,
                get_sched b i = Some s /\ last_opt (sched_entries b) = Some s /\
                st_after (S idx) a' b = st_of (S idx + i) s) by (intros a'; apply IH).
      replace (idx + S i) with (S idx + i) by lia.
      destruct e as [s0|l|sp]; cbn [sched_entries last_opt st_after];
        [destruct (Hany (st_of idx s0)) as (s & H1 & H2 & H3)
        |destruct (Hany a) as (s & H1 & H2 & H3)..];
        exists s; rewrite get_sched_cons, H2; auto.
    + destruct e as [s0|l|sp]; cbn [is_sched sched_entries last_opt st_after].
      * destruct (IH (S idx) (st_of idx s0)) as [H1 H2].
        exists s0. rewrite H1, H2, Nat.add_0_r. auto.
      * apply IH.
      * apply IH.
Qed.

Lemma last_schedule_last_sched p :
  match last_schedule p with
  | Some i => get_sched (branches p) i
  | None => None
  end = last_sched (branches p).
Proof.
  unfold last_schedule. pose proof (fli_spec (branches p) 0 st0) as H.
  destruct (find_last_index is_sched (branches p)) as [i|].
  - destruct H as (s & H1 & H2 & _). congruence.
  - destruct H as [H _]. auto.
Qed.

(* ------------------------------------------------------------------ *)
(* 5. preservation                                                     *)
(* ------------------------------------------------------------------ *)

Lemma pre_inv_app b c : forall idx a,
  pre_inv_from idx a (b ++ c) <->
  pre_inv_from idx a b /\ pre_inv_from (idx + length b) (st_after idx a b) c.
Proof.
  induction b as [|e b IH]; intros idx a; cbn [app pre_inv_from st_after length].
  - rewrite Nat.add_0_r. tauto.
  - replace (idx + S (length b)) with (S idx + length b) by lia.
    destruct e as [s|l|sp]; rewrite IH; tauto.
Qed.

Lemma pre_inv_new : forall mb bd ex, pre_inv (branches (path_new mb bd ex)).
Proof. intros; exact I. Qed.

(* ---- entries that are not Schedule entries ---- *)
Lemma pre_inv_push_other b e :
  is_sched e = false -> pre_inv b -> pre_inv (b ++ [e]).
Proof.
  unfold pre_inv. intros He H. apply pre_inv_app. split; [exact H|].
  destruct e; [discriminate|exact I..].
Qed.

Lemma explore_state_pre_inv p p' :
  explore_state p = POk p' -> pre_inv (branches p) -> pre_inv (branches p').
Proof.
  intros H. destruct (explore_state_cases _ _ H) as [(_ & ->)|(_ & _ & ->)]; auto.
Qed.

Lemma critical_pre_inv p p' :
  critical p = POk p' -> pre_inv (branches p) -> pre_inv (branches p').
Proof.
  intros H. destruct (critical_cases _ _ H) as [(_ & ->)|(_ & _ & ->)]; auto.
Qed.

Lemma skip_branch_pre_inv p : pre_inv (branches p) -> pre_inv (branches (skip_branch p)).
Proof. auto. Qed.

Lemma push_load_pre_inv p seed p' :
  push_load p seed = POk p' -> pre_inv (branches p) -> pre_inv (branches p').
Proof.
  intros H. destruct (push_load_cases _ _ _ H) as (_ & _ & ->).
  cbn [set_branches branches]. apply pre_inv_push_other. reflexivity.
Qed.

Lemma branch_load_pre_inv p p' v :
  branch_load p = POk (p', v) -> pre_inv (branches p) -> pre_inv (branches p').
Proof. intros H. rewrite (branch_load_cases _ _ _ H). auto. Qed.

Lemma branch_spurious_pre_inv p p' b :
  branch_spurious p = POk (p', b) -> pre_inv (branches p) -> pre_inv (branches p').
Proof.
  intros H. destruct (branch_spurious_cases _ _ _ H) as [(_ & ->)|(_ & _ & ->)]; [auto|].
  cbn [set_pos set_branches branches]. apply pre_inv_push_other. reflexivity.
Qed.

Lemma ext_t_runnable t t' : ext_t t t' -> runnable_status t' = runnable_status t.
Proof. intros [->|[-> ->]]; reflexivity. Qed.

Lemma Forall2_ext_t_nth l l' :
  Forall2 ext_t l l' ->
  forall u, runnable_status (nth u l' Disabled) = runnable_status (nth u l Disabled).
Proof.
  intros H u. pose proof (Forall2_nth _ _ _ _ _ u H) as Hu.
  rewrite <- !nth_default_eq. unfold nth_default.
  destruct (nth_error l u), (nth_error l' u); try contradiction;
    [apply ext_t_runnable; exact Hu|reflexivity].
Qed.

(* [link] reads of [s] only s_prev, s_pre, s_ia and which threads are runnable *)
Lemma link_sim a s th :
  (forall u, runnable_status (nth u th Disabled)
             = runnable_status (nth u (s_threads s) Disabled)) ->
  link a s -> link a (mkSched (s_pre s) (s_ia s) th (s_prev s) (s_ex s)).
Proof.
  unfold link, thread_status. cbn [s_prev s_pre s_ia s_threads].
  intros Hr (H1 & H2 & H3 & H4). repeat split; auto.
  destruct H4 as [H4|H4]; [left; exact H4|right].
  intros u Hu. rewrite Hr. auto.
Qed.

(* ---- backtrack ---- *)
Lemma pre_inv_ext b b' :
  Forall2 ext b b' -> forall idx a, pre_inv_from idx a b -> pre_inv_from idx a b'.
Proof.
  induction 1 as [|e e' l l' He Hl IH]; intros idx a H; [exact I|].
  destruct (ext_inv _ _ He) as [->|(s & th & -> & -> & Hex & Hth)].
  - destruct e as [s|ld|sp]; cbn [pre_inv_from] in *; [|auto..].
    destruct H as [H1 H2]. auto.
  - cbn [pre_inv_from] in *. destruct H as [H1 H2]. split.
    + apply link_sim; [|exact H1]. apply Forall2_ext_t_nth. exact Hth.
    + assert (Hst : st_of idx (mkSched (s_pre s) (s_ia s) th (s_prev s) (s_ex s))
                    = st_of idx s).
      { unfold st_of. rewrite (preemptions_ext_t _ _ Hth).
        unfold active_thread_index. cbn [s_threads].
        rewrite <- (ext_t_active_index _ _ Hth). reflexivity. }
      rewrite Hst. auto.
Qed.

Lemma backtrack_pre_inv p point tid p' :
  backtrack p point tid = POk p' -> pre_inv (branches p) -> pre_inv (branches p').
Proof.
  intros H. destruct (backtrack_marks _ _ _ _ H) as (_ & _ & _ & _ & _ & _ & Hbr).
  apply pre_inv_ext. exact Hbr.
Qed.

(* ---- step: entry k advanced, the entries above it dropped ---- *)
Lemma step_pre_inv p p' :
  step p = Some p' -> pre_inv (branches p) -> pre_inv (branches p').
Proof.
  intros H Hinv.
  destruct (step_cases _ _ H) as (kept & e & e' & popped & Hb & Hb' & Hadv & _).
  unfold pre_inv in *. rewrite Hb in Hinv. rewrite Hb'.
  apply pre_inv_app in Hinv. destruct Hinv as [Hk He].
  apply pre_inv_app. split; [exact Hk|].
  destruct (advance_entry_inv _ _ Hadv) as [s th _ Hap| |]; [|exact I..].
  cbn [pre_inv_from] in *. destruct He as [Hl _].
  split; [|exact I]. apply link_sim; [|exact Hl].
  intros u. rewrite <- !nth_default_eq. unfold nth_default.
  destruct (advance_threads_nth _ _ u Hap) as [(_ & ->)|[(_ & -> & ->)|(_ & -> & ->)]];
    reflexivity.
Qed.

(* ---- branch_thread ---- *)
(* the thread array of a new Schedule entry *)
Definition seed_threads (seed : list tstat) : list tstat :=
  let threads0 := pad_to MAX_THREADS Disabled seed in
  match find_index is_active threads0 with
  | Some _ => threads0
  | None => activate_first_yield threads0
  end.

(* the Schedule entry [branch_thread] pushes on a traversed path; the same
   term as [PathApi.pushed_sched p seed] *)
Definition new_sched (p : path) (seed : list tstat) : schedule :=
  let threads := seed_threads seed in
  let active := find_index is_active threads in
  let prev_s := match last_schedule p with
                | Some i => get_sched (branches p) i
                | None => None
                end in
  let ia := match prev_s with
            | Some ps => if opt_nat_eqb active (active_thread_index ps) then active else None
            | None => active
            end in
  let pre := match prev_s with Some ps => preemptions ps | None => 0 end in
  mkSched pre ia threads (last_schedule p) (exploring p).

Lemma branch_thread_pushed p seed p' t :
  branch_thread p seed = POk (p', t) ->
  (is_traversed p = false /\ branches p' = branches p) \/
  (is_traversed p = true /\ length seed <= MAX_THREADS /\
   branches p' = branches p ++ [ESched (new_sched p seed)]).
Proof.
  intros H.
  destruct (branch_thread_inv _ _ _ _ H) as [(Htr & -> & _)|(Htr & _ & Hlen & _ & _ & -> & _)];
    auto.
Qed.

Lemma pad_to_nth n : forall l u,
  length l <= n -> nth u (pad_to n Disabled l) Disabled = nth u l Disabled.
Proof.
  induction n as [|n IH]; intros [|h t] u Hl; cbn [pad_to length] in *; try lia.
  - destruct u; reflexivity.
  - destruct u as [|u]; cbn [nth]; [reflexivity|].
    rewrite (IH [] u (Nat.le_0_l n)). destruct u; reflexivity.
  - destruct u as [|u]; cbn [nth]; [reflexivity|]. apply IH. lia.
Qed.

Lemma activate_first_yield_nth l :
  find_index is_active l = None ->
  forall u, nth u (activate_first_yield l) Disabled = nth u l Disabled \/
            find_index is_active (activate_first_yield l) = Some u.
Proof.
  induction l as [|h t IH]; intros Hna u; cbn [activate_first_yield]; [left; reflexivity|].
  cbn [find_index] in Hna.
  destruct (is_active h) eqn:Hh; [discriminate|].
  destruct (find_index is_active t) as [j|] eqn:Ht; [discriminate|].
  specialize (IH eq_refl).
  destruct h; try discriminate;
    try (destruct u as [|u]; [left; reflexivity|];
         destruct (IH u) as [IHu|IHu]; [left; exact IHu|right];
         cbn [find_index is_active tstat_eqb]; rewrite IHu; reflexivity).
  (* h = TYield *)
  destruct u as [|u]; [right; reflexivity|left; reflexivity].
Qed.

(* the seed hypothesis, carried to the thread array of the new entry *)
Lemma seed_threads_ok pa seed :
  length seed <= MAX_THREADS -> seed_switch_ok pa seed ->
  forall u, pa = Some u -> find_index is_active (seed_threads seed) <> Some u ->
            runnable_status (nth u (seed_threads seed) Disabled) = false.
Proof.
  intros Hlen Hseed u Hu. unfold seed_threads. cbv zeta.
  pose proof (find_index_pad _ is_active Disabled MAX_THREADS seed eq_refl Hlen) as Hfi.
  pose proof (fun v => pad_to_nth MAX_THREADS seed v Hlen) as Hnth.
  set (TH0 := pad_to MAX_THREADS Disabled seed) in *.
  destruct (find_index is_active TH0) as [j|] eqn:Hact; intros Hne; cbv iota in Hne |- *.
  - rewrite Hact, Hfi in Hne. rewrite Hnth.
    destruct (Hseed u Hu Hne) as [->| ->]; reflexivity.
  - destruct (activate_first_yield_nth _ Hact u) as [Heq|Heq]; [|contradiction].
    rewrite Heq, Hnth.
    destruct (Hseed u Hu) as [->| ->]; try reflexivity. rewrite <- Hfi. discriminate.
Qed.

Lemma new_sched_link p seed :
  length seed <= MAX_THREADS ->
  seed_switch_ok (prev_active (branches p)) seed ->
  link (st_after 0 st0 (branches p)) (new_sched p seed).
Proof.
  intros Hlen Hseed. rewrite prev_active_st in Hseed.
  pose proof (seed_threads_ok _ _ Hlen Hseed) as Hok.
  unfold new_sched, last_schedule. cbv zeta.
  pose proof (fli_spec (branches p) 0 st0) as Hf.
  set (ACT := find_index is_active (seed_threads seed)) in *.
  destruct (find_last_index is_sched (branches p)) as [i|].
  - destruct Hf as (ps & Hg & _ & Hst). cbn [Nat.add] in Hst.
    rewrite Hg, Hst in *. cbn [st_of st_act st_idx st_pre] in *.
    unfold link, thread_status. cbn [s_prev s_pre s_ia s_threads st_idx st_pre st_act st_of st0].
    split; [reflexivity|]. split; [reflexivity|].
    destruct (opt_nat_eqb ACT (active_thread_index ps)) eqn:Heq.
    + apply opt_nat_eqb_eq in Heq. split.
      * intros _ j Hj. congruence.
      * left. exact Heq.
    + split.
      * intros _ j Hj. discriminate.
      * right. intros u Hu. apply Hok; [exact Hu|].
        intros Hc. rewrite Hc, <- Hu, opt_nat_eqb_refl in Heq. discriminate.
  - destruct Hf as [_ Hst]. rewrite Hst in *. cbn [st0 st_act st_idx st_pre] in *.
    unfold link, thread_status. cbn [s_prev s_pre s_ia s_threads st_idx st_pre st_act st_of st0].
    split; [reflexivity|]. split; [reflexivity|]. split.
    + intros Hc. exfalso. apply Hc. reflexivity.
    + destruct (opt_nat_eqb ACT (Some 0)) eqn:Heq.
      * left. apply opt_nat_eqb_eq. exact Heq.
      * right. intros u Hu. apply Hok; [exact Hu|].
        intros Hc. rewrite Hc, <- Hu, opt_nat_eqb_refl in Heq. discriminate.
Qed.

(* the seed matters only when an entry is pushed (path traversed) *)
Lemma branch_thread_pre_inv_gen p seed p' t :
  pre_inv (branches p) ->
  (is_traversed p = true -> seed_switch_ok (prev_active (branches p)) seed) ->
  branch_thread p seed = POk (p', t) -> pre_inv (branches p').
Proof.
  intros Hinv Hseed H.
  destruct (branch_thread_pushed _ _ _ _ H) as [(_ & ->)|(Htr & Hlen & ->)]; [exact Hinv|].
  unfold pre_inv. apply pre_inv_app. split; [exact Hinv|].
  cbn [pre_inv_from]. split; [|exact I].
  apply new_sched_link; auto.
Qed.

Lemma branch_thread_pre_inv p seed p' t :
  pre_inv (branches p) ->
  seed_ok (prev_active (branches p)) seed ->
  branch_thread p seed = POk (p', t) -> pre_inv (branches p').
Proof.
  intros Hinv [Hseed _]. apply branch_thread_pre_inv_gen; auto.
Qed.

(* initial_active of a pushed entry, when set, is the Active thread of its
   (completed) seed *)
Lemma new_sched_ia p seed i :
  s_ia (new_sched p seed) = Some i ->
  find_index is_active (seed_threads seed) = Some i.
Proof.
  unfold new_sched. cbv zeta. cbn [s_ia].
  destruct (match last_schedule p with Some j => get_sched (branches p) j | None => None end)
    as [ps|]; [|auto].
  destruct (opt_nat_eqb _ _); [auto|discriminate].
Qed.

(* ------------------------------------------------------------------ *)
(* 6. every path reachable through the API                             *)
(* ------------------------------------------------------------------ *)

Inductive reach (mb : nat) (bd : option nat) (ex : bool) : path -> Prop :=
  | r_new : reach mb bd ex (path_new mb bd ex)
  | r_explore p p' : reach mb bd ex p -> explore_state p = POk p' -> reach mb bd ex p'
  | r_critical p p' : reach mb bd ex p -> critical p = POk p' -> reach mb bd ex p'
  | r_skip p : reach mb bd ex p -> reach mb bd ex (skip_branch p)
  | r_push_load p seed p' : reach mb bd ex p -> push_load p seed = POk p' -> reach mb bd ex p'
  | r_branch_load p p' v : reach mb bd ex p -> branch_load p = POk (p', v) -> reach mb bd ex p'
  | r_branch_spurious p p' b :
      reach mb bd ex p -> branch_spurious p = POk (p', b) -> reach mb bd ex p'
  | r_branch_thread p seed p' t :
      reach mb bd ex p ->
      (is_traversed p = true -> seed_ok (prev_active (branches p)) seed) ->
      branch_thread p seed = POk (p', t) -> reach mb bd ex p'
  | r_backtrack p point tid p' :
      reach mb bd ex p -> backtrack p point tid = POk p' -> reach mb bd ex p'
  | r_step p p' : reach mb bd ex p -> step p = Some p' -> reach mb bd ex p'.

Lemma seed_ok_no_pending pa seed : seed_ok pa seed -> Forall (fun t => t <> Pending) seed.
Proof. intros [_ H]. eapply Forall_impl; [|exact H]. cbn. tauto. Qed.

Lemma reach_inv mb bd ex p :
  reach mb bd ex p -> bound p = bd /\ pre_inv (branches p) /\ c15_inv p.
Proof.
  induction 1 as [|p p' Hr IH H|p p' Hr IH H|p Hr IH|p seed p' Hr IH H|p p' v Hr IH H
                 |p p' b Hr IH H|p seed p' t Hr IH Hseed H|p point tid p' Hr IH H
                 |p p' Hr IH H];
    try destruct IH as (Hb & Hp & Hc).
  - repeat split. constructor.
  - destruct (explore_state_extends _ _ H) as [(Hb' & _) _].
    split; [congruence|]. eauto using explore_state_pre_inv, explore_state_c15.
  - destruct (critical_extends _ _ H) as [(Hb' & _) _].
    split; [congruence|]. eauto using critical_pre_inv, critical_c15.
  - repeat split; auto using skip_branch_c15.
  - destruct (push_load_extends _ _ _ H) as [(Hb' & _) _].
    split; [congruence|]. eauto using push_load_pre_inv, push_load_c15.
  - destruct (branch_load_extends _ _ _ H) as [(Hb' & _) _].
    split; [congruence|]. eauto using branch_load_pre_inv, branch_load_c15.
  - destruct (branch_spurious_extends _ _ _ H) as [(Hb' & _) _].
    split; [congruence|]. eauto using branch_spurious_pre_inv, branch_spurious_c15.
  - destruct (branch_thread_extends _ _ _ _ H) as [(Hb' & _) _].
    split; [congruence|]. split.
    + eapply branch_thread_pre_inv_gen; [exact Hp| |exact H].
      intros Htr. apply (Hseed Htr).
    + destruct (branch_thread_cases _ _ _ _ H) as [(_ & ->)|(Htr & _)].
      * eapply c15_same_branches; [| |exact Hc]; reflexivity.
      * eapply branch_thread_c15; [|exact H|exact Hc].
        eapply seed_ok_no_pending. exact (Hseed Htr).
  - destruct (backtrack_extends _ _ _ _ H) as [(Hb' & _) _].
    split; [congruence|]. eauto using backtrack_pre_inv, backtrack_c15.
  - destruct (step_cases _ _ H) as (_ & _ & _ & _ & _ & _ & _ & _ & Hb' & _).
    split; [congruence|]. eauto using step_pre_inv, step_c15.
Qed.

(* C15 *)
Theorem reach_switches_le_bound mb n ex p :
  reach mb (Some n) ex p -> switches (branches p) <= n.
Proof.
  intros H. destruct (reach_inv _ _ _ _ H) as (Hb & Hp & Hc).
  eapply switches_le_bound; eassumption.
Qed.

(* ------------------------------------------------------------------ *)
(* 7. two concrete stacks                                              *)
(* ------------------------------------------------------------------ *)

(* (i) two threads; thread 0 runs, is preempted at the second scheduling point
   in favour of thread 1: one switch, one stored preemption.
   The stack is the one the API builds: two branch_thread calls, a backtrack
   request for thread 1 at the second point, step. *)
Definition run_i : option path :=
  match branch_thread (path_new 1000 (Some 2) true) [Active; Skip] with
  | POk (p1, _) =>
      match branch_thread p1 [Active; Skip] with
      | POk (p2, _) =>
          match backtrack p2 1 1 with
          | POk p3 => step p3
          | PErr _ => None
          end
      | PErr _ => None
      end
  | PErr _ => None
  end.

Definition stack_i : list entry :=
  [ ESched (mkSched 0 (Some 0) [Active; Pending; Disabled; Disabled; Disabled] None true);
    ESched (mkSched 0 (Some 0) [Visited; Active; Disabled; Disabled; Disabled] (Some 0) true) ].

Example run_i_stack : option_map branches run_i = Some stack_i.
Proof. vm_compute. reflexivity. Qed.

Example stack_i_counts :
  switches stack_i = 1 /\
  option_map preemptions (last_sched stack_i) = Some 1.
Proof. vm_compute. split; reflexivity. Qed.

(* (ii) at the first scheduling point the running thread 0 is blocked; the
   default choice is thread 1 (initial_active = Some 1), and the exploration
   then runs thread 2 instead.  Thread 0 could not have continued, so this is
   not a switch in the independent reading, but loom counts a preemption. *)
Definition run_ii : option path :=
  match branch_thread (path_new 1000 (Some 2) true) [Disabled; Active; Skip] with
  | POk (p1, _) =>
      match backtrack p1 0 2 with
      | POk p2 => step p2
      | PErr _ => None
      end
  | PErr _ => None
  end.

Definition stack_ii : list entry :=
  [ ESched (mkSched 0 (Some 1) [Disabled; Visited; Active; Disabled; Disabled] None true) ].

Example run_ii_stack : option_map branches run_ii = Some stack_ii.
Proof. vm_compute. reflexivity. Qed.

Example stack_ii_counts :
  switches stack_ii = 0 /\
  option_map preemptions (last_sched stack_ii) = Some 1.
Proof. vm_compute. split; reflexivity. Qed.

(* both seeds used above satisfy the seed hypothesis *)
Example seed_i_ok : seed_ok (Some 0) [Active; Skip].
Proof.
  split.
  - intros u Hu Hne. injection Hu as <-. exfalso. apply Hne. reflexivity.
  - repeat constructor; discriminate.
Qed.

Example seed_ii_ok : seed_ok (Some 0) [Disabled; Active; Skip].
Proof.
  split.
  - intros u Hu _. injection Hu as <-. left. reflexivity.
  - repeat constructor; discriminate.
Qed.

Print Assumptions switches_le_preemptions.
Print Assumptions switches_le_bound.
Print Assumptions branch_thread_pre_inv.
Print Assumptions backtrack_pre_inv.
Print Assumptions step_pre_inv.
Print Assumptions reach_switches_le_bound.
