(* DporFacts: the DPOR rule of Execution::schedule as a theorem -- every race
   that the dependence check detects is registered on the decision stack, so
   that (with PathExhaust.dfs_exhaustive) the reversed order gets explored.

   CONTENTS
   1. Schedule::backtrack
        at_bound s bd        the early return: the STORED count s_pre s equals the bound
        bt_threads, bt_sched what the call does to the thread array / the entry
        sched_backtrack_eq       the call as an equation: two checks, then bt_sched
        sched_backtrack_spec     sched_backtrack s tid bd = POk s' <->
                                 s_ex s = true /\ opt_le_bound (s_pre s) bd = true /\
                                 s' = bt_sched s tid bd             (exact)
        st_le, sched_le          the order in which the call moves an entry: statuses
                                 go Skip -> Pending, nothing else changes
        sched_le_bt_sched, sched_le_active
        sched_backtrack_effect   the readable form (fields, active thread, preemptions
                                 unchanged; at the bound nothing changes; tid enabled:
                                 status explore_t, nothing else; tid Disabled: map explore_t;
                                 tid beyond the array: nothing)
        sched_backtrack_err, bt_sched_idem, sched_backtrack_again (idempotent)
   2. Path::backtrack
        find_backtrack_point_S (one turn of the loop)
        find_backtrack_point_spec / _complete / _none / _total / _err
        find_backtrack_point_hit_ext
        backtrack_spec, backtrack_spec_unbounded, backtrack_err
   3. Monotonicity
        entry_le, stack_le, path_le: sched_le entry by entry
        marked (Forall2 PathSpec.ext on the stack, the rest equal) implies path_le
        backtrack_mono, dpor_accesses_mono, dpor_loop_mono
        dpor_loop_keeps_status, find_backtrack_point_stable, find_backtrack_point_le
   4. The rule
        dpor_loop_registers (MAIN), dpor_loop_registers_status,
        dpor_loop_registers_unbounded, at_bound_preemptions, backtrack_at_bound_noop
   5. The bridge to the exploration
        registered_of_pending, registered_of_status, registered_extends, explore_bound
        race_reversal_explored, pending_explored,
        schedule_race_reversal_explored, run_race_reversal_explored,
        branch_race_reversal_explored
   6. Examples: dpor_two_stores, dpor_two_stores_registered,
        dpor_loop_registers_nonvacuous; what the rule does not cover:
        yield_race_not_registered, dpor_loop_yield_not_registered,
        yield_race_reversal_missed (END TO END, a missed outcome),
        bound_race_not_registered, early_return_uses_stored_count

   DEVIATIONS from the requested statements
   (1) The early return of Schedule::backtrack tests the stored field
       [s_pre s] (self.preemptions in path.rs), not the method
       [preemptions s] (= s_pre s, plus one when initial_active differs from
       the active thread).  All statements use [at_bound s bd]
       (bd = Some (s_pre s)).  [at_bound_preemptions]: preemptions s < b implies
       at_bound s (Some b) = false; [early_return_uses_stored_count] is an entry
       with preemptions() = bound that still registers.
   (2) "the status of tid is no longer Skip" is proved as: the status is
       [explore_t] of the old one.  For a thread whose status is Yield this
       means Yield again: such a thread is "enabled" (not Disabled), so the
       conservative fallback does not fire, and Thread::explore leaves Yield
       alone.  Hence a detected race of a thread that is Yield at the
       backtrack point is NOT registered although the bound allows it:
       [yield_race_not_registered] (one backtrack call),
       [dpor_loop_yield_not_registered] (all hypotheses of the main theorem),
       and END TO END [yield_race_reversal_missed]:
           main: spawn t1; r0 = x.fetch_add(1); join t1
           t1:   yield_now(); r1 = x.fetch_add(10)
       the exploration finishes normally after two iterations, both with
       r0 = 0, r1 = 1; the outcome r0 = 10, r1 = 0 (t1's RMW first), allowed by
       the reference semantics R, is never explored.  (Thread t1 is Yield at
       the entry at which main performed its RMW; the backtrack request for t1
       there is a no-op.)  The bridge theorems therefore assume
       [runnable_status t = true] (Skip / Pending / Active / Visited) for the
       status t of the racing thread at the backtrack point.
   (3) tid beyond the thread array (nth_error = None): nothing changes; the
       main theorem promises nothing in that case.  On a well formed path the
       arrays have length MAX_THREADS.
   (4) backtrack_spec: the second entry J changed by the conservative loop may
       coincide with i on an arbitrary stack (s_prev is not constrained here);
       Schedule::backtrack is idempotent, so entry i is then still exactly the
       Schedule::backtrack of the old entry i.
   (5) registered_of_pending needs [s_ex s = true] (it is part of the
       definition of [registered]); [registered_of_pending_needs_ex] is the
       counterexample without it.  At a backtrack point s_ex = true holds
       (find_backtrack_point_spec).
   (6) dpor_loop_registers needs no side condition on [ths] (a duplicated id
       is harmless: the first occurrence issues the request, everything after
       it is monotone) and the backtrack point is stable through the loop
       ([find_backtrack_point_le]: marks change neither entry kinds nor s_ex).
   (7) race_reversal_explored: the scheduling point is given as the pair
       (p, p') of the DPOR loop with [extends p' ek]; the concrete forms are
       schedule_race_reversal_explored (a call schedule es whose resulting
       path extends to ek), run_race_reversal_explored (a state reached by
       Scheduler::run inside iteration k whose next micro-operation calls
       schedule) and branch_race_reversal_explored (that micro-operation is an
       MBranch).  [bound p = None] is derived from preemption_bound c = None
       ([explore_bound]). *)
Require Import LV.Base LV.VV LV.Path LV.PathSpec LV.PathTerm LV.PathDistinct LV.PathApi
               LV.PathExhaust LV.PathPreempt LV.Prog LV.Objects LV.Exec LV.Atomic LV.Ops
               LV.Check LV.ExecFacts LV.ExecFacts2 LV.Ref LV.Outcome LV.Witness.
From Coq Require Import Lia.

(* ================================================================== *)
(* 0. small list facts                                                 *)
(* ================================================================== *)

Lemma nth_error_list_set (A : Type) (l : list A) (n i : nat) (x : A) :
  nth_error (list_set l n x) i =
  if Nat.eqb i n then (if Nat.ltb n (length l) then Some x else None) else nth_error l i.
Proof.
  destruct (Nat.eqb_spec i n) as [->|Hne].
  - destruct (Nat.ltb_spec n (length l)) as [Hlt|Hge].
    + apply nth_error_list_set_same. exact Hlt.
    + apply nth_error_None. rewrite list_set_length. exact Hge.
  - apply nth_error_list_set_other. auto.
Qed.

Lemma schedule_eta (s : Path.schedule) : mkSched (s_pre s) (s_ia s) (s_threads s) (s_prev s) (s_ex s) = s.
Proof. destruct s; reflexivity. Qed.

(* ================================================================== *)
(* 1. Schedule::backtrack                                              *)
(* ================================================================== *)

(* the early return of Schedule::backtrack: the STORED count [s_pre] (the field
   [preemptions] of the Rust struct, not the method [preemptions()]) has
   reached the bound *)
Definition at_bound (s : Path.schedule) (bd : option nat) : bool :=
  match bd with Some b => Nat.eqb (s_pre s) b | None => false end.

(* what Schedule::backtrack does to the thread array when it gets that far *)
Definition bt_threads (l : list tstat) (tid : nat) : list tstat :=
  match nth_error l tid with
  | None => l
  | Some t => if is_enabled t then list_upd l tid explore_t else map explore_t l
  end.

(* the schedule after a backtrack request for [tid] *)
Definition bt_sched (s : Path.schedule) (tid : nat) (bd : option nat) : Path.schedule :=
  if at_bound s bd then s
  else mkSched (s_pre s) (s_ia s) (bt_threads (s_threads s) tid) (s_prev s) (s_ex s).

Lemma sched_backtrack_eq s tid bd :
  sched_backtrack s tid bd =
  if negb (s_ex s) then PErr (PInternal 9)
  else if negb (opt_le_bound (s_pre s) bd) then PErr (PInternal 10)
  else POk (bt_sched s tid bd).
Proof.
  unfold sched_backtrack, bt_sched, bt_threads, at_bound.
  destruct (s_ex s) eqn:Hex; cbn [negb]; [|reflexivity].
  destruct (opt_le_bound (s_pre s) bd); cbn [negb]; [|reflexivity].
  destruct (match bd with Some b => Nat.eqb (s_pre s) b | None => false end); [reflexivity|].
  destruct (nth_error (s_threads s) tid) as [t|]; [reflexivity|].
  rewrite <- Hex, schedule_eta. reflexivity.
Qed.

(* exact characterisation *)
Theorem sched_backtrack_spec s tid bd s' :
  sched_backtrack s tid bd = POk s' <->
  s_ex s = true /\ opt_le_bound (s_pre s) bd = true /\ s' = bt_sched s tid bd.
Proof.
  rewrite sched_backtrack_eq.
  destruct (s_ex s); cbn [negb].
  2:{ split; [discriminate|]. intros (H & _). discriminate. }
  destruct (opt_le_bound (s_pre s) bd); cbn [negb].
  2:{ split; [discriminate|]. intros (_ & H & _). discriminate. }
  split; [intros H; injection H as <-; auto|intros (_ & _ & ->); reflexivity].
Qed.

(* when does it fail *)
Lemma sched_backtrack_err s tid bd x :
  sched_backtrack s tid bd = PErr x ->
  (s_ex s = false /\ x = PInternal 9) \/
  (s_ex s = true /\ opt_le_bound (s_pre s) bd = false /\ x = PInternal 10).
Proof.
  rewrite sched_backtrack_eq.
  destruct (s_ex s); cbn [negb]; [|intros H; injection H as <-; auto].
  destruct (opt_le_bound (s_pre s) bd); cbn [negb]; [discriminate|].
  intros H; injection H as <-; auto.
Qed.

(* ---- the thread array, pointwise ---- *)
Lemma bt_threads_length l tid : length (bt_threads l tid) = length l.
Proof.
  unfold bt_threads. destruct (nth_error l tid) as [t|]; [|reflexivity].
  destruct (is_enabled t); [apply list_upd_length|apply map_length].
Qed.

(* [tid] enabled in the entry: only its own status moves, Skip -> Pending *)
Lemma bt_threads_enabled l tid t :
  nth_error l tid = Some t -> is_enabled t = true ->
  nth_error (bt_threads l tid) tid = Some (explore_t t) /\
  forall u, u <> tid -> nth_error (bt_threads l tid) u = nth_error l u.
Proof.
  intros Hn He. unfold bt_threads. rewrite Hn, He. split.
  - rewrite nth_error_list_upd_same, Hn. reflexivity.
  - intros u Hu. apply nth_error_list_upd_other. auto.
Qed.

(* [tid] Disabled in the entry: the conservative fallback, every Skip thread
   becomes Pending *)
Lemma bt_threads_disabled l tid :
  nth_error l tid = Some Disabled ->
  bt_threads l tid = map explore_t l.
Proof. intros Hn. unfold bt_threads. rewrite Hn. reflexivity. Qed.

(* [tid] beyond the array: nothing *)
Lemma bt_threads_absent l tid : nth_error l tid = None -> bt_threads l tid = l.
Proof. intros Hn. unfold bt_threads. rewrite Hn. reflexivity. Qed.

Lemma is_enabled_false t : is_enabled t = false -> t = Disabled.
Proof. destruct t; cbn; congruence. Qed.

Lemma explore_t_not_skip t : explore_t t <> Skip.
Proof. destruct t; discriminate. Qed.

Lemma map_explore_t_not_skip l : Forall (fun x => x <> Skip) (map explore_t l).
Proof. induction l; constructor; auto using explore_t_not_skip. Qed.

Lemma explore_t_cases t :
  (t = Skip /\ explore_t t = Pending) \/ (t <> Skip /\ explore_t t = t).
Proof. destruct t; cbn; auto; right; split; congruence. Qed.

Lemma bt_threads_nth l tid u :
  nth_error (bt_threads l tid) u =
  match nth_error l tid with
  | None => nth_error l u
  | Some t =>
      if is_enabled t
      then (if Nat.eqb u tid then Some (explore_t t) else nth_error l u)
      else option_map explore_t (nth_error l u)
  end.
Proof.
  destruct (nth_error l tid) as [t|] eqn:Hn.
  - destruct (is_enabled t) eqn:He.
    + destruct (bt_threads_enabled _ _ _ Hn He) as [H1 H2].
      destruct (Nat.eqb_spec u tid) as [->|Hne]; auto.
    + apply is_enabled_false in He. subst t.
      rewrite (bt_threads_disabled _ _ Hn). apply nth_error_map.
  - rewrite (bt_threads_absent _ _ Hn). reflexivity.
Qed.

(* the order on statuses: Skip <= Pending, everything <= itself *)
Definition st_le (t t' : tstat) : Prop := t' = t \/ (t = Skip /\ t' = Pending).

Lemma st_le_is_ext_t : st_le = ext_t.
Proof. reflexivity. Qed.

Definition sched_le (s s' : Path.schedule) : Prop :=
  s_pre s' = s_pre s /\ s_ia s' = s_ia s /\ s_prev s' = s_prev s /\ s_ex s' = s_ex s /\
  Forall2 st_le (s_threads s) (s_threads s').

Lemma sched_le_refl s : sched_le s s.
Proof. unfold sched_le. repeat split. apply Forall2_refl, ext_t_refl. Qed.

Lemma at_bound_le s s' bd : sched_le s s' -> at_bound s' bd = at_bound s bd.
Proof. intros (H & _). unfold at_bound. rewrite H. reflexivity. Qed.

Lemma sched_le_bt_sched s id bd : sched_le s (bt_sched s id bd).
Proof.
  unfold bt_sched. destruct (at_bound s bd); [apply sched_le_refl|].
  unfold sched_le. cbn [s_pre s_ia s_prev s_ex s_threads]. repeat split.
  unfold bt_threads. destruct (nth_error (s_threads s) id) as [t|].
  - destruct (is_enabled t).
    + exact (ext_t_list_upd_explore (s_threads s) id).
    + exact (ext_t_map_explore (s_threads s)).
  - apply Forall2_refl, ext_t_refl.
Qed.

Lemma sched_le_active s s' :
  sched_le s s' ->
  active_thread_index s' = active_thread_index s /\ preemptions s' = preemptions s.
Proof.
  intros (F1 & F2 & _ & _ & Hth).
  assert (Hai : active_thread_index s' = active_thread_index s).
  { unfold active_thread_index. symmetry. apply ext_t_active_index. exact Hth. }
  split; [exact Hai|]. unfold preemptions. rewrite Hai, F1, F2. reflexivity.
Qed.

(* the readable form of the specification: fields, active thread, preemption
   count are untouched; the statuses as described *)
Theorem sched_backtrack_effect s tid bd s' :
  sched_backtrack s tid bd = POk s' ->
  s_ex s = true /\ opt_le_bound (s_pre s) bd = true /\
  s_pre s' = s_pre s /\ s_ia s' = s_ia s /\ s_prev s' = s_prev s /\ s_ex s' = s_ex s /\
  length (s_threads s') = length (s_threads s) /\
  active_thread_index s' = active_thread_index s /\
  preemptions s' = preemptions s /\
  (* the bound is reached: early return, nothing changes *)
  (at_bound s bd = true -> s' = s) /\
  (at_bound s bd = false ->
     (* tid enabled: its status is explored, nothing else moves *)
     (forall t, nth_error (s_threads s) tid = Some t -> is_enabled t = true ->
        nth_error (s_threads s') tid = Some (explore_t t) /\
        forall u, u <> tid -> nth_error (s_threads s') u = nth_error (s_threads s) u) /\
     (* tid Disabled: every thread is explored *)
     (nth_error (s_threads s) tid = Some Disabled ->
        s_threads s' = map explore_t (s_threads s)) /\
     (* tid beyond the array: nothing changes *)
     (nth_error (s_threads s) tid = None -> s' = s)).
Proof.
  intros H. apply sched_backtrack_spec in H. destruct H as (Hex & Hle & ->).
  split; [exact Hex|]. split; [exact Hle|].
  pose proof (sched_le_bt_sched s tid bd) as Hs.
  destruct (sched_le_active _ _ Hs) as [A1 A2].
  destruct Hs as (F1 & F2 & F3 & F4 & Hth).
  repeat (split; [assumption|]).
  split; [symmetry; exact (Forall2_len _ _ _ _ _ Hth)|].
  split; [exact A1|]. split; [exact A2|].
  unfold bt_sched. split.
  - intros ->. reflexivity.
  - intros ->. cbn [s_threads]. split; [|split].
    + intros t Hn He. apply bt_threads_enabled; assumption.
    + intros Hn. apply bt_threads_disabled. exact Hn.
    + intros Hn. rewrite (bt_threads_absent _ _ Hn). apply schedule_eta.
Qed.

(* after a backtrack request that passes the bound check, [tid] is no longer
   Skip if it is enabled, and no thread at all is Skip if [tid] is Disabled *)
Corollary sched_backtrack_not_skip s tid bd s' :
  sched_backtrack s tid bd = POk s' -> at_bound s bd = false ->
  match nth_error (s_threads s) tid with
  | Some t =>
      if is_enabled t
      then nth_error (s_threads s') tid = Some (explore_t t)
      else Forall (fun x => x <> Skip) (s_threads s')
  | None => s' = s
  end.
Proof.
  intros H Hb.
  destruct (sched_backtrack_effect _ _ _ _ H) as (_ & _ & _ & _ & _ & _ & _ & _ & _ & _ & Heff).
  destruct (Heff Hb) as (E1 & E2 & E3).
  destruct (nth_error (s_threads s) tid) as [t|] eqn:Hn; [|auto].
  destruct (is_enabled t) eqn:He.
  - apply (E1 t eq_refl He).
  - apply is_enabled_false in He. subst t. rewrite (E2 eq_refl).
    apply map_explore_t_not_skip.
Qed.

(* Schedule::backtrack is idempotent *)
Lemma explore_t_idem t : explore_t (explore_t t) = explore_t t.
Proof. destruct t; reflexivity. Qed.

Lemma explore_t_enabled t : is_enabled (explore_t t) = is_enabled t.
Proof. destruct t; reflexivity. Qed.

Lemma bt_threads_idem l tid : bt_threads (bt_threads l tid) tid = bt_threads l tid.
Proof.
  apply list_ext. intros u.
  rewrite (bt_threads_nth (bt_threads l tid) tid u), !bt_threads_nth.
  destruct (nth_error l tid) as [t|] eqn:Hn; [|reflexivity].
  destruct (is_enabled t) eqn:He.
  - rewrite Nat.eqb_refl, explore_t_enabled, He, explore_t_idem.
    destruct (Nat.eqb u tid); reflexivity.
  - cbn [option_map]. rewrite explore_t_enabled, He.
    destruct (nth_error l u) as [x|]; cbn [option_map]; [|reflexivity].
    rewrite explore_t_idem. reflexivity.
Qed.

Lemma bt_sched_idem s tid bd : bt_sched (bt_sched s tid bd) tid bd = bt_sched s tid bd.
Proof.
  unfold bt_sched at 1. rewrite (at_bound_le _ _ bd (sched_le_bt_sched s tid bd)).
  unfold bt_sched.
  destruct (at_bound s bd) eqn:Hb; [reflexivity|].
  cbn [s_pre s_ia s_threads s_prev s_ex]. rewrite bt_threads_idem. reflexivity.
Qed.

Lemma sched_backtrack_again s tid bd s' :
  sched_backtrack s tid bd = POk s' -> sched_backtrack s' tid bd = POk s'.
Proof.
  intros H. apply sched_backtrack_spec in H. destruct H as (Hex & Hle & ->).
  apply sched_backtrack_spec. destruct (sched_le_bt_sched s tid bd) as (F1 & _ & _ & F4 & _).
  rewrite F1, F4, bt_sched_idem. auto.
Qed.

(* ================================================================== *)
(* 2. Path::backtrack                                                  *)
(* ================================================================== *)

(* the first loop stops at an exploring Schedule entry *)
Definition bt_hit (e : entry) : bool := match e with ESched s => s_ex s | _ => false end.
Definition bt_hit_at (b : list entry) (k : nat) : bool :=
  match nth_error b k with Some e => bt_hit e | None => false end.

Lemma bt_hit_sched e : bt_hit e = true -> exists s, e = ESched s /\ s_ex s = true.
Proof. destruct e as [s|l|s]; cbn [bt_hit]; try discriminate. eauto. Qed.

Lemma find_backtrack_point_S b point fuel :
  find_backtrack_point b point (S fuel) =
  match nth_error b point with
  | None => PErr (PInternal 11)
  | Some e =>
      if bt_hit e then POk (Some point)
      else match point with
           | 0 => POk None
           | S point' => find_backtrack_point b point' fuel
           end
  end.
Proof. destruct point; reflexivity. Qed.

(* the index returned is the largest j <= point whose entry is an exploring
   Schedule entry; None if there is none *)
Theorem find_backtrack_point_spec b point r :
  find_backtrack_point b point (S point) = POk r ->
  point < length b /\
  match r with
  | Some j => j <= point /\
              (exists s, nth_error b j = Some (ESched s) /\ s_ex s = true) /\
              forall k, j < k -> k <= point -> bt_hit_at b k = false
  | None => forall k, k <= point -> bt_hit_at b k = false
  end.
Proof.
  revert r; induction point as [|point IH]; intros r H;
    rewrite find_backtrack_point_S in H;
    (destruct (nth_error b _) as [e|] eqn:Hn; [|discriminate]);
    (split; [apply nth_error_Some; congruence|]);
    destruct (bt_hit e) eqn:Hh.
  - injection H as <-. split; [lia|]. split.
    + destruct (bt_hit_sched _ Hh) as (s & -> & Hex). eauto.
    + intros k Hk1 Hk2. lia.
  - injection H as <-. intros k Hk. assert (k = 0) as -> by lia.
    unfold bt_hit_at. rewrite Hn. exact Hh.
  - injection H as <-. split; [lia|]. split.
    + destruct (bt_hit_sched _ Hh) as (s & -> & Hex). eauto.
    + intros k Hk1 Hk2. lia.
  - destruct (IH _ H) as [_ Hr].
    assert (Htop : bt_hit_at b (S point) = false).
    { unfold bt_hit_at. rewrite Hn. exact Hh. }
    destruct r as [j|].
    + destruct Hr as (Hj & Hs & Hbetween). split; [lia|]. split; [exact Hs|].
      intros k Hk1 Hk2. destruct (Nat.eq_dec k (S point)) as [->|Hne]; [exact Htop|].
      apply Hbetween; lia.
    + intros k Hk. destruct (Nat.eq_dec k (S point)) as [->|Hne]; [exact Htop|].
      apply Hr. lia.
Qed.

(* it fails exactly when [point] is beyond the stack *)
Lemma find_backtrack_point_total b point :
  point < length b -> exists r, find_backtrack_point b point (S point) = POk r.
Proof.
  induction point as [|point IH]; intros Hlt; rewrite find_backtrack_point_S;
    (destruct (nth_error b _) as [e|] eqn:Hn; [|apply nth_error_None in Hn; lia]);
    destruct (bt_hit e); eauto.
  apply IH. lia.
Qed.

Lemma find_backtrack_point_err b point x :
  find_backtrack_point b point (S point) = PErr x -> length b <= point /\ x = PInternal 11.
Proof.
  intros H. destruct (Nat.lt_ge_cases point (length b)) as [Hlt|Hge].
  - destruct (find_backtrack_point_total _ _ Hlt) as [r Hr]. congruence.
  - split; [exact Hge|]. apply nth_error_None in Hge.
    rewrite find_backtrack_point_S, Hge in H. congruence.
Qed.

(* the specification determines the result *)
Lemma find_backtrack_point_complete b point j :
  j <= point -> point < length b -> bt_hit_at b j = true ->
  (forall k, j < k -> k <= point -> bt_hit_at b k = false) ->
  find_backtrack_point b point (S point) = POk (Some j).
Proof.
  intros Hj Hlt Hhit Hbetween.
  destruct (find_backtrack_point_total _ _ Hlt) as [r Hr]. rewrite Hr.
  destruct (find_backtrack_point_spec _ _ _ Hr) as [_ Hs].
  destruct r as [j'|].
  - destruct Hs as (Hj' & (s & Hn & Hex) & Hb').
    destruct (lt_eq_lt_dec j j') as [[Hlt'| ->]|Hgt]; [|reflexivity|].
    + specialize (Hbetween j' Hlt' Hj'). unfold bt_hit_at in Hbetween.
      rewrite Hn in Hbetween. cbn [bt_hit] in Hbetween. congruence.
    + specialize (Hb' j Hgt Hj). congruence.
  - specialize (Hs j Hj). congruence.
Qed.

Lemma find_backtrack_point_none b point :
  point < length b -> (forall k, k <= point -> bt_hit_at b k = false) ->
  find_backtrack_point b point (S point) = POk None.
Proof.
  intros Hlt Hall.
  destruct (find_backtrack_point_total _ _ Hlt) as [r Hr]. rewrite Hr.
  destruct (find_backtrack_point_spec _ _ _ Hr) as [_ Hs].
  destruct r as [j|]; [|reflexivity].
  destruct Hs as (Hj & (s & Hn & Hex) & _). specialize (Hall j Hj).
  unfold bt_hit_at in Hall. rewrite Hn in Hall. cbn [bt_hit] in Hall. congruence.
Qed.

(* the result only depends on which entries are exploring Schedule entries *)
Lemma find_backtrack_point_hit_ext b b' :
  map bt_hit b = map bt_hit b' ->
  forall fuel point, find_backtrack_point b point fuel = find_backtrack_point b' point fuel.
Proof.
  intros Hm. induction fuel as [|fuel IH]; intros point; [destruct point; reflexivity|].
  assert (Hn : option_map bt_hit (nth_error b point) = option_map bt_hit (nth_error b' point)).
  { rewrite <- !nth_error_map. rewrite Hm. reflexivity. }
  rewrite !find_backtrack_point_S.
  destruct (nth_error b point) as [e|], (nth_error b' point) as [e'|]; cbn [option_map] in Hn;
    try discriminate; [|reflexivity].
  injection Hn as ->. destruct (bt_hit e'); [reflexivity|].
  destruct point; [reflexivity|apply IH].
Qed.

Lemma get_sched_iff b i s : get_sched b i = Some s <-> nth_error b i = Some (ESched s).
Proof.
  split; [apply get_sched_nth|]. unfold get_sched. intros ->. reflexivity.
Qed.

Lemma nth_error_upd_sched_eq b i s :
  i < length b -> nth_error (upd_sched b i s) i = Some (ESched s).
Proof. intros H. unfold upd_sched. apply nth_error_list_set_same. exact H. Qed.

Lemma nth_error_upd_sched_neq b i s k :
  k <> i -> nth_error (upd_sched b i s) k = nth_error b k.
Proof. intros H. unfold upd_sched. apply nth_error_list_set_other. auto. Qed.

Lemma upd_sched_length b i s : length (upd_sched b i s) = length b.
Proof. apply list_set_length. Qed.

(* Path::backtrack.  [r] is the backtrack point.  With r = Some i:
     - entry i is replaced by its Schedule::backtrack;
     - at most one more entry J (only with a preemption bound: the
       "conservative" loop) is replaced by its Schedule::backtrack;
     - every other entry, the length of the stack and every other field of
       the path are unchanged. *)
Theorem backtrack_spec p point tid p' :
  backtrack p point tid = POk p' ->
  exists r, find_backtrack_point (branches p) point (S point) = POk r /\
  match r with
  | None => p' = p
  | Some i =>
      p' = set_branches p (branches p') /\
      length (branches p') = length (branches p) /\
      (exists s s', nth_error (branches p) i = Some (ESched s) /\
                    sched_backtrack s tid (bound p) = POk s' /\
                    nth_error (branches p') i = Some (ESched s')) /\
      exists J : option nat,
        (bound p = None -> J = None) /\
        (forall k, k <> i -> J <> Some k ->
                   nth_error (branches p') k = nth_error (branches p) k) /\
        (forall k, J = Some k ->
           exists t t', nth_error (branches p) k = Some (ESched t) /\
                        sched_backtrack t tid (bound p) = POk t' /\
                        nth_error (branches p') k = Some (ESched t'))
  end.
Proof.
  intros H.
  destruct (backtrack_cases _ _ _ _ H) as [[Hf ->]|(i & s & s' & Hf & Hg & Hs & Hp)].
  { exists None. split; [exact Hf|reflexivity]. }
  exists (Some i). split; [exact Hf|]. cbv zeta in Hp.
  apply get_sched_nth in Hg.
  assert (Hi : i < length (branches p)) by (apply nth_error_Some; congruence).
  pose proof (nth_error_upd_sched_eq _ _ s' Hi) as Hii.
  destruct Hp as [->|(j & t & t' & Hbd & Ht & Htt & ->)]; cbn [branches set_branches].
  - split; [reflexivity|]. split; [apply upd_sched_length|].
    split; [exists s, s'; auto|]. exists None. split; [reflexivity|].
    split; [intros k Hk _; apply nth_error_upd_sched_neq; exact Hk|]. intros k Hk. discriminate.
  - apply get_sched_nth in Ht.
    assert (Hj : j < length (upd_sched (branches p) i s')) by (apply nth_error_Some; congruence).
    pose proof (nth_error_upd_sched_eq _ _ t' Hj) as Hjj.
    split; [reflexivity|]. split; [rewrite !upd_sched_length; reflexivity|].
    assert (Hij : nth_error (upd_sched (upd_sched (branches p) i s') j t') i = Some (ESched s') /\
                  exists t0, nth_error (branches p) j = Some (ESched t0) /\
                             sched_backtrack t0 tid (bound p) = POk t').
    { destruct (Nat.eq_dec j i) as [->|Hji].
      - (* the conservative loop came back to entry i: Schedule::backtrack again *)
        rewrite Hii in Ht. injection Ht as <-.
        rewrite (sched_backtrack_again _ _ _ _ Hs) in Htt. injection Htt as <-.
        split; [exact Hjj|]. exists s. auto.
      - split.
        + rewrite nth_error_upd_sched_neq by congruence. exact Hii.
        + exists t. rewrite nth_error_upd_sched_neq in Ht by exact Hji. auto. }
    destruct Hij as (Hi' & t0 & Ht0 & Htt0).
    split; [exists s, s'; auto|].
    exists (Some j). split; [intros Hn; contradiction|]. split.
    + intros k Hk HJ. rewrite !nth_error_upd_sched_neq by congruence. reflexivity.
    + intros k Hk. injection Hk as <-. exists t0, t'. auto.
Qed.

(* without a preemption bound exactly one entry changes *)
Corollary backtrack_spec_unbounded p point tid p' i :
  bound p = None ->
  backtrack p point tid = POk p' ->
  find_backtrack_point (branches p) point (S point) = POk (Some i) ->
  exists s, nth_error (branches p) i = Some (ESched s) /\ s_ex s = true /\
    p' = set_branches p (upd_sched (branches p) i (bt_sched s tid None)).
Proof.
  intros Hbd H Hf.
  destruct (backtrack_cases _ _ _ _ H) as [[Hf' _]|(i' & s & s' & Hf' & Hg & Hs & Hp)];
    [congruence|].
  rewrite Hf in Hf'. injection Hf' as <-. rewrite Hbd in Hs.
  apply sched_backtrack_spec in Hs. destruct Hs as (Hex & _ & ->).
  exists s. split; [apply get_sched_nth; exact Hg|]. split; [exact Hex|].
  destruct Hp as [->|(j & t & t' & Hne & _)]; [reflexivity|destruct (Hne Hbd)].
Qed.

Lemma conservative_err b curr tid bd fuel x :
  conservative b curr tid bd fuel = PErr x ->
  x = PInternal 9 \/ x = PInternal 10 \/ x = PInternal 12.
Proof.
  revert curr; induction fuel as [|fuel IH]; intros curr Hc;
    cbn [conservative] in Hc; [discriminate|].
  destruct (get_sched b curr) as [cs|]; [|injection Hc as <-; auto].
  assert (Hsb : match sched_backtrack cs tid bd with
                | POk cs' => POk (upd_sched b curr cs')
                | PErr e => PErr e
                end = PErr x -> x = PInternal 9 \/ x = PInternal 10 \/ x = PInternal 12).
  { destruct (sched_backtrack cs tid bd) as [cs'|z] eqn:Hz; [discriminate|].
    intros E. injection E as <-.
    destruct (sched_backtrack_err _ _ _ _ Hz) as [(_ & ->)|(_ & _ & ->)]; auto. }
  destruct (s_prev cs) as [prev|].
  - destruct (get_sched b prev) as [ps|]; [|injection Hc as <-; auto].
    destruct (negb _ && s_ex cs); [exact (Hsb Hc)|exact (IH _ Hc)].
  - destruct (s_ex cs); [exact (Hsb Hc)|discriminate].
Qed.

(* when does Path::backtrack fail *)
Lemma backtrack_err p point tid x :
  backtrack p point tid = PErr x ->
  (length (branches p) <= point /\ x = PInternal 11) \/
  (exists bd, bound p = Some bd /\ (x = PInternal 9 \/ x = PInternal 10 \/ x = PInternal 12)) \/
  (exists i s, find_backtrack_point (branches p) point (S point) = POk (Some i) /\
               nth_error (branches p) i = Some (ESched s) /\
               opt_le_bound (s_pre s) (bound p) = false /\ x = PInternal 10).
Proof.
  unfold backtrack. intros H.
  destruct (find_backtrack_point (branches p) point (S point)) as [[i|]|y] eqn:Hf;
    try discriminate.
  2:{ injection H as <-. left. eapply find_backtrack_point_err; eassumption. }
  destruct (find_backtrack_point_spec _ _ _ Hf) as (_ & _ & (s & Hn & Hex) & _).
  rewrite (proj2 (get_sched_iff _ _ _) Hn) in H.
  destruct (sched_backtrack s tid (bound p)) as [s'|y] eqn:Hs.
  - destruct (s_prev s') as [curr0|]; [|discriminate].
    destruct (bound p) as [bd|] eqn:Hbd; [|discriminate].
    right; left. exists bd. split; [reflexivity|].
    destruct (conservative _ _ _ _ _) as [b'|y] eqn:Hc in H; [discriminate|].
    injection H as <-. exact (conservative_err _ _ _ _ _ _ Hc).
  - injection H as <-.
    destruct (sched_backtrack_err _ _ _ _ Hs) as [(Hc & _)|(_ & Hle & ->)]; [congruence|].
    right; right. exists i, s. auto.
Qed.

(* ================================================================== *)
(* 3. monotonicity                                                     *)
(* ================================================================== *)

(* a status that is not Skip never moves *)
Lemma st_le_not_skip t t' : st_le t t' -> t <> Skip -> t' = t.
Proof. intros [H|[H _]] Hn; [exact H|contradiction]. Qed.

(* above t and not Skip: exactly explore_t t *)
Lemma st_le_explore t t' : st_le t t' -> t' <> Skip -> t' = explore_t t.
Proof.
  intros [->|[-> ->]] Hn; [|reflexivity]. destruct t; try reflexivity. contradiction.
Qed.

Lemma st_le_enabled t t' : st_le t t' -> is_enabled t' = is_enabled t.
Proof. intros [->|[-> ->]]; reflexivity. Qed.

Definition entry_le (e e' : entry) : Prop :=
  match e, e' with
  | ESched s, ESched s' => sched_le s s'
  | _, _ => e' = e
  end.

Definition stack_le (b b' : list entry) : Prop := Forall2 entry_le b b'.

(* pointwise order on paths: same configuration, same position, same flags,
   same number of entries, every entry above the old one *)
Definition path_le (p p' : path) : Prop :=
  p' = set_branches p (branches p') /\ stack_le (branches p) (branches p').

Lemma sched_le_trans a b c : sched_le a b -> sched_le b c -> sched_le a c.
Proof.
  intros (A1 & A2 & A3 & A4 & A5) (B1 & B2 & B3 & B4 & B5).
  unfold sched_le. repeat split; try congruence.
  eapply Forall2_trans; [exact ext_t_trans|exact A5|exact B5].
Qed.

Lemma entry_le_refl e : entry_le e e.
Proof. destruct e; cbn [entry_le]; auto using sched_le_refl. Qed.

Lemma set_branches_self p : set_branches p (branches p) = p.
Proof. destruct p; reflexivity. Qed.

Lemma path_le_fields p p' :
  path_le p p' ->
  bound p' = bound p /\ pos p' = pos p /\ exploring p' = exploring p /\
  skipping p' = skipping p /\ eos p' = eos p /\ cap p' = cap p /\
  length (branches p') = length (branches p).
Proof.
  intros [E L]. rewrite E.
  cbn [branches set_branches bound pos exploring skipping eos cap].
  repeat split. symmetry. exact (Forall2_len _ _ _ _ _ L).
Qed.

(* backtrack marks are steps of the order *)
Lemma ext_entry_le e e' : ext e e' -> entry_le e e'.
Proof.
  intros H. destruct (ext_inv _ _ H) as [->|(s & th & -> & -> & _ & Hth)].
  - apply entry_le_refl.
  - cbn [entry_le]. unfold sched_le. cbn [s_pre s_ia s_prev s_ex s_threads]. auto.
Qed.

Lemma Forall2_ext_stack_le b b' : Forall2 ext b b' -> stack_le b b'.
Proof. induction 1; constructor; auto using ext_entry_le. Qed.

(* what backtrack requests do to a path: marks (PathSpec.ext) on the entries of
   the stack, nothing else *)
Definition marked (p p' : path) : Prop :=
  p' = set_branches p (branches p') /\ Forall2 ext (branches p) (branches p').

Lemma marked_refl p : marked p p.
Proof. split; [symmetry; apply set_branches_self|apply Forall2_ext_refl]. Qed.

Lemma marked_trans p q r : marked p q -> marked q r -> marked p r.
Proof.
  intros [E1 L1] [E2 L2]. split; [|eapply Forall2_ext_trans; eassumption].
  rewrite E2. rewrite E1. reflexivity.
Qed.

Lemma marked_le p p' : marked p p' -> path_le p p'.
Proof. intros [E L]. split; [exact E|apply Forall2_ext_stack_le; exact L]. Qed.

Lemma backtrack_marked p point tid p' : backtrack p point tid = POk p' -> marked p p'.
Proof.
  intros H.
  destruct (backtrack_marks _ _ _ _ H) as (H1 & H2 & H3 & H4 & H5 & H6 & Hbr).
  split; [|exact Hbr].
  unfold set_branches. rewrite <- H1, <- H2, <- H3, <- H4, <- H5, <- H6.
  destruct p'; reflexivity.
Qed.

Lemma dpor_accesses_marked accs dv id p p' :
  dpor_accesses accs dv id p = POk p' -> marked p p'.
Proof. apply dpor_accesses_rel; eauto using marked_refl, marked_trans, backtrack_marked. Qed.

Lemma dpor_loop_marked objs ths p p' : dpor_loop objs ths p = POk p' -> marked p p'.
Proof. apply dpor_loop_rel; eauto using marked_refl, marked_trans, backtrack_marked. Qed.

(* Path::backtrack only moves statuses up, pointwise in every entry *)
Theorem backtrack_mono p point tid p' : backtrack p point tid = POk p' -> path_le p p'.
Proof. intros H. apply marked_le, (backtrack_marked _ _ _ _ H). Qed.

Theorem dpor_accesses_mono accs dv id p p' :
  dpor_accesses accs dv id p = POk p' -> path_le p p'.
Proof. intros H. apply marked_le, (dpor_accesses_marked _ _ _ _ _ H). Qed.

Theorem dpor_loop_mono objs ths p p' : dpor_loop objs ths p = POk p' -> path_le p p'.
Proof. intros H. apply marked_le, (dpor_loop_marked _ _ _ _ H). Qed.

(* ---- reading the order ---- *)
Lemma stack_le_nth b b' i s :
  stack_le b b' -> nth_error b i = Some (ESched s) ->
  exists s', nth_error b' i = Some (ESched s') /\ sched_le s s'.
Proof.
  intros H Hn. destruct (Forall2_nth_error _ H Hn) as (e' & Hn' & Hle).
  destruct e' as [s'|l|sp]; cbn [entry_le] in Hle; try discriminate. eauto.
Qed.

Lemma stack_le_nth_other b b' i e :
  stack_le b b' -> nth_error b i = Some e -> is_sched e = false -> nth_error b' i = Some e.
Proof.
  intros H Hn Hs. destruct (Forall2_nth_error _ H Hn) as (e' & Hn' & Hle).
  destruct e as [s|l|sp]; [discriminate| |]; cbn [entry_le] in Hle; congruence.
Qed.

Lemma sched_le_nth s s' u t :
  sched_le s s' -> nth_error (s_threads s) u = Some t ->
  exists t', nth_error (s_threads s') u = Some t' /\ st_le t t'.
Proof. intros (_ & _ & _ & _ & H) Hn. eapply Forall2_nth_error; eassumption. Qed.

Lemma sched_le_length s s' : sched_le s s' -> length (s_threads s') = length (s_threads s).
Proof. intros (_ & _ & _ & _ & H). symmetry. eapply Forall2_len. exact H. Qed.

Lemma sched_le_nth_none s s' u :
  sched_le s s' -> nth_error (s_threads s) u = None -> nth_error (s_threads s') u = None.
Proof.
  intros H Hn. apply nth_error_None. rewrite (sched_le_length _ _ H).
  apply nth_error_None. exact Hn.
Qed.

(* once a thread is Pending / Active / Visited (anything but Skip) in an entry,
   it keeps that very status *)
Lemma sched_le_keeps s s' u t :
  sched_le s s' -> nth_error (s_threads s) u = Some t -> t <> Skip ->
  nth_error (s_threads s') u = Some t.
Proof.
  intros H Hn Hne. destruct (sched_le_nth _ _ _ _ H Hn) as (t' & Hn' & Hle).
  rewrite Hn', (st_le_not_skip _ _ Hle Hne). reflexivity.
Qed.

Lemma Forall2_st_le_explore l l' :
  Forall2 st_le l l' -> Forall (fun x => x <> Skip) l' -> l' = map explore_t l.
Proof.
  induction 1 as [|a b l l' Hab _ IH]; intros Hf; [reflexivity|].
  inversion Hf; subst. cbn [map]. f_equal; auto using st_le_explore.
Qed.

Lemma sched_le_no_skip s s' :
  sched_le s s' -> Forall (fun x => x <> Skip) (s_threads s) ->
  Forall (fun x => x <> Skip) (s_threads s').
Proof.
  intros (_ & _ & _ & _ & H). revert H. apply Forall2_Forall.
  intros a b Hab Ha. rewrite (st_le_not_skip _ _ Hab Ha). exact Ha.
Qed.

Theorem dpor_loop_keeps_status objs ths p p' i s u t :
  dpor_loop objs ths p = POk p' ->
  nth_error (branches p) i = Some (ESched s) ->
  nth_error (s_threads s) u = Some t -> t <> Skip ->
  exists s', nth_error (branches p') i = Some (ESched s') /\ sched_le s s' /\
             nth_error (s_threads s') u = Some t.
Proof.
  intros H Hn Hu Hne. destruct (dpor_loop_mono _ _ _ _ H) as [_ Hle].
  destruct (stack_le_nth _ _ _ _ Hle Hn) as (s' & Hn' & Hs).
  exists s'. split; [exact Hn'|]. split; [exact Hs|]. eapply sched_le_keeps; eassumption.
Qed.

(* the order does not move the backtrack point *)
Lemma entry_le_bt_hit e e' : entry_le e e' -> bt_hit e' = bt_hit e.
Proof.
  destruct e as [s|l|sp], e' as [s'|l'|sp']; cbn [entry_le bt_hit]; intros H;
    try discriminate; try reflexivity; try congruence.
  destruct H as (_ & _ & _ & H & _). exact H.
Qed.

Lemma stack_le_bt_hit b b' : stack_le b b' -> map bt_hit b = map bt_hit b'.
Proof.
  induction 1 as [|e e' b b' He _ IH]; [reflexivity|].
  cbn [map]. rewrite IH, (entry_le_bt_hit _ _ He). reflexivity.
Qed.

(* backtrack marks never move the backtrack point *)
Lemma find_backtrack_point_stable b b' point fuel :
  Forall2 ext b b' ->
  find_backtrack_point b' point fuel = find_backtrack_point b point fuel.
Proof.
  intros H. symmetry.
  apply find_backtrack_point_hit_ext, stack_le_bt_hit, Forall2_ext_stack_le, H.
Qed.

Theorem find_backtrack_point_le p p' point fuel :
  path_le p p' ->
  find_backtrack_point (branches p') point fuel = find_backtrack_point (branches p) point fuel.
Proof.
  intros [_ H]. symmetry. apply find_backtrack_point_hit_ext, stack_le_bt_hit, H.
Qed.

(* ================================================================== *)
(* 4. the DPOR rule                                                    *)
(* ================================================================== *)

(* where, in the loops, the backtrack request of a detected race is issued *)
Lemma dpor_accesses_split accs dv id p p' acc :
  dpor_accesses accs dv id p = POk p' -> In acc accs -> access_hb acc dv = false ->
  exists q q', marked p q /\ backtrack q (a_path_id acc) id = POk q' /\ marked q' p'.
Proof.
  revert p; induction accs as [|a rest IH]; intros p H Hin Hhb; [contradiction|].
  cbn [dpor_accesses] in H. destruct Hin as [->|Hin].
  - rewrite Hhb in H.
    destruct (backtrack p (a_path_id acc) id) as [p1|x] eqn:Hb; [|discriminate].
    exists p, p1. split; [apply marked_refl|]. split; [exact Hb|].
    eapply dpor_accesses_marked; exact H.
  - destruct (access_hb a dv).
    + apply IH; assumption.
    + destruct (backtrack p (a_path_id a) id) as [p1|x] eqn:Hb; [|discriminate].
      destruct (IH _ H Hin Hhb) as (q & q' & H1 & H2 & H3).
      exists q, q'. split; [|auto].
      eapply marked_trans; [eapply backtrack_marked; exact Hb|exact H1].
Qed.

Lemma dpor_loop_split objs ths p p' id th op o accs acc :
  dpor_loop objs ths p = POk p' -> In (id, th) ths -> t_op th = Some op ->
  nth_error objs (op_obj op) = Some o ->
  last_dependent_accesses o (op_act op) = Some accs ->
  In acc accs -> access_hb acc (t_dpor th) = false ->
  exists q q', marked p q /\ backtrack q (a_path_id acc) id = POk q' /\ marked q' p'.
Proof.
  intros H Hin Hop Ho Hacc Hacc_in Hhb.
  revert p H; induction ths as [|[id0 th0] rest IH]; intros p H; [contradiction|].
  destruct Hin as [Heq|Hin].
  - injection Heq as -> ->. cbn [dpor_loop] in H. rewrite Hop, Ho, Hacc in H.
    destruct (dpor_accesses accs (t_dpor th) id p) as [p1|x] eqn:Ha; [|discriminate].
    destruct (dpor_accesses_split _ _ _ _ _ _ Ha Hacc_in Hhb) as (q & q' & H1 & H2 & H3).
    exists q, q'. split; [exact H1|]. split; [exact H2|].
    eapply marked_trans; [exact H3|eapply dpor_loop_marked; exact H].
  - cbn [dpor_loop] in H.
    destruct (t_op th0) as [op0|]; [|apply IH; assumption].
    destruct (nth_error objs (op_obj op0)) as [o0|]; [|discriminate].
    destruct (last_dependent_accesses o0 (op_act op0)) as [accs0|]; [|discriminate].
    destruct (dpor_accesses accs0 (t_dpor th0) id0 p) as [pa|x] eqn:Ha; [|discriminate].
    destruct (IH Hin _ H) as (q & q' & H1 & H2 & H3).
    exists q, q'. split; [|auto].
    eapply marked_trans; [eapply dpor_accesses_marked; exact Ha|exact H1].
Qed.

(* one backtrack request, at its backtrack point *)
Lemma backtrack_at_point q point id q' i s :
  backtrack q point id = POk q' ->
  find_backtrack_point (branches q) point (S point) = POk (Some i) ->
  nth_error (branches q) i = Some (ESched s) ->
  nth_error (branches q') i = Some (ESched (bt_sched s id (bound q))).
Proof.
  intros H Hf Hn. destruct (backtrack_spec _ _ _ _ H) as (r & Hr & Hspec).
  rewrite Hf in Hr. injection Hr as <-.
  destruct Hspec as (_ & _ & (s0 & s0' & Hn0 & Hs0 & Hn0') & _).
  rewrite Hn in Hn0. injection Hn0 as <-.
  apply sched_backtrack_spec in Hs0. destruct Hs0 as (_ & _ & ->). exact Hn0'.
Qed.

(* MAIN THEOREM.  A race found by the dependence check of the DPOR loop is
   registered at its backtrack point [i], provided the stored preemption count
   of that entry has not reached the bound:
     - if the racing thread [id] is enabled at [i] (any status but Disabled),
       its status there is [explore_t] of what it was: Skip has become
       Pending, and Pending / Active / Visited / Yield are as they were;
     - if [id] is Disabled at [i], every thread of the entry has been
       explored: no thread is Skip;
     - (if [id] is beyond the thread array nothing is promised: this does not
       happen on a well formed path, whose arrays have length MAX_THREADS.)
   Nothing else of the entry changes ([sched_le]: counts, initial_active,
   s_prev, s_ex are the same, statuses only move Skip -> Pending).
   No hypothesis on [ths] is needed (duplicates are harmless), and the
   backtrack point is stable through the loop ([find_backtrack_point_le]). *)
Theorem dpor_loop_registers objs ths p p' id th op o accs acc i s :
  dpor_loop objs ths p = POk p' ->
  In (id, th) ths -> t_op th = Some op ->
  nth_error objs (op_obj op) = Some o ->
  last_dependent_accesses o (op_act op) = Some accs ->
  In acc accs -> access_hb acc (t_dpor th) = false ->
  find_backtrack_point (branches p) (a_path_id acc) (S (a_path_id acc)) = POk (Some i) ->
  nth_error (branches p) i = Some (ESched s) ->
  at_bound s (bound p) = false ->
  exists s', nth_error (branches p') i = Some (ESched s') /\ sched_le s s' /\
    match nth_error (s_threads s) id with
    | Some t =>
        if is_enabled t
        then nth_error (s_threads s') id = Some (explore_t t)
        else s_threads s' = map explore_t (s_threads s)
    | None => True
    end.
Proof.
  intros H Hin Hop Ho Hacc Hacc_in Hhb Hf Hn Hbd.
  destruct (dpor_loop_split _ _ _ _ _ _ _ _ _ _ H Hin Hop Ho Hacc Hacc_in Hhb)
    as (q & q' & Lq & Hb & Lq').
  apply marked_le in Lq. apply marked_le in Lq'.
  (* the state in which the request is issued *)
  destruct (stack_le_nth _ _ _ _ (proj2 Lq) Hn) as (sq & Hnq & Hsq).
  assert (Hfq : find_backtrack_point (branches q) (a_path_id acc) (S (a_path_id acc))
                = POk (Some i)) by (rewrite (find_backtrack_point_le _ _ _ _ Lq); exact Hf).
  destruct (path_le_fields _ _ Lq) as (Hbq & _).
  pose proof (backtrack_at_point _ _ _ _ _ _ Hb Hfq Hnq) as Hnq'.
  rewrite Hbq in Hnq'.
  assert (Hbdq : at_bound sq (bound p) = false) by (rewrite (at_bound_le _ _ _ Hsq); exact Hbd).
  (* the end of the loop *)
  destruct (stack_le_nth _ _ _ _ (proj2 Lq') Hnq') as (s' & Hn' & Hs').
  exists s'. split; [exact Hn'|].
  assert (Hle : sched_le s s').
  { eapply sched_le_trans; [exact Hsq|].
    eapply sched_le_trans; [apply sched_le_bt_sched|exact Hs']. }
  split; [exact Hle|].
  destruct (nth_error (s_threads s) id) as [t|] eqn:Ht; [|exact I].
  destruct (sched_le_nth _ _ _ _ Hsq Ht) as (tq & Htq & Hletq).
  assert (Hthq : s_threads (bt_sched sq id (bound p)) = bt_threads (s_threads sq) id).
  { unfold bt_sched. rewrite Hbdq. reflexivity. }
  destruct (is_enabled t) eqn:He.
  - assert (Heq : is_enabled tq = true) by (rewrite (st_le_enabled _ _ Hletq); exact He).
    destruct (bt_threads_enabled _ _ _ Htq Heq) as [Hid _].
    rewrite <- Hthq in Hid.
    pose proof (sched_le_keeps _ _ _ _ Hs' Hid (explore_t_not_skip tq)) as Hid'.
    rewrite Hid'. destruct Hletq as [->|[-> ->]]; reflexivity.
  - apply is_enabled_false in He. subst t.
    assert (tq = Disabled) as -> by (destruct Hletq as [->|[Hc _]]; [reflexivity|discriminate]).
    rewrite (bt_threads_disabled _ _ Htq) in Hthq.
    destruct Hle as (_ & _ & _ & _ & Hth). apply (Forall2_st_le_explore _ _ Hth).
    eapply sched_le_no_skip; [exact Hs'|]. rewrite Hthq.
    apply map_explore_t_not_skip.
Qed.

(* the same, in words closer to the informal rule *)
Corollary dpor_loop_registers_status objs ths p p' id th op o accs acc i s :
  dpor_loop objs ths p = POk p' ->
  In (id, th) ths -> t_op th = Some op ->
  nth_error objs (op_obj op) = Some o ->
  last_dependent_accesses o (op_act op) = Some accs ->
  In acc accs -> access_hb acc (t_dpor th) = false ->
  find_backtrack_point (branches p) (a_path_id acc) (S (a_path_id acc)) = POk (Some i) ->
  nth_error (branches p) i = Some (ESched s) ->
  at_bound s (bound p) = false ->
  exists s', nth_error (branches p') i = Some (ESched s') /\
    s_ex s' = true /\ s_pre s' = s_pre s /\ s_ia s' = s_ia s /\ s_prev s' = s_prev s /\
    active_thread_index s' = active_thread_index s /\ preemptions s' = preemptions s /\
    (* [id] enabled at entry i: not Skip afterwards *)
    (forall t, nth_error (s_threads s) id = Some t -> t <> Disabled ->
       exists t', nth_error (s_threads s') id = Some t' /\ t' <> Skip /\ st_le t t') /\
    (* [id] a candidate of the entry (Skip / Pending / Active / Visited): a
       registered alternative afterwards *)
    (forall t, nth_error (s_threads s) id = Some t -> runnable_status t = true ->
       nth_error (s_threads s') id = Some Pending \/
       nth_error (s_threads s') id = Some Active \/
       nth_error (s_threads s') id = Some Visited) /\
    (* [id] Disabled at entry i: the conservative fallback *)
    (nth_error (s_threads s) id = Some Disabled ->
       Forall (fun x => x <> Skip) (s_threads s')).
Proof.
  intros H Hin Hop Ho Hacc Hacc_in Hhb Hf Hn Hbd.
  destruct (dpor_loop_registers _ _ _ _ _ _ _ _ _ _ _ _ H Hin Hop Ho Hacc Hacc_in Hhb Hf Hn Hbd)
    as (s' & Hn' & Hle & Hm).
  exists s'. split; [exact Hn'|].
  destruct (find_backtrack_point_spec _ _ _ Hf) as (_ & _ & (s0 & Hn0 & Hex0) & _).
  rewrite Hn in Hn0. injection Hn0 as <-.
  destruct (sched_le_active _ _ Hle) as [A1 A2].
  destruct Hle as (F1 & F2 & F3 & F4 & _).
  split; [congruence|]. repeat (split; [assumption|]).
  split; [|split].
  - intros t Ht Hd. rewrite Ht in Hm.
    assert (He : is_enabled t = true) by (destruct t; try reflexivity; contradiction).
    rewrite He in Hm. exists (explore_t t).
    split; [exact Hm|]. split; [apply explore_t_not_skip|apply ext_t_explore].
  - intros t Ht Hr. rewrite Ht in Hm.
    destruct t; try discriminate; cbn [is_enabled is_disabled tstat_eqb negb explore_t] in Hm; auto.
  - intros Ht. rewrite Ht in Hm. cbn [is_enabled is_disabled tstat_eqb negb] in Hm.
    rewrite Hm. apply map_explore_t_not_skip.
Qed.

(* the bound condition in terms of loom's preemptions(): strictly below *)
Lemma at_bound_preemptions s b : preemptions s < b -> at_bound s (Some b) = false.
Proof.
  intros H. pose proof (preemptions_ge s) as Hge. unfold at_bound.
  apply Nat.eqb_neq. lia.
Qed.

(* no preemption bound *)
Corollary dpor_loop_registers_unbounded objs ths p p' id th op o accs acc i s :
  bound p = None ->
  dpor_loop objs ths p = POk p' ->
  In (id, th) ths -> t_op th = Some op ->
  nth_error objs (op_obj op) = Some o ->
  last_dependent_accesses o (op_act op) = Some accs ->
  In acc accs -> access_hb acc (t_dpor th) = false ->
  find_backtrack_point (branches p) (a_path_id acc) (S (a_path_id acc)) = POk (Some i) ->
  nth_error (branches p) i = Some (ESched s) ->
  exists s', nth_error (branches p') i = Some (ESched s') /\ sched_le s s' /\
    match nth_error (s_threads s) id with
    | Some t =>
        if is_enabled t
        then nth_error (s_threads s') id = Some (explore_t t)
        else s_threads s' = map explore_t (s_threads s)
    | None => True
    end.
Proof.
  intros Hb H Hin Hop Ho Hacc Hacc_in Hhb Hf Hn.
  eapply dpor_loop_registers; try eassumption. rewrite Hb. reflexivity.
Qed.

(* with a bound that the entry has reached, the race is detected and NOT
   registered: the early return of Schedule::backtrack *)
Lemma backtrack_at_bound_noop q point id q' i s :
  backtrack q point id = POk q' ->
  find_backtrack_point (branches q) point (S point) = POk (Some i) ->
  nth_error (branches q) i = Some (ESched s) ->
  at_bound s (bound q) = true ->
  nth_error (branches q') i = Some (ESched s).
Proof.
  intros H Hf Hn Hb. rewrite (backtrack_at_point _ _ _ _ _ _ H Hf Hn).
  unfold bt_sched. rewrite Hb. reflexivity.
Qed.

(* ================================================================== *)
(* 5. the bridge to the exploration                                    *)
(* ================================================================== *)

Lemma registered_of_status ek q s c :
  nth_error (branches ek) q = Some (ESched s) -> s_ex s = true ->
  (nth_error (s_threads s) c = Some Pending \/
   nth_error (s_threads s) c = Some Active \/
   nth_error (s_threads s) c = Some Visited) ->
  registered ek q (CThread (Some c)).
Proof.
  intros Hn Hex Hc. exists (ESched s). split; [exact Hn|]. split; [exact Hex|]. exact Hc.
Qed.

(* a Pending thread of an exploring Schedule entry is a registered alternative.
   [s_ex s = true] is part of the definition of [registered]; it holds at every
   backtrack point (find_backtrack_point_spec). *)
Lemma registered_of_pending ek q s c :
  nth_error (branches ek) q = Some (ESched s) -> s_ex s = true ->
  nth_error (s_threads s) c = Some Pending ->
  registered ek q (CThread (Some c)).
Proof. intros Hn Hex Hc. exact (registered_of_status _ _ _ _ Hn Hex (or_introl Hc)). Qed.

(* without [s_ex s = true] the statement is false *)
Lemma registered_of_pending_needs_ex :
  exists ek q s c,
    nth_error (branches ek) q = Some (ESched s) /\
    nth_error (s_threads s) c = Some Pending /\
    ~ registered ek q (CThread (Some c)).
Proof.
  exists (mkPath None 0 [ESched (mkSched 0 None [Pending] None false)] true false true 10),
         0, (mkSched 0 None [Pending] None false), 0.
  split; [reflexivity|]. split; [reflexivity|].
  intros (en & Hn & Hex & _). cbn in Hn. injection Hn as <-. discriminate.
Qed.

(* a registered alternative stays registered through the rest of the iteration *)
Lemma registered_extends p p' q c : extends p p' -> registered p q c -> registered p' q c.
Proof.
  intros Hext (en & Hn & Hex & Hreg).
  destruct (extends_nth_old _ _ _ _ Hext Hn) as (en' & Hn' & Hx).
  exists en'. split; [exact Hn'|]. split; [rewrite (ext_exploring _ _ Hx); exact Hex|].
  destruct (ext_inv _ _ Hx) as [->|(s & th & -> & -> & _ & Hth)]; [exact Hreg|].
  destruct c as [[t|]|k|b]; try contradiction. cbn [s_threads].
  destruct Hreg as [H|[H|H]];
    destruct (Forall2_nth_error _ Hth H) as (t' & Ht' & Hle);
    rewrite (st_le_not_skip _ _ Hle) in Ht' by discriminate; auto.
Qed.

(* the preemption bound is the same in every explored path *)
Lemma explore_bound it :
  iter_ok it ->
  forall n p k ek, wf_path p -> nth_error (explore it n p) k = Some ek -> bound ek = bound p.
Proof.
  intros Hit n p k ek Hwf.
  apply (explore_nth_inv it (fun pa => wf_path pa /\ bound pa = bound p)
                            (fun pk => bound pk = bound p)); [| |auto].
  - intros pa [Hw Hb]. destruct (Hit pa Hw) as [(Hb' & _) _]. congruence.
  - intros pa pa' [Hw Hb] Hs. destruct (Hit pa Hw) as [(Hb' & _) Hwi].
    split; [exact (PathTerm.step_wf _ _ Hwi Hs)|].
    destruct (step_cases _ _ Hs) as (_ & _ & _ & _ & _ & _ & _ & _ & Hb1 & _). congruence.
Qed.

(* RACE REVERSAL.  The exploration of the model from [initial_path c], without
   preemption bound.  Iteration k ends with stack [ek].  At some scheduling
   point of that iteration the DPOR loop took the stack from [p] to [p']
   ([extends p' ek]: the rest of the iteration only uses the Path API, which
   is what every path inside iteration k satisfies, see
   [run_race_reversal_explored] below for a fully concrete scheduling point),
   and found a race between the pending operation of thread [id] and an access
   whose backtrack point is entry [i], where [id] was a candidate (Skip,
   Pending, Active or Visited: not Disabled, not Yield).  Then some iteration j
   of the same exploration makes the same decisions before entry i and
   schedules thread [id] at entry i. *)
Theorem race_reversal_explored fuel prog c k ek objs ths p p' id th op o accs acc i s t :
  let it := fun pa => e_path (fst (iteration fuel prog pa)) in
  let n := S (BASE ^ cap (initial_path c)) in
  preemption_bound c = None ->
  nth_error (explore it n (initial_path c)) k = Some ek ->
  dpor_loop objs ths p = POk p' -> extends p' ek ->
  In (id, th) ths -> t_op th = Some op ->
  nth_error objs (op_obj op) = Some o ->
  last_dependent_accesses o (op_act op) = Some accs ->
  In acc accs -> access_hb acc (t_dpor th) = false ->
  find_backtrack_point (branches p) (a_path_id acc) (S (a_path_id acc)) = POk (Some i) ->
  nth_error (branches p) i = Some (ESched s) ->
  nth_error (s_threads s) id = Some t -> runnable_status t = true ->
  exists j ej,
    nth_error (explore it n (initial_path c)) j = Some ej /\
    firstn i (choices ej) = firstn i (choices ek) /\
    nth_error (choices ej) i = Some (CThread (Some id)).
Proof.
  intros it n Hnb Hk Hd Hext Hin Hop Ho Hacc Hacc_in Hhb Hf Hn Ht Hr.
  assert (Hbek : bound ek = None).
  { rewrite (explore_bound it (L_iter_ok fuel prog) n (initial_path c) k ek
               (proj1 (initial_path_ok c)) Hk). exact Hnb. }
  assert (Hbp : bound p = None).
  { destruct (path_le_fields _ _ (dpor_loop_mono _ _ _ _ Hd)) as (Hb & _).
    destruct Hext as (Hb' & _). congruence. }
  assert (Hbd : at_bound s (bound p) = false) by (rewrite Hbp; reflexivity).
  destruct (dpor_loop_registers_status _ _ _ _ _ _ _ _ _ _ _ _
              Hd Hin Hop Ho Hacc Hacc_in Hhb Hf Hn Hbd)
    as (s' & Hn' & Hex' & _ & _ & _ & _ & _ & _ & Hreg & _).
  pose proof (registered_of_status p' i s' id Hn' Hex' (Hreg t Ht Hr)) as Hregp.
  pose proof (registered_extends _ _ _ _ Hext Hregp) as Hregk.
  exact (L_exhaustive_complete fuel prog c k ek i (CThread (Some id)) Hk Hregk).
Qed.

(* the acceptable weaker phrasing: the END stack has [id] Pending at entry i *)
Corollary pending_explored fuel prog c k ek i s id :
  let it := fun pa => e_path (fst (iteration fuel prog pa)) in
  let n := S (BASE ^ cap (initial_path c)) in
  nth_error (explore it n (initial_path c)) k = Some ek ->
  nth_error (branches ek) i = Some (ESched s) -> s_ex s = true ->
  nth_error (s_threads s) id = Some Pending ->
  exists j ej,
    nth_error (explore it n (initial_path c)) j = Some ej /\
    firstn i (choices ej) = firstn i (choices ek) /\
    nth_error (choices ej) i = Some (CThread (Some id)).
Proof.
  intros it n Hk Hn Hex Hp.
  exact (L_exhaustive_complete fuel prog c k ek i (CThread (Some id)) Hk
           (registered_of_pending ek i s id Hn Hex Hp)).
Qed.

(* ---- the scheduling point as a call of Execution::schedule ---- *)
Lemma In_index_list_from (A : Type) (l : list A) k i x :
  nth_error l i = Some x -> In (k + i, x) (index_list_from k l).
Proof.
  revert k i; induction l as [|h t IH]; intros k [|i] Hn; cbn [nth_error] in Hn;
    try discriminate; cbn [index_list_from In].
  - injection Hn as ->. left. rewrite Nat.add_0_r. reflexivity.
  - right. replace (k + S i) with (S k + i) by lia. apply IH. exact Hn.
Qed.

(* once schedule has run its DPOR loop, its final path extends the result *)
Lemma schedule_after_dpor es curr cur_th p1 :
  e_active es = Some curr -> nth_error (e_threads es) curr = Some cur_th ->
  dpor_loop (e_objects es) (index_list (e_threads es)) (e_path es) = POk p1 ->
  extends p1 (e_path (res_exec (fst (schedule es)))).
Proof.
  intros Ha Hc Hd. rewrite schedule_unfold, Ha, Hc, Hd.
  destruct (branch_thread p1 (sched_seed (e_threads es) curr cur_th)) as [[p2 next]|x] eqn:Hb.
  - rewrite sched_post_path. cbn [e_path ex_set_active ex_set_path].
    exact (proj1 (branch_thread_extends _ _ _ _ Hb)).
  - cbn [fst res_exec e_path ex_set_path]. apply extends_refl.
Qed.

Theorem schedule_race_reversal_explored
        fuel prog c k ek es curr cur_th p1 id th op o accs acc i s t :
  let it := fun pa => e_path (fst (iteration fuel prog pa)) in
  let n := S (BASE ^ cap (initial_path c)) in
  preemption_bound c = None ->
  nth_error (explore it n (initial_path c)) k = Some ek ->
  (* Execution::schedule is called on state [es] during iteration k *)
  extends (e_path (res_exec (fst (schedule es)))) ek ->
  e_active es = Some curr -> nth_error (e_threads es) curr = Some cur_th ->
  dpor_loop (e_objects es) (index_list (e_threads es)) (e_path es) = POk p1 ->
  (* thread [id] has a pending operation that races with [acc] *)
  nth_error (e_threads es) id = Some th -> t_op th = Some op ->
  nth_error (e_objects es) (op_obj op) = Some o ->
  last_dependent_accesses o (op_act op) = Some accs ->
  In acc accs -> access_hb acc (t_dpor th) = false ->
  find_backtrack_point (branches (e_path es)) (a_path_id acc) (S (a_path_id acc))
    = POk (Some i) ->
  nth_error (branches (e_path es)) i = Some (ESched s) ->
  nth_error (s_threads s) id = Some t -> runnable_status t = true ->
  exists j ej,
    nth_error (explore it n (initial_path c)) j = Some ej /\
    firstn i (choices ej) = firstn i (choices ek) /\
    nth_error (choices ej) i = Some (CThread (Some id)).
Proof.
  intros it n Hnb Hk Hext Ha Hc Hd Hth Hop Ho Hacc Hacc_in Hhb Hf Hn Ht Hr.
  eapply (race_reversal_explored fuel prog c k ek) with (p := e_path es) (p' := p1);
    try eassumption.
  - eapply extends_trans; [eapply schedule_after_dpor; eassumption|exact Hext].
  - exact (In_index_list_from _ _ 0 _ _ Hth).
Qed.

(* ---- the scheduling point as a point of Scheduler::run ---- *)

(* [run_reaches f e f' e']: Scheduler::run, started in state [e] with fuel [f],
   reaches the state [e'] (between two micro-operations) with fuel [f'] left *)
Inductive run_reaches : nat -> exec -> nat -> exec -> Prop :=
  | rr_here f e : run_reaches f e f e
  | rr_step f e me t m rest e2 f' e' :
      e_active e = Some me -> nth_error (e_threads e) me = Some t -> t_cont t = m :: rest ->
      exec_micro (upd_thread e me (fun t => th_set_cont t rest)) me m = MOk e2 ->
      run_reaches f e2 f' e' -> run_reaches (S f) e f' e'.

Lemma run_reaches_run f e f' e' : run_reaches f e f' e' -> run f e = run f' e'.
Proof.
  induction 1 as [|f e me t m rest e2 f' e' Ha Ht Hc Hm _ IH]; [reflexivity|].
  cbn [run]. rewrite Ha, Ht, Hc, Hm. exact IH.
Qed.

(* the START paths of the exploration: [explore] is [map it] of them *)
Fixpoint starts (it : path -> path) (n : nat) (p : path) : list path :=
  match n with
  | 0 => []
  | S n' => p :: match step (it p) with
                 | Some p' => starts it n' p'
                 | None => []
                 end
  end.

Lemma explore_starts it n p : explore it n p = map it (starts it n p).
Proof.
  revert p; induction n as [|n IH]; intros p; cbn [explore starts map]; [reflexivity|].
  destruct (step (it p)) as [p'|]; [rewrite IH|]; reflexivity.
Qed.

(* the micro-operation executed at a reached state leads to the END stack *)
Lemma run_next_extends f e me t m rest :
  e_active e = Some me -> nth_error (e_threads e) me = Some t -> t_cont t = m :: rest ->
  extends (e_path (res_exec (exec_micro (upd_thread e me (fun t => th_set_cont t rest)) me m)))
          (e_path (fst (run (S f) e))).
Proof.
  intros Ha Ht Hc. cbn [run]. rewrite Ha, Ht, Hc.
  destruct (exec_micro _ me m) as [e2|e2 pn]; cbn [res_exec fst].
  - exact (proj1 (run_path_ok f e2)).
  - apply extends_refl.
Qed.

(* RACE REVERSAL, fully concrete.  Iteration k of the exploration starts from
   the stack [pk].  Its run reaches the state [e1], where the active thread
   [me] executes a micro-operation [m] that calls Execution::schedule on the
   state [es] (for m = MBranch obj act blk this is the definition of do_branch,
   see the corollary).  The DPOR loop of that call finds that the pending
   operation of thread [id] races with the access [acc], whose backtrack point
   is entry [i], where [id] was a candidate.  Then some iteration j makes the
   same decisions before entry i and schedules [id] at entry i. *)
Theorem run_race_reversal_explored
        fuel prog c k pk f1 e1 me tme m rest es curr cur_th p1 id th op o accs acc i s t :
  let it := fun pa => e_path (fst (iteration fuel prog pa)) in
  let n := S (BASE ^ cap (initial_path c)) in
  preemption_bound c = None ->
  nth_error (starts it n (initial_path c)) k = Some pk ->
  run_reaches fuel (init_exec prog pk) (S f1) e1 ->
  e_active e1 = Some me -> nth_error (e_threads e1) me = Some tme -> t_cont tme = m :: rest ->
  exec_micro (upd_thread e1 me (fun t => th_set_cont t rest)) me m = fst (schedule es) ->
  e_active es = Some curr -> nth_error (e_threads es) curr = Some cur_th ->
  dpor_loop (e_objects es) (index_list (e_threads es)) (e_path es) = POk p1 ->
  nth_error (e_threads es) id = Some th -> t_op th = Some op ->
  nth_error (e_objects es) (op_obj op) = Some o ->
  last_dependent_accesses o (op_act op) = Some accs ->
  In acc accs -> access_hb acc (t_dpor th) = false ->
  find_backtrack_point (branches (e_path es)) (a_path_id acc) (S (a_path_id acc))
    = POk (Some i) ->
  nth_error (branches (e_path es)) i = Some (ESched s) ->
  nth_error (s_threads s) id = Some t -> runnable_status t = true ->
  exists j ej,
    nth_error (explore it n (initial_path c)) j = Some ej /\
    firstn i (choices ej) = firstn i (choices (it pk)) /\
    nth_error (choices ej) i = Some (CThread (Some id)).
Proof.
  intros it n Hnb Hk Hreach Ha Ht Hc Hm Hea Hec Hd Hth Hop Ho Hacc Hacc_in Hhb Hf Hn Hst Hr.
  assert (Hek : nth_error (explore it n (initial_path c)) k = Some (it pk)).
  { rewrite explore_starts. apply map_nth_error. exact Hk. }
  eapply (schedule_race_reversal_explored fuel prog c k (it pk) es); try eassumption.
  unfold it. rewrite iteration_fst, (run_reaches_run _ _ _ _ Hreach), <- Hm.
  exact (run_next_extends f1 e1 me tme m rest Ha Ht Hc).
Qed.

(* the instance for the scheduling point of a branch (every atomic access,
   lock, send, ... is preceded by one): [es] is explicit *)
Corollary branch_race_reversal_explored
        fuel prog c k pk f1 e1 me tme obj act blk rest curr cur_th p1 id th op o accs acc i s t :
  let it := fun pa => e_path (fst (iteration fuel prog pa)) in
  let n := S (BASE ^ cap (initial_path c)) in
  let e1' := upd_thread e1 me (fun t => th_set_cont t rest) in
  let es := upd_thread e1' me (fun t =>
              let t := th_set_op t (Some (mkOp obj act)) in
              if block_now e1' obj blk then set_blocked t else t) in
  preemption_bound c = None ->
  nth_error (starts it n (initial_path c)) k = Some pk ->
  run_reaches fuel (init_exec prog pk) (S f1) e1 ->
  e_active e1 = Some me -> nth_error (e_threads e1) me = Some tme ->
  t_cont tme = MBranch obj act blk :: rest ->
  e_active es = Some curr -> nth_error (e_threads es) curr = Some cur_th ->
  dpor_loop (e_objects es) (index_list (e_threads es)) (e_path es) = POk p1 ->
  nth_error (e_threads es) id = Some th -> t_op th = Some op ->
  nth_error (e_objects es) (op_obj op) = Some o ->
  last_dependent_accesses o (op_act op) = Some accs ->
  In acc accs -> access_hb acc (t_dpor th) = false ->
  find_backtrack_point (branches (e_path es)) (a_path_id acc) (S (a_path_id acc))
    = POk (Some i) ->
  nth_error (branches (e_path es)) i = Some (ESched s) ->
  nth_error (s_threads s) id = Some t -> runnable_status t = true ->
  exists j ej,
    nth_error (explore it n (initial_path c)) j = Some ej /\
    firstn i (choices ej) = firstn i (choices (it pk)) /\
    nth_error (choices ej) i = Some (CThread (Some id)).
Proof.
  intros it n e1' es Hnb Hk Hreach Ha Ht Hc.
  apply (run_race_reversal_explored fuel prog c k pk f1 e1 me tme (MBranch obj act blk) rest es);
    try assumption.
  reflexivity.
Qed.

(* ================================================================== *)
(* 6. non-vacuity, and the case the rule does not cover                *)
(* ================================================================== *)

(* two threads store to one atomic; no preemption bound *)
Definition cfg_nb : config := mkConfig 5 1000 None None None false.
Definition p_two_stores_nb : prog :=
  mkProg cfg_nb [DAtomic 0]
    [[ISpawn 1; IStore 0 1 SeqCst; IJoin 1]; [IStore 0 2 SeqCst]].

Definition FUELD : nat := 100 * 100.

Definition it_two_stores : path -> path :=
  fun pa => e_path (fst (iteration FUELD p_two_stores_nb pa)).
Definition explored_two_stores_nb : list path :=
  explore it_two_stores 100 (initial_path cfg_nb).

Definition status_at (p : path) (i u : nat) : option tstat :=
  match nth_error (branches p) i with
  | Some (ESched s) => if s_ex s then nth_error (s_threads s) u else None
  | _ => None
  end.

(* the first iteration ends with thread 1 Pending at entry 0, the entry at which
   thread 0 was scheduled to do its store; the second iteration makes thread 1
   run there; the exploration finishes by itself *)
Example dpor_two_stores :
  finishes it_two_stores 100 (initial_path cfg_nb) = true /\
  option_map (fun e => nth_error (choices e) 0) (nth_error explored_two_stores_nb 0)
    = Some (Some (CThread (Some 0))) /\
  option_map (fun e => status_at e 0 1) (nth_error explored_two_stores_nb 0)
    = Some (Some Pending) /\
  option_map (fun e => nth_error (choices e) 0) (nth_error explored_two_stores_nb 1)
    = Some (Some (CThread (Some 1))).
Proof. vm_compute. repeat split; reflexivity. Qed.

(* the same through the theorems: the Pending mark is a registered alternative,
   hence (pending_explored) decided by some iteration *)
Lemma status_at_registered p i u :
  status_at p i u = Some Pending -> registered p i (CThread (Some u)).
Proof.
  unfold status_at. intros H.
  destruct (nth_error (branches p) i) as [[s|l|sp]|] eqn:Hn; try discriminate.
  destruct (s_ex s) eqn:Hex; [|discriminate].
  eapply registered_of_pending; eassumption.
Qed.

Example dpor_two_stores_registered :
  exists e0, nth_error explored_two_stores_nb 0 = Some e0 /\
             registered e0 0 (CThread (Some 1)).
Proof.
  exists (it_two_stores (initial_path cfg_nb)). split; [vm_compute; reflexivity|].
  apply status_at_registered. vm_compute. reflexivity.
Qed.

(* the hypotheses of the main theorem are satisfiable: a DPOR loop in which
   thread 1 is about to store to an atomic last stored by thread 0 at entry 0 *)
Definition nv_access : access := mkAccess 0 [1; 0; 0; 0; 0].
Definition nv_atomic : object :=
  OAtomic (mkAtomic vv_new vv_new vv_new vv_new false (repeat None MAX_THREADS)
                    (Some nv_access) [] 0).
Definition nv_thread (op : option operation) : thread :=
  mkThread Runnable op vv_new vv_new vv_new None 0 [] 0 0 [] [] false.
Definition nv_sched : Path.schedule :=
  mkSched 0 (Some 0) [Active; Skip; Disabled; Disabled; Disabled] None true.
Definition nv_path : path := mkPath None 1 [ESched nv_sched] true false true 1000.

Example dpor_loop_registers_nonvacuous :
  exists p',
    dpor_loop [nv_atomic] [(0, nv_thread None); (1, nv_thread (Some (mkOp 0 AStore)))] nv_path
      = POk p' /\
    last_dependent_accesses nv_atomic AStore = Some [nv_access] /\
    access_hb nv_access (t_dpor (nv_thread (Some (mkOp 0 AStore)))) = false /\
    find_backtrack_point (branches nv_path) (a_path_id nv_access) (S (a_path_id nv_access))
      = POk (Some 0) /\
    nth_error (branches nv_path) 0 = Some (ESched nv_sched) /\
    at_bound nv_sched (bound nv_path) = false /\
    nth_error (s_threads nv_sched) 1 = Some Skip /\
    status_at p' 0 1 = Some Pending.
Proof. eexists. vm_compute. repeat split; reflexivity. Qed.

(* ---- what the rule does NOT register ---- *)

(* (a) a thread that is Yield at the backtrack point: it is "enabled", so the
   conservative fallback does not fire, and explore() leaves Yield alone.  The
   race is detected, the request is issued, nothing is registered. *)
Definition yl_sched : Path.schedule :=
  mkSched 0 None [TYield; Active; Disabled; Disabled; Disabled] None true.
Definition yl_path : path := mkPath None 1 [ESched yl_sched] true false true 1000.

Lemma yield_race_not_registered :
  backtrack yl_path 0 0 = POk yl_path /\
  find_backtrack_point (branches yl_path) 0 1 = POk (Some 0) /\
  at_bound yl_sched (bound yl_path) = false /\
  ~ registered yl_path 0 (CThread (Some 0)).
Proof.
  split; [vm_compute; reflexivity|]. split; [reflexivity|]. split; [reflexivity|].
  intros (en & Hn & _ & Hreg). cbn in Hn. injection Hn as <-. cbn in Hreg.
  destruct Hreg as [H|[H|H]]; discriminate.
Qed.

(* the same through the DPOR loop: all hypotheses of dpor_loop_registers hold
   for thread 0, and thread 0 is not a registered alternative afterwards *)
Example dpor_loop_yield_not_registered :
  exists p',
    dpor_loop [nv_atomic] [(0, nv_thread (Some (mkOp 0 AStore)))] yl_path = POk p' /\
    access_hb nv_access (t_dpor (nv_thread (Some (mkOp 0 AStore)))) = false /\
    find_backtrack_point (branches yl_path) (a_path_id nv_access) (S (a_path_id nv_access))
      = POk (Some 0) /\
    at_bound yl_sched (bound yl_path) = false /\
    status_at p' 0 0 = Some TYield.
Proof. eexists. vm_compute. repeat split; reflexivity. Qed.

(* END TO END: a race reversal that loom never explores.
     main: spawn t1; r0 = x.fetch_add(1); join t1
     t1:   yield_now(); r1 = x.fetch_add(10)
   Iteration 1 runs main's RMW first (r0 = 0, r1 = 1) and registers t1 at
   entry 0.  Iteration 2 runs t1 at entry 0; t1 yields at once (entry 1 =
   [main Active; t1 Yield]), main does its RMW at entry 1, then t1's RMW
   races with it: backtrack(1, t1) finds t1 Yield at entry 1 and does nothing.
   The exploration stops after these two iterations; the order "t1's RMW
   first" (r0 = 10, r1 = 0), which the reference semantics R allows (yield_now
   is only a hint), is never explored. *)
Definition p_yield_rmw : prog :=
  mkProg cfg0 [DAtomic 0]
    [[ISpawn 1; IRmw 0 RAdd 1 SeqCst; IJoin 1]; [IYield; IRmw 0 RAdd 10 SeqCst]].
Definition o_yield_rmw : outcome :=
  [[(0, RUnit); (1, RVal 10); (2, RUnit)]; [(0, RUnit); (1, RVal 0)]].

Lemma yield_race_reversal_missed :
  missing p_yield_rmw o_yield_rmw = true /\
  length (recs_of p_yield_rmw) = 2 /\
  (* the END stack of the last iteration: t1 is Yield at entry 1, where main
     was scheduled to do its RMW, and nothing is Pending anywhere *)
  option_map (fun r => status_at (ir_end r) 1 1) (nth_error (recs_of p_yield_rmw) 1)
    = Some (Some TYield) /\
  option_map (fun r => nth_error (choices (ir_end r)) 1) (nth_error (recs_of p_yield_rmw) 1)
    = Some (Some (CThread (Some 0))) /\
  forallb (fun r => forallb (fun e => match e with
                                      | ESched s => negb (existsb is_pending (s_threads s))
                                      | _ => true
                                      end) (branches (ir_end r)))
          (skipn 1 (recs_of p_yield_rmw)) = true.
Proof. vm_compute. repeat split; reflexivity. Qed.

(* (b) an entry whose stored count has reached the preemption bound *)
Definition bd_sched : Path.schedule :=
  mkSched 1 (Some 0) [Active; Skip; Disabled; Disabled; Disabled] None true.
Definition bd_path : path := mkPath (Some 1) 1 [ESched bd_sched] true false true 1000.

Lemma bound_race_not_registered :
  backtrack bd_path 0 1 = POk bd_path /\
  find_backtrack_point (branches bd_path) 0 1 = POk (Some 0) /\
  at_bound bd_sched (bound bd_path) = true /\
  ~ registered bd_path 0 (CThread (Some 1)).
Proof.
  split; [vm_compute; reflexivity|]. split; [reflexivity|]. split; [reflexivity|].
  intros (en & Hn & _ & Hreg). cbn in Hn. injection Hn as <-. cbn in Hreg.
  destruct Hreg as [H|[H|H]]; discriminate.
Qed.

(* the early return tests the stored field, not preemptions(): an entry with
   preemptions() = bound but s_pre < bound still registers *)
Definition bd2_sched : Path.schedule :=
  mkSched 0 (Some 1) [Active; Skip; Disabled; Disabled; Disabled] None true.
Definition bd2_path : path := mkPath (Some 1) 1 [ESched bd2_sched] true false true 1000.

Lemma early_return_uses_stored_count :
  preemptions bd2_sched = 1 /\ bound bd2_path = Some 1 /\
  at_bound bd2_sched (bound bd2_path) = false /\
  option_map (fun p => status_at p 0 1)
    (match backtrack bd2_path 0 1 with POk p => Some p | PErr _ => None end)
    = Some (Some Pending).
Proof. vm_compute. repeat split; reflexivity. Qed.

Print Assumptions sched_backtrack_spec.
Print Assumptions sched_backtrack_effect.
Print Assumptions find_backtrack_point_spec.
Print Assumptions find_backtrack_point_complete.
Print Assumptions backtrack_spec.
Print Assumptions backtrack_spec_unbounded.
Print Assumptions backtrack_mono.
Print Assumptions dpor_accesses_mono.
Print Assumptions dpor_loop_mono.
Print Assumptions dpor_loop_keeps_status.
Print Assumptions find_backtrack_point_le.
Print Assumptions dpor_loop_registers.
Print Assumptions dpor_loop_registers_status.
Print Assumptions dpor_loop_registers_unbounded.
Print Assumptions registered_of_pending.
Print Assumptions registered_of_pending_needs_ex.
Print Assumptions race_reversal_explored.
Print Assumptions pending_explored.
Print Assumptions schedule_race_reversal_explored.
Print Assumptions run_race_reversal_explored.
Print Assumptions branch_race_reversal_explored.
Print Assumptions dpor_two_stores.
Print Assumptions dpor_two_stores_registered.
Print Assumptions dpor_loop_registers_nonvacuous.
Print Assumptions yield_race_not_registered.
Print Assumptions dpor_loop_yield_not_registered.
Print Assumptions yield_race_reversal_missed.
Print Assumptions bound_race_not_registered.
Print Assumptions early_return_uses_stored_count.
