(* Facts about the Path API (rt/path.rs transcription in Path.v):
     Part 1  the API only appends entries and adds backtrack marks (extends),
             and keeps the stack well formed (wf_path);
     Part 2  the preemption-bound invariant c15_inv (C15);
     Part 3  non-exploring entries are frozen, exploration controls (C19).

   Deviations from the requested statements: none.  Every lemma is proved as
   stated.  Two statements were left to my choice and are fixed as follows:
     - [last_error l := nth_error l (length l - 1)]  (last element, if any);
     - "new entries inherit exploring" is one lemma per pushing function
       ([push_load_inherit_exploring], [branch_spurious_inherit_exploring],
       [branch_thread_inherit_exploring]); for the two [branch_*] functions,
       which push only when the path is traversed, the statement is the
       dichotomy  (traversed, one entry appended, its flag = exploring p)
       or (not traversed, stack unchanged);  the generic corollary
       [new_entries_inherit_exploring] covers all three at once. *)
Require Import LV.Base LV.Path LV.PathSpec.
Require Export LV.PathTerm.
From Coq Require Import Lia.

(* ------------------------------------------------------------------ *)
(* generic list facts                                                  *)
(* ------------------------------------------------------------------ *)

Lemma pad_to_length (A : Type) (n : nat) (d : A) (l : list A) :
  length (pad_to n d l) = n.
Proof.
  revert l; induction n as [|n IH]; intros [|h t]; cbn [pad_to length]; auto.
Qed.

Lemma pad_to_Forall (A : Type) (P : A -> Prop) (n : nat) (d : A) (l : list A) :
  P d -> Forall P l -> Forall P (pad_to n d l).
Proof.
  intros Hd; revert l; induction n as [|n IH]; intros l Hl; cbn [pad_to].
  - constructor.
  - destruct l as [|h t].
    + constructor; auto.
    + inversion Hl as [|x y Hh Ht]; subst. constructor; auto.
Qed.

Lemma find_index_pad (A : Type) (f : A -> bool) (d : A) (n : nat) (l : list A) :
  f d = false -> length l <= n -> find_index f (pad_to n d l) = find_index f l.
Proof.
  intros Hd. revert l; induction n as [|n IH]; intros l Hl.
  - destruct l; [reflexivity|cbn [length] in Hl; lia].
  - destruct l as [|h t]; cbn [pad_to find_index].
    + rewrite Hd. rewrite (IH []); [reflexivity|cbn [length]; lia].
    + cbn [length] in Hl. rewrite IH; [reflexivity|lia].
Qed.

Lemma Forall2_trans (A : Type) (R : A -> A -> Prop) :
  (forall a b c, R a b -> R b c -> R a c) ->
  forall l1 l2 l3, Forall2 R l1 l2 -> Forall2 R l2 l3 -> Forall2 R l1 l3.
Proof.
  intros HR l1 l2 l3 H12; revert l3.
  induction H12 as [|a b l1 l2 Hab H12 IH]; intros l3 H23;
    inversion H23; subst; constructor; eauto.
Qed.

Lemma Forall2_list_set (A : Type) (R : A -> A -> Prop) (l : list A) (n : nat) (x y : A) :
  (forall a, R a a) -> nth_error l n = Some x -> R x y ->
  Forall2 R l (list_set l n y).
Proof.
  intros HR; revert n; induction l as [|h t IH]; intros [|n] Hn Hxy;
    cbn [list_set nth_error] in *; try discriminate.
  - injection Hn as ->. constructor; auto using Forall2_refl.
  - constructor; auto.
Qed.

Lemma nth_error_In_Forall (A : Type) (P : A -> Prop) (l : list A) (n : nat) (x : A) :
  Forall P l -> nth_error l n = Some x -> P x.
Proof.
  intros Hl Hn. rewrite Forall_forall in Hl. eauto using nth_error_In.
Qed.

(* ------------------------------------------------------------------ *)
(* thread-status lists                                                 *)
(* ------------------------------------------------------------------ *)

Definition no_pending (l : list tstat) : Prop := Forall (fun t => t <> Pending) l.

Lemma ext_t_refl t : ext_t t t.
Proof. left; reflexivity. Qed.

Lemma ext_t_trans a b c : ext_t a b -> ext_t b c -> ext_t a c.
Proof.
  intros [->|[-> ->]] [->|[Hb ->]]; try discriminate.
  - left; reflexivity.
  - right; auto.
  - right; auto.
Qed.

Lemma ext_t_explore t : ext_t t (explore_t t).
Proof. destruct t; cbn; try (left; reflexivity). right; auto. Qed.

Lemma ext_t_map_explore l : Forall2 ext_t l (map explore_t l).
Proof. induction l; cbn [map]; constructor; auto using ext_t_explore. Qed.

Lemma ext_t_list_upd_explore l n : Forall2 ext_t l (list_upd l n explore_t).
Proof.
  unfold list_upd. destruct (nth_error l n) as [x|] eqn:Hn.
  - eapply Forall2_list_set; eauto using ext_t_refl, ext_t_explore.
  - apply Forall2_refl, ext_t_refl.
Qed.

Lemma activate_first_yield_length l : length (activate_first_yield l) = length l.
Proof.
  induction l as [|h t IH]; cbn [activate_first_yield]; auto.
  destruct h; cbn [length]; auto.
Qed.

Lemma activate_first_yield_Forall (P : tstat -> Prop) l :
  P Active -> Forall P l -> Forall P (activate_first_yield l).
Proof.
  intros HA. induction 1 as [|h t Hh Ht IH]; cbn [activate_first_yield]; auto.
  destruct h; constructor; auto.
Qed.

(* the thread array of the Schedule entry pushed by branch_thread *)
Definition new_threads (seed : list tstat) : list tstat :=
  let threads0 := pad_to MAX_THREADS Disabled seed in
  match find_index is_active threads0 with
  | Some _ => threads0
  | None => activate_first_yield threads0
  end.

Lemma new_threads_length seed : length (new_threads seed) = MAX_THREADS.
Proof.
  unfold new_threads. cbv zeta.
  destruct (find_index is_active (pad_to MAX_THREADS Disabled seed));
    [|rewrite activate_first_yield_length]; apply pad_to_length.
Qed.

Lemma new_threads_Forall (P : tstat -> Prop) seed :
  P Disabled -> P Active -> Forall P seed -> Forall P (new_threads seed).
Proof.
  intros HD HA Hs. unfold new_threads. cbv zeta.
  pose proof (pad_to_Forall _ P MAX_THREADS Disabled seed HD Hs) as Hp.
  destruct (find_index is_active (pad_to MAX_THREADS Disabled seed)); [exact Hp|].
  apply activate_first_yield_Forall; assumption.
Qed.

Lemma advance_threads_none l : no_pending l -> activate_pending (visit_active l) = None.
Proof.
  intros Hnp. destruct (activate_pending (visit_active l)) as [th|] eqn:E; [exfalso|reflexivity].
  destruct (activate_pending_inv _ _ E) as (i & Hi & _).
  destruct (visit_active_nth l i) as [(_ & Hv)|(_ & _ & Hv)]; rewrite Hv in Hi; [|discriminate].
  unfold no_pending in Hnp. rewrite Forall_forall in Hnp.
  exact (Hnp _ (nth_error_In _ _ Hi) eq_refl).
Qed.

Lemma opt_nat_eqb_refl o : opt_nat_eqb o o = true.
Proof. destruct o; cbn; auto using Nat.eqb_refl. Qed.

Lemma opt_nat_eqb_eq a b : opt_nat_eqb a b = true <-> a = b.
Proof.
  destruct a as [x|], b as [y|]; cbn; split; intros H; try discriminate; auto.
  - apply Nat.eqb_eq in H. congruence.
  - injection H as ->. apply Nat.eqb_refl.
Qed.

(* ------------------------------------------------------------------ *)
(* Part 1: ext / extends / wf_path                                     *)
(* ------------------------------------------------------------------ *)

Lemma ext_inv e e' :
  ext e e' ->
  e' = e \/
  exists s th', e = ESched s /\
    e' = ESched (mkSched (s_pre s) (s_ia s) th' (s_prev s) (s_ex s)) /\
    s_ex s = true /\ Forall2 ext_t (s_threads s) th'.
Proof.
  intros H; destruct H as [e|s th' Hex Hth]; [left; reflexivity|].
  right; exists s, th'; auto.
Qed.

Lemma ext_trans a b c : ext a b -> ext b c -> ext a c.
Proof.
  intros Hab Hbc.
  destruct (ext_inv _ _ Hab) as [->|(s & th1 & -> & -> & Hex & Hth1)]; [assumption|].
  destruct (ext_inv _ _ Hbc) as [->|(s2 & th2 & Hs2 & -> & Hex2 & Hth2)]; [assumption|].
  injection Hs2 as <-. cbn [s_pre s_ia s_prev s_ex s_threads] in *.
  apply ext_sched; [assumption|].
  eapply Forall2_trans; eauto using ext_t_trans.
Qed.

Lemma ext_nonexploring e e' : ext e e' -> entry_exploring e = false -> e' = e.
Proof.
  intros H Hne.
  destruct (ext_inv _ _ H) as [->|(s & th & -> & -> & Hex & Hth)]; [reflexivity|].
  cbn [entry_exploring] in Hne. congruence.
Qed.

Lemma ext_exploring e e' : ext e e' -> entry_exploring e' = entry_exploring e.
Proof.
  intros H.
  destruct (ext_inv _ _ H) as [->|(s & th & -> & -> & Hex & Hth)]; reflexivity.
Qed.

Lemma Forall2_ext_wf l l' : Forall2 ext l l' -> Forall wf_entry l -> Forall wf_entry l'.
Proof. apply Forall2_Forall. exact ext_wf. Qed.

Lemma Forall2_ext_refl l : Forall2 ext l l.
Proof. apply Forall2_refl; constructor. Qed.

Lemma Forall2_ext_trans l1 l2 l3 :
  Forall2 ext l1 l2 -> Forall2 ext l2 l3 -> Forall2 ext l1 l3.
Proof. apply Forall2_trans; exact ext_trans. Qed.

Lemma extends_refl p : extends p p.
Proof.
  unfold extends; repeat split; try reflexivity.
  exists (branches p), []. rewrite app_nil_r. auto using Forall2_ext_refl.
Qed.

Lemma extends_trans p q r : extends p q -> extends q r -> extends p r.
Proof.
  intros (Hb1 & Hc1 & He1 & old1 & new1 & Hq & Hold1)
         (Hb2 & Hc2 & He2 & old2 & new2 & Hr & Hold2).
  unfold extends. repeat split; try congruence.
  rewrite Hq in Hold2.
  destruct (Forall2_app_inv_l _ _ Hold2) as (o2a & o2b & Ha & Hb & ->).
  exists o2a, (o2b ++ new2). split.
  - rewrite Hr, app_assoc. reflexivity.
  - eauto using Forall2_ext_trans.
Qed.

(* the two shapes an API call gives to the stack *)
Lemma extends_same_branches p p' :
  bound p' = bound p -> cap p' = cap p -> eos p' = eos p ->
  branches p' = branches p ->
  extends p p' /\ (wf_path p -> wf_path p').
Proof.
  intros Hb Hc He Hbr. split.
  - unfold extends; repeat split; auto.
    exists (branches p), []. rewrite app_nil_r. auto using Forall2_ext_refl.
  - unfold wf_path. rewrite Hbr, Hc. auto.
Qed.

Lemma extends_marks p p' :
  bound p' = bound p -> cap p' = cap p -> eos p' = eos p ->
  Forall2 ext (branches p) (branches p') ->
  extends p p' /\ (wf_path p -> wf_path p').
Proof.
  intros Hb Hc He Hbr. split.
  - unfold extends; repeat split; auto.
    exists (branches p'), []. rewrite app_nil_r. auto.
  - unfold wf_path. intros [Hwf Hlen]. split.
    + eauto using Forall2_ext_wf.
    + rewrite <- (Forall2_len _ _ _ _ _ Hbr), Hc. assumption.
Qed.

Lemma extends_push p p' e :
  bound p' = bound p -> cap p' = cap p -> eos p' = eos p ->
  branches p' = branches p ++ [e] ->
  path_len_ok p = true -> wf_entry e ->
  extends p p' /\ (wf_path p -> wf_path p').
Proof.
  intros Hb Hc He Hbr Hlen Hwe. split.
  - unfold extends; repeat split; auto.
    exists (branches p), [e]. auto using Forall2_ext_refl.
  - unfold wf_path. intros [Hwf _]. rewrite Hbr, Hc. split.
    + apply Forall_app; split; auto.
    + unfold path_len_ok in Hlen. apply Nat.ltb_lt in Hlen.
      rewrite app_length; cbn [length]. lia.
Qed.

Lemma explore_state_cases p p' :
  explore_state p = POk p' ->
  (skipping p = true /\ p' = p) \/
  (skipping p = false /\ exploring p = false /\ p' = set_flags p true false).
Proof.
  unfold explore_state. intros H.
  destruct (skipping p); [injection H as <-; auto|].
  destruct (exploring p); [discriminate|]. injection H as <-. auto.
Qed.

Lemma critical_cases p p' :
  critical p = POk p' ->
  (skipping p = true /\ p' = p) \/
  (skipping p = false /\ exploring p = true /\ p' = set_flags p false false).
Proof.
  unfold critical. intros H.
  destruct (skipping p); [injection H as <-; auto|].
  destruct (exploring p); [|discriminate]. injection H as <-. auto.
Qed.

Lemma explore_state_extends p p' :
  explore_state p = POk p' -> extends p p' /\ (wf_path p -> wf_path p').
Proof.
  intros H. destruct (explore_state_cases _ _ H) as [(_ & ->)|(_ & _ & ->)];
    apply extends_same_branches; reflexivity.
Qed.

Lemma critical_extends p p' :
  critical p = POk p' -> extends p p' /\ (wf_path p -> wf_path p').
Proof.
  intros H. destruct (critical_cases _ _ H) as [(_ & ->)|(_ & _ & ->)];
    apply extends_same_branches; reflexivity.
Qed.

Lemma skip_branch_extends p :
  extends p (skip_branch p) /\ (wf_path p -> wf_path (skip_branch p)).
Proof. apply extends_same_branches; reflexivity. Qed.

(* ---- push_load ---- *)
Lemma push_load_cases p seed p' :
  push_load p seed = POk p' ->
  path_len_ok p = true /\ length seed <= MAX_ATOMIC_HISTORY /\
  p' = set_branches p (branches p ++ [ELoad (mkLoad seed 0 (exploring p))]).
Proof.
  unfold push_load. intros H.
  destruct (path_len_ok p); cbn [negb] in H; [|discriminate].
  destruct (forallb (fun v => Nat.ltb v MAX_ATOMIC_HISTORY) seed); cbn [negb] in H;
    [|discriminate].
  destruct (Nat.ltb MAX_ATOMIC_HISTORY (length seed)) eqn:Hl; [discriminate|].
  apply Nat.ltb_ge in Hl. injection H as <-. auto.
Qed.

Lemma push_load_extends p seed p' :
  push_load p seed = POk p' -> extends p p' /\ (wf_path p -> wf_path p').
Proof.
  intros H. destruct (push_load_cases _ _ _ H) as (Hlen & Hseed & ->).
  eapply extends_push; try reflexivity; auto.
Qed.

(* ---- branch_load ---- *)
Lemma branch_load_cases p p' v :
  branch_load p = POk (p', v) -> p' = set_pos p (S (pos p)).
Proof.
  unfold branch_load. intros H.
  destruct (is_traversed p); [discriminate|].
  destruct (nth_error (branches p) (pos p)) as [[s|l|s]|]; try discriminate.
  destruct (nth_error (l_vals l) (l_pos l)).
  - injection H as <- _. reflexivity.
  - destruct (Nat.ltb (l_pos l) MAX_ATOMIC_HISTORY); [|discriminate].
    injection H as <- _. reflexivity.
Qed.

Lemma branch_load_extends p p' v :
  branch_load p = POk (p', v) -> extends p p' /\ (wf_path p -> wf_path p').
Proof.
  intros H. rewrite (branch_load_cases _ _ _ H).
  apply extends_same_branches; reflexivity.
Qed.

(* ---- branch_spurious ---- *)
Lemma branch_spurious_cases p p' b :
  branch_spurious p = POk (p', b) ->
  (is_traversed p = false /\ p' = set_pos p (S (pos p))) \/
  (is_traversed p = true /\ path_len_ok p = true /\
   p' = set_pos (set_branches p (branches p ++ [ESpur (mkSpur false (exploring p))]))
                (S (pos p))).
Proof.
  unfold branch_spurious. intros H.
  destruct (is_traversed p).
  - right. destruct (path_len_ok p); cbn [negb] in H; [|discriminate].
    cbv iota in H.
    destruct (nth_error _ _) as [[s|l|s]|] in H; try discriminate.
    injection H as <- _. auto.
  - left. cbv iota in H.
    destruct (nth_error _ _) as [[s|l|s]|] in H; try discriminate.
    injection H as <- _. auto.
Qed.

Lemma branch_spurious_extends p p' b :
  branch_spurious p = POk (p', b) -> extends p p' /\ (wf_path p -> wf_path p').
Proof.
  intros H. destruct (branch_spurious_cases _ _ _ H) as [(_ & ->)|(_ & Hlen & ->)].
  - apply extends_same_branches; reflexivity.
  - eapply extends_push; try reflexivity; auto.
Qed.

(* ---- branch_thread ---- *)
Lemma preemptions_fresh pre ia th prev ex :
  ia = None \/ ia = find_index is_active th ->
  preemptions (mkSched pre ia th prev ex) = pre.
Proof.
  unfold preemptions, active_thread_index. cbn [s_ia s_pre s_threads].
  intros [->| ->]; [reflexivity|].
  rewrite opt_nat_eqb_refl. cbn [negb]. rewrite andb_false_r. reflexivity.
Qed.

(* the Schedule entry that branch_thread pushes on a traversed path *)
Definition pushed_sched (p : path) (seed : list tstat) : schedule :=
  let threads := new_threads seed in
  let active := find_index is_active threads in
  let prev_s := match last_schedule p with
                | Some i => get_sched (branches p) i
                | None => None
                end in
  let ia := match prev_s with
            | Some ps => if opt_nat_eqb active (active_thread_index ps) then active else None
            | None => active
            end in
  let pre := match prev_s with Some ps => preemptions ps | None => 0 end in
  mkSched pre ia threads (last_schedule p) (exploring p).

Lemma pushed_sched_preemptions p seed :
  preemptions (pushed_sched p seed) = s_pre (pushed_sched p seed).
Proof.
  unfold pushed_sched. cbv zeta. cbn [s_pre]. apply preemptions_fresh.
  destruct (match last_schedule p with Some i => get_sched (branches p) i | None => None end);
    [|right; reflexivity].
  destruct (opt_nat_eqb _ _); [right; reflexivity|left; reflexivity].
Qed.

Lemma branch_thread_inv p seed p' t :
  branch_thread p seed = POk (p', t) ->
  (is_traversed p = false /\ p' = set_pos p (S (pos p)) /\
   exists s, nth_error (branches p) (pos p) = Some (ESched s) /\
             t = active_thread_index s) \/
  (is_traversed p = true /\ path_len_ok p = true /\
   length seed <= MAX_THREADS /\ length (filter is_active seed) <= 1 /\
   opt_le_bound (s_pre (pushed_sched p seed)) (bound p) = true /\
   p' = set_pos (set_branches p (branches p ++ [ESched (pushed_sched p seed)])) (S (pos p)) /\
   t = active_thread_index (pushed_sched p seed)).
Proof.
  unfold branch_thread. intros H.
  destruct (is_traversed p) eqn:Htr.
  - right. destruct (path_len_ok p); cbn [negb] in H; [|discriminate].
    destruct (Nat.ltb_spec MAX_THREADS (length seed)) as [|Hlen]; [discriminate|].
    destruct (Nat.ltb_spec 1 (length (filter is_active seed))) as [|Hact]; [discriminate|].
    cbv zeta in H.
    match type of H with
    | context [mkSched ?pre ?ia ?th ?prev ?ex] =>
        change (mkSched pre ia th prev ex) with (pushed_sched p seed) in H;
        change pre with (s_pre (pushed_sched p seed)) in H
    end.
    destruct (opt_le_bound _ (bound p)) eqn:Hle; cbn [negb] in H; [|discriminate].
    cbv iota in H. cbn [branches pos set_branches] in H.
    apply Nat.eqb_eq in Htr.
    rewrite Htr, nth_error_app2, Nat.sub_diag in H by apply Nat.le_refl.
    cbn [nth_error] in H. injection H as <- <-. rewrite Htr. auto 10.
  - left. cbv iota in H.
    destruct (nth_error (branches p) (pos p)) as [[s|l|s]|]; try discriminate.
    injection H as <- <-. eauto.
Qed.

Lemma branch_thread_push p seed :
  is_traversed p = true -> path_len_ok p = true ->
  length seed <= MAX_THREADS -> length (filter is_active seed) <= 1 ->
  opt_le_bound (s_pre (pushed_sched p seed)) (bound p) = true ->
  branch_thread p seed =
  POk (set_pos (set_branches p (branches p ++ [ESched (pushed_sched p seed)])) (S (pos p)),
       active_thread_index (pushed_sched p seed)).
Proof.
  intros Htr Hlen Hseed Hact Hle. unfold branch_thread. rewrite Htr, Hlen. cbn [negb].
  apply Nat.ltb_ge in Hseed. apply Nat.ltb_ge in Hact. rewrite Hseed, Hact. cbv zeta.
  match goal with
  | |- context [mkSched ?pre ?ia ?th ?prev ?ex] =>
      change (mkSched pre ia th prev ex) with (pushed_sched p seed);
      change pre with (s_pre (pushed_sched p seed))
  end.
  rewrite Hle. cbn [negb]. cbv iota. cbn [branches pos set_branches].
  apply Nat.eqb_eq in Htr. rewrite Htr, nth_error_app2, Nat.sub_diag by apply Nat.le_refl.
  reflexivity.
Qed.

Lemma branch_thread_cases p seed p' t :
  branch_thread p seed = POk (p', t) ->
  (is_traversed p = false /\ p' = set_pos p (S (pos p))) \/
  (is_traversed p = true /\ path_len_ok p = true /\
   exists s,
     p' = set_pos (set_branches p (branches p ++ [ESched s])) (S (pos p)) /\
     s_ex s = exploring p /\
     length (s_threads s) = MAX_THREADS /\
     (no_pending seed -> no_pending (s_threads s)) /\
     preemptions s = s_pre s /\
     opt_le_bound (s_pre s) (bound p) = true).
Proof.
  intros H.
  destruct (branch_thread_inv _ _ _ _ H)
    as [(Htr & Hp & _)|(Htr & Hlen & _ & _ & Hle & Hp & _)]; [left; auto|right].
  split; [exact Htr|]. split; [exact Hlen|]. exists (pushed_sched p seed).
  split; [exact Hp|]. split; [reflexivity|]. split; [apply new_threads_length|].
  split; [|split; [apply pushed_sched_preemptions|exact Hle]].
  apply new_threads_Forall; discriminate.
Qed.

Lemma branch_thread_extends p seed p' t :
  branch_thread p seed = POk (p', t) -> extends p p' /\ (wf_path p -> wf_path p').
Proof.
  intros H.
  destruct (branch_thread_cases _ _ _ _ H)
    as [(_ & ->)|(_ & Hlen & s & -> & _ & Hth & _)].
  - apply extends_same_branches; reflexivity.
  - eapply extends_push; try reflexivity; auto.
Qed.

(* ---- backtrack ---- *)
Lemma get_sched_nth b i s : get_sched b i = Some s -> nth_error b i = Some (ESched s).
Proof.
  unfold get_sched. destruct (nth_error b i) as [[s0|l|s0]|]; try discriminate.
  intros H; injection H as ->; reflexivity.
Qed.

(* Schedule::backtrack either leaves the schedule alone or, only when the
   schedule is exploring and strictly under the bound, explores some threads *)
Lemma sched_backtrack_inv s tid b s' :
  sched_backtrack s tid b = POk s' ->
  s_ex s = true /\ opt_le_bound (s_pre s) b = true /\
  (s' = s \/
   ((forall bd, b = Some bd -> s_pre s <> bd) /\
    exists th, s' = mkSched (s_pre s) (s_ia s) th (s_prev s) (s_ex s) /\
               Forall2 ext_t (s_threads s) th)).
Proof.
  unfold sched_backtrack. intros H.
  destruct (negb (s_ex s)) eqn:Hex; [discriminate|].
  apply negb_false_iff in Hex.
  destruct (opt_le_bound (s_pre s) b) eqn:Hle; cbn [negb] in H; [|discriminate].
  split; [exact Hex|]. split; [reflexivity|].
  destruct (match b with Some b0 => Nat.eqb (s_pre s) b0 | None => false end) eqn:Hb.
  - injection H as <-. left; reflexivity.
  - destruct (nth_error (s_threads s) tid) as [t|].
    + right. split.
      * intros bd ->. apply Nat.eqb_neq. exact Hb.
      * eexists. split; [injection H as <-; reflexivity|].
        destruct (is_enabled t); auto using ext_t_list_upd_explore, ext_t_map_explore.
    + injection H as <-. left; reflexivity.
Qed.

Lemma sched_backtrack_ext s tid b s' :
  sched_backtrack s tid b = POk s' -> ext (ESched s) (ESched s').
Proof.
  intros H.
  destruct (sched_backtrack_inv _ _ _ _ H) as (Hex & _ & [->|(_ & th & -> & Hth)]).
  - constructor.
  - apply ext_sched; assumption.
Qed.

Lemma upd_sched_ext b i s tid bd s' :
  get_sched b i = Some s -> sched_backtrack s tid bd = POk s' ->
  Forall2 ext b (upd_sched b i s').
Proof.
  intros Hg Hs. unfold upd_sched.
  eapply Forall2_list_set; eauto using get_sched_nth, sched_backtrack_ext.
  constructor.
Qed.

Lemma conservative_cases b curr tid bd fuel b' :
  conservative b curr tid bd fuel = POk b' ->
  b' = b \/
  exists i s s', get_sched b i = Some s /\ sched_backtrack s tid bd = POk s' /\
                 b' = upd_sched b i s'.
Proof.
  revert curr; induction fuel as [|fuel IH]; intros curr H; cbn [conservative] in H.
  - injection H as <-. left; reflexivity.
  - destruct (get_sched b curr) as [cs|] eqn:Hc; [|discriminate].
    destruct (s_prev cs) as [prev|].
    + destruct (get_sched b prev) as [ps|]; [|discriminate].
      destruct (negb (opt_nat_eqb (active_thread_index cs) (active_thread_index ps))
                && s_ex cs).
      * destruct (sched_backtrack cs tid bd) as [cs'|] eqn:Hsb; [|discriminate].
        injection H as <-. right. exists curr, cs, cs'. auto.
      * eapply IH; eassumption.
    + destruct (s_ex cs).
      * destruct (sched_backtrack cs tid bd) as [cs'|] eqn:Hsb; [|discriminate].
        injection H as <-. right. exists curr, cs, cs'. auto.
      * injection H as <-. left; reflexivity.
Qed.

(* backtrack = at most two Schedule::backtrack calls on entries of the stack *)
Lemma backtrack_cases p point tid p' :
  backtrack p point tid = POk p' ->
  (find_backtrack_point (branches p) point (S point) = POk None /\ p' = p) \/
  exists i s s',
    find_backtrack_point (branches p) point (S point) = POk (Some i) /\
    get_sched (branches p) i = Some s /\
    sched_backtrack s tid (bound p) = POk s' /\
    let b1 := upd_sched (branches p) i s' in
    (p' = set_branches p b1 \/
     exists j t t', bound p <> None /\ get_sched b1 j = Some t /\
                    sched_backtrack t tid (bound p) = POk t' /\
                    p' = set_branches p (upd_sched b1 j t')).
Proof.
  unfold backtrack. intros H.
  destruct (find_backtrack_point (branches p) point (S point)) as [[i|]|]; try discriminate.
  2:{ injection H as <-. left; split; reflexivity. }
  destruct (get_sched (branches p) i) as [s|] eqn:Hg; [|discriminate].
  destruct (sched_backtrack s tid (bound p)) as [s'|] eqn:Hs; [|discriminate].
  right. exists i, s, s'. split; [reflexivity|]. split; [exact Hg|]. split; [exact Hs|].
  cbv zeta in *.
  destruct (s_prev s') as [curr|].
  - destruct (bound p) as [bd|] eqn:Hbd.
    + destruct (conservative _ _ _ _ _) as [b'|] eqn:Hcons in H; [|discriminate].
      injection H as <-.
      destruct (conservative_cases _ _ _ _ _ _ Hcons) as [->|(j & t & t' & Ht & Htt & ->)].
      * left; reflexivity.
      * right. exists j, t, t'. split; [discriminate|auto].
    + injection H as <-. left; reflexivity.
  - injection H as <-. left; reflexivity.
Qed.

Lemma backtrack_marks p point tid p' :
  backtrack p point tid = POk p' ->
  bound p' = bound p /\ cap p' = cap p /\ eos p' = eos p /\
  pos p' = pos p /\ exploring p' = exploring p /\ skipping p' = skipping p /\
  Forall2 ext (branches p) (branches p').
Proof.
  intros H.
  destruct (backtrack_cases _ _ _ _ H) as [[_ ->]|(i & s & s' & _ & Hg & Hs & Hp)].
  - repeat split; auto using Forall2_ext_refl.
  - cbv zeta in Hp.
    destruct Hp as [->|(j & t & t' & _ & Ht & Htt & ->)]; cbn;
      repeat split; eauto using upd_sched_ext, Forall2_ext_trans.
Qed.

Lemma backtrack_extends p point tid p' :
  backtrack p point tid = POk p' -> extends p p' /\ (wf_path p -> wf_path p').
Proof.
  intros H. destruct (backtrack_marks _ _ _ _ H) as (Hb & Hc & He & _ & _ & _ & Hbr).
  apply extends_marks; assumption.
Qed.

(* ------------------------------------------------------------------ *)
(* Part 2: the preemption bound (C15)                                  *)
(* ------------------------------------------------------------------ *)

Definition c15_entry (b : option nat) (e : entry) : Prop :=
  match e, b with
  | ESched s, Some bd =>
      s_pre s <= bd /\ preemptions s <= bd /\
      (s_pre s = bd -> Forall (fun t => t <> Pending) (s_threads s))
  | _, _ => True
  end.

Definition c15_inv (p : path) : Prop := Forall (c15_entry (bound p)) (branches p).

Lemma preemptions_le_S s : preemptions s <= S (s_pre s).
Proof.
  unfold preemptions.
  destruct (is_some (s_ia s) && negb (opt_nat_eqb (s_ia s) (active_thread_index s))); lia.
Qed.

Lemma preemptions_ext_t s th :
  Forall2 ext_t (s_threads s) th ->
  preemptions (mkSched (s_pre s) (s_ia s) th (s_prev s) (s_ex s)) = preemptions s.
Proof.
  intros Hth. unfold preemptions, active_thread_index. cbn [s_pre s_ia s_threads].
  rewrite <- (ext_t_active_index _ _ Hth). reflexivity.
Qed.

Lemma c15_same_branches p p' :
  bound p' = bound p -> branches p' = branches p -> c15_inv p -> c15_inv p'.
Proof. unfold c15_inv. intros -> ->. auto. Qed.

Lemma c15_push p p' e :
  bound p' = bound p -> branches p' = branches p ++ [e] ->
  c15_entry (bound p) e -> c15_inv p -> c15_inv p'.
Proof.
  unfold c15_inv. intros -> -> He Hp. apply Forall_app; split; auto.
Qed.

Lemma explore_state_c15 p p' : explore_state p = POk p' -> c15_inv p -> c15_inv p'.
Proof.
  intros H. destruct (explore_state_cases _ _ H) as [(_ & ->)|(_ & _ & ->)];
    apply c15_same_branches; reflexivity.
Qed.

Lemma critical_c15 p p' : critical p = POk p' -> c15_inv p -> c15_inv p'.
Proof.
  intros H. destruct (critical_cases _ _ H) as [(_ & ->)|(_ & _ & ->)];
    apply c15_same_branches; reflexivity.
Qed.

Lemma skip_branch_c15 p : c15_inv p -> c15_inv (skip_branch p).
Proof. apply c15_same_branches; reflexivity. Qed.

Lemma push_load_c15 p seed p' : push_load p seed = POk p' -> c15_inv p -> c15_inv p'.
Proof.
  intros H. destruct (push_load_cases _ _ _ H) as (_ & _ & ->).
  eapply c15_push; try reflexivity; try exact I.
Qed.

Lemma branch_load_c15 p p' v : branch_load p = POk (p', v) -> c15_inv p -> c15_inv p'.
Proof.
  intros H. rewrite (branch_load_cases _ _ _ H).
  apply c15_same_branches; reflexivity.
Qed.

Lemma branch_spurious_c15 p p' b :
  branch_spurious p = POk (p', b) -> c15_inv p -> c15_inv p'.
Proof.
  intros H. destruct (branch_spurious_cases _ _ _ H) as [(_ & ->)|(_ & _ & ->)].
  - apply c15_same_branches; reflexivity.
  - eapply c15_push; try reflexivity; try exact I.
Qed.

Lemma branch_thread_c15 p seed p' t :
  Forall (fun t => t <> Pending) seed ->
  branch_thread p seed = POk (p', t) -> c15_inv p -> c15_inv p'.
Proof.
  intros Hseed H.
  destruct (branch_thread_cases _ _ _ _ H)
    as [(_ & ->)|(_ & _ & s & -> & _ & _ & Hnp & Hpre & Hle)].
  - apply c15_same_branches; reflexivity.
  - eapply c15_push; try reflexivity.
    unfold c15_entry. destruct (bound p) as [bd|]; [|exact I].
    cbn [opt_le_bound] in Hle. apply Nat.leb_le in Hle.
    rewrite Hpre. repeat split; auto. intros _. apply Hnp. exact Hseed.
Qed.

Lemma sched_backtrack_c15 s tid b s' :
  sched_backtrack s tid b = POk s' ->
  c15_entry b (ESched s) -> c15_entry b (ESched s').
Proof.
  intros H Hc.
  destruct (sched_backtrack_inv _ _ _ _ H) as (_ & _ & [->|(Hne & th & -> & Hth)]);
    [assumption|].
  unfold c15_entry in *. destruct b as [bd|]; [|exact I].
  destruct Hc as (H1 & H2 & H3).
  rewrite (preemptions_ext_t _ _ Hth). cbn [s_pre s_threads].
  repeat split; auto.
  intros Heq. exfalso. exact (Hne bd eq_refl Heq).
Qed.

Lemma upd_sched_c15 bd b i s tid s' :
  get_sched b i = Some s -> sched_backtrack s tid bd = POk s' ->
  Forall (c15_entry bd) b -> Forall (c15_entry bd) (upd_sched b i s').
Proof.
  intros Hg Hs Hb. unfold upd_sched. apply Forall_list_set; [assumption|].
  eapply sched_backtrack_c15; [eassumption|].
  eapply nth_error_In_Forall; eauto using get_sched_nth.
Qed.

Lemma backtrack_c15 p point tid p' :
  backtrack p point tid = POk p' -> c15_inv p -> c15_inv p'.
Proof.
  intros H Hp.
  destruct (backtrack_cases _ _ _ _ H) as [[_ ->]|(i & s & s' & _ & Hg & Hs & Hq)];
    [assumption|].
  cbv zeta in Hq. unfold c15_inv in *.
  destruct Hq as [->|(j & t & t' & _ & Ht & Htt & ->)]; cbn [set_branches bound branches];
    eauto using upd_sched_c15.
Qed.

(* ---- step ---- *)
Lemma advance_entry_exploring e e' :
  advance_entry e = Some e' ->
  entry_exploring e = true /\ entry_exploring e' = true.
Proof.
  intros H. destruct (advance_entry_inv _ _ H); cbn [entry_exploring s_ex l_ex p_ex]; auto.
Qed.

Lemma advance_entry_c15 b e e' :
  advance_entry e = Some e' -> c15_entry b e -> c15_entry b e'.
Proof.
  intros H Hc. destruct (advance_entry_inv _ _ H) as [s th _ Hth| |]; [|exact I..].
  unfold c15_entry in *. destruct b as [bd|]; [|exact I].
  destruct Hc as (H1 & H2 & H3). cbn [s_pre s_threads].
  assert (Hlt : s_pre s <> bd).
  { intros Heq. rewrite (advance_threads_none _ (H3 Heq)) in Hth. discriminate. }
  split; [exact H1|]. split.
  + match goal with |- preemptions ?x <= _ => pose proof (preemptions_le_S x) as Hp end.
    cbn [s_pre] in Hp. lia.
  + intros Heq. exfalso. exact (Hlt Heq).
Qed.

Lemma step_c15 p p' : c15_inv p -> step p = Some p' -> c15_inv p'.
Proof.
  unfold c15_inv. intros Hp H.
  destruct (step_cases _ _ H) as (_ & _ & _ & _ & _ & _ & _ & _ & Hbd & _). rewrite Hbd.
  exact (step_Forall _ _ _ (advance_entry_c15 (bound p)) H Hp).
Qed.

Lemma preemptions_le_bound p bd :
  c15_inv p -> bound p = Some bd ->
  forall s, In (ESched s) (branches p) -> preemptions s <= bd.
Proof.
  unfold c15_inv. intros Hp Hbd s Hin.
  rewrite Forall_forall in Hp. specialize (Hp _ Hin).
  rewrite Hbd in Hp. cbn [c15_entry] in Hp. tauto.
Qed.

(* the same in the vocabulary of PathSpec *)
Lemma c15_sched_bound_ok p :
  c15_inv p -> Forall (sched_bound_ok (bound p)) (branches p).
Proof.
  unfold c15_inv. apply Forall_impl. intros [s|l|s] H; cbn in *; auto.
  destruct (bound p); tauto.
Qed.

(* ------------------------------------------------------------------ *)
(* Part 3: frozen entries, exploration controls (C19)                  *)
(* ------------------------------------------------------------------ *)

Definition last_error {A : Type} (l : list A) : option A := nth_error l (length l - 1).

Lemma last_error_snoc (A : Type) (l : list A) (x : A) : last_error (l ++ [x]) = Some x.
Proof.
  unfold last_error. rewrite app_length. cbn [length].
  replace (length l + 1 - 1) with (length l) by lia.
  rewrite nth_error_app2 by lia. rewrite Nat.sub_diag. reflexivity.
Qed.

Lemma step_prefix p p' :
  step p = Some p' ->
  exists k e', k < length (branches p) /\
    branches p' = firstn k (branches p) ++ [e'] /\
    exists e, nth_error (branches p) k = Some e /\ advance_entry e = Some e'.
Proof.
  intros H.
  destruct (step_cases _ _ H) as (kept & e & e' & popped & Hb & Hb' & He & _).
  exists (length kept), e'. rewrite Hb, Hb'. split; [|split].
  - rewrite app_length. cbn [length]. lia.
  - rewrite firstn_app, Nat.sub_diag, firstn_all. cbn [firstn].
    rewrite app_nil_r. reflexivity.
  - exists e. split; [|exact He].
    rewrite nth_error_app2 by lia. rewrite Nat.sub_diag. reflexivity.
Qed.

Lemma step_last_exploring p p' :
  step p = Some p' ->
  exists e, last_error (branches p') = Some e /\ entry_exploring e = true.
Proof.
  intros H.
  destruct (step_cases _ _ H) as (kept & e & e' & popped & _ & Hb' & He & _).
  exists e'. rewrite Hb'. split; [apply last_error_snoc|].
  apply (advance_entry_exploring _ _ He).
Qed.

Lemma step_frozen p p' i e :
  step p = Some p' -> nth_error (branches p') i = Some e ->
  entry_exploring e = false -> nth_error (branches p) i = Some e.
Proof.
  intros H Hn Hne.
  destruct (step_cases _ _ H) as (kept & e0 & e' & popped & Hb & Hb' & He & _).
  rewrite Hb' in Hn. rewrite Hb.
  destruct (Nat.lt_ge_cases i (length kept)) as [Hlt|Hge].
  - rewrite nth_error_app1 in Hn by assumption.
    rewrite nth_error_app1 by assumption. exact Hn.
  - rewrite nth_error_app2 in Hn by assumption.
    destruct (i - length kept) as [|m]; cbn [nth_error] in Hn.
    + injection Hn as <-.
      destruct (advance_entry_exploring _ _ He) as [_ Hex]. congruence.
    + destruct m; discriminate.
Qed.

(* every entry above the advanced one was exhausted, every entry below it is
   kept verbatim (so non-exploring entries below are never modified) *)
Lemma step_kept p p' i :
  step p = Some p' -> S i < length (branches p') ->
  nth_error (branches p') i = nth_error (branches p) i.
Proof.
  intros H Hi.
  destruct (step_cases _ _ H) as (kept & e0 & e' & popped & Hb & Hb' & _).
  rewrite Hb' in Hi |- *. rewrite Hb. rewrite app_length in Hi. cbn [length] in Hi.
  rewrite !nth_error_app1 by lia. reflexivity.
Qed.

(* ---- new entries inherit the exploring flag of the path ---- *)
Lemma push_load_inherit_exploring p seed p' :
  push_load p seed = POk p' ->
  exists e, branches p' = branches p ++ [e] /\ entry_exploring e = exploring p.
Proof.
  intros H. destruct (push_load_cases _ _ _ H) as (_ & _ & ->).
  eexists; split; reflexivity.
Qed.

Lemma branch_spurious_inherit_exploring p p' b :
  branch_spurious p = POk (p', b) ->
  (is_traversed p = true /\
   exists e, branches p' = branches p ++ [e] /\ entry_exploring e = exploring p) \/
  (is_traversed p = false /\ branches p' = branches p).
Proof.
  intros H. destruct (branch_spurious_cases _ _ _ H) as [(Ht & ->)|(Ht & _ & ->)].
  - right. auto.
  - left. split; [exact Ht|]. eexists; split; reflexivity.
Qed.

Lemma branch_thread_inherit_exploring p seed p' t :
  branch_thread p seed = POk (p', t) ->
  (is_traversed p = true /\
   exists e, branches p' = branches p ++ [e] /\ entry_exploring e = exploring p) \/
  (is_traversed p = false /\ branches p' = branches p).
Proof.
  intros H.
  destruct (branch_thread_cases _ _ _ _ H) as [(Ht & ->)|(Ht & _ & s & -> & Hex & _)].
  - right. auto.
  - left. split; [exact Ht|]. exists (ESched s). split; [reflexivity|exact Hex].
Qed.

(* generic form: whichever of the three pushed [e], its flag is [exploring p] *)
Lemma new_entries_inherit_exploring p p' e :
  (exists seed, push_load p seed = POk p') \/
  (exists b, branch_spurious p = POk (p', b)) \/
  (exists seed t, branch_thread p seed = POk (p', t)) ->
  branches p' = branches p ++ [e] -> entry_exploring e = exploring p.
Proof.
  intros H Hb.
  assert (Hcases :
    (exists e0, branches p' = branches p ++ [e0] /\ entry_exploring e0 = exploring p) \/
    branches p' = branches p).
  { destruct H as [(seed & H)|[(b & H)|(seed & t & H)]].
    - left. eapply push_load_inherit_exploring; eassumption.
    - destruct (branch_spurious_inherit_exploring _ _ _ H) as [(_ & He)|(_ & He)]; auto.
    - destruct (branch_thread_inherit_exploring _ _ _ _ H) as [(_ & He)|(_ & He)]; auto. }
  destruct Hcases as [(e0 & He0 & Hex)|Hsame].
  - rewrite He0 in Hb. apply app_inv_head in Hb. injection Hb as ->. exact Hex.
  - exfalso. rewrite Hsame in Hb.
    apply (f_equal (@length entry)) in Hb. rewrite app_length in Hb.
    cbn [length] in Hb. lia.
Qed.

(* the API never changes the exploring flag of the path except through
   explore_state / critical / skip_branch *)
Lemma push_load_flags p seed p' :
  push_load p seed = POk p' -> exploring p' = exploring p /\ skipping p' = skipping p.
Proof. intros H. destruct (push_load_cases _ _ _ H) as (_ & _ & ->). auto. Qed.

Lemma branch_load_flags p p' v :
  branch_load p = POk (p', v) -> exploring p' = exploring p /\ skipping p' = skipping p.
Proof. intros H. rewrite (branch_load_cases _ _ _ H). auto. Qed.

Lemma branch_spurious_flags p p' b :
  branch_spurious p = POk (p', b) ->
  exploring p' = exploring p /\ skipping p' = skipping p.
Proof.
  intros H. destruct (branch_spurious_cases _ _ _ H) as [(_ & ->)|(_ & _ & ->)]; auto.
Qed.

Lemma branch_thread_flags p seed p' t :
  branch_thread p seed = POk (p', t) ->
  exploring p' = exploring p /\ skipping p' = skipping p.
Proof.
  intros H.
  destruct (branch_thread_cases _ _ _ _ H) as [(_ & ->)|(_ & _ & s & -> & _)]; auto.
Qed.

Lemma backtrack_flags p point tid p' :
  backtrack p point tid = POk p' ->
  exploring p' = exploring p /\ skipping p' = skipping p.
Proof.
  intros H. destruct (backtrack_marks _ _ _ _ H) as (_ & _ & _ & _ & He & Hs & _). auto.
Qed.

(* ---- exploration controls ---- *)
Lemma critical_sets p p' :
  critical p = POk p' -> skipping p = false -> exploring p' = false.
Proof.
  intros H Hsk. destruct (critical_cases _ _ H) as [(Hsk' & _)|(_ & _ & ->)];
    [congruence|reflexivity].
Qed.

Lemma explore_sets p p' :
  explore_state p = POk p' -> skipping p = false -> exploring p' = true.
Proof.
  intros H Hsk. destruct (explore_state_cases _ _ H) as [(Hsk' & _)|(_ & _ & ->)];
    [congruence|reflexivity].
Qed.

Lemma skip_sets p : exploring (skip_branch p) = false /\ skipping (skip_branch p) = true.
Proof. split; reflexivity. Qed.

Lemma skipping_sticky p :
  skipping p = true -> explore_state p = POk p /\ critical p = POk p.
Proof. unfold explore_state, critical. intros ->. split; reflexivity. Qed.

(* skipping itself is sticky: no API function but step resets it *)
Lemma skipping_kept_explore p p' :
  explore_state p = POk p' -> skipping p' = skipping p.
Proof.
  intros H. destruct (explore_state_cases _ _ H) as [(_ & ->)|(Hsk & _ & ->)];
    [reflexivity|symmetry; exact Hsk].
Qed.

Lemma skipping_kept_critical p p' :
  critical p = POk p' -> skipping p' = skipping p.
Proof.
  intros H. destruct (critical_cases _ _ H) as [(_ & ->)|(Hsk & _ & ->)];
    [reflexivity|symmetry; exact Hsk].
Qed.

Print Assumptions step_c15.
Print Assumptions preemptions_le_bound.
Print Assumptions backtrack_extends.
Print Assumptions branch_thread_extends.
Print Assumptions step_frozen.
