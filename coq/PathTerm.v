(* Termination of the exploration loop for EVERY well-behaved iteration
   function, with an explicit bound, via the mixed-radix measure [mu].

   Main result (exactly the requested statement, no deviation):

     Theorem explore_terminates :
       forall it p, iter_ok it -> wf_path p ->
                    finishes it (S (BASE ^ cap p)) p = true.

   (The slightly tighter [finishes it (BASE ^ cap p) p = true] also holds and
   is proved as [explore_terminates_tight].)

   Exported lemmas: weight_lt_base, ext_weight, ext_wf, advance_weight,
   advance_wf, step_wf, step_cap, step_mu_gap, step_mu, extends_mu, mu_lt_cap,
   iter_mu_decreases, finishes_fuel.

   The file also holds what the later Path*.v files share about [step]:
   visit_active_spec / activate_pending_spec and advance_threads_nth (the
   thread array of an advanced Schedule entry), advance_entry_inv (the three
   ways an entry is advanced), step_rev_cases / step_cases (the shape of
   step). *)
Require Import LV.Base LV.Path LV.PathSpec.
Require Export LV.ListFacts.
Require Import Lia.

Local Arguments Nat.pow : simpl never.

Lemma BASE_nz : BASE <> 0.
Proof. unfold BASE. discriminate. Qed.

Lemma BASE_pow_pos (k : nat) : 1 <= BASE ^ k.
Proof. pose proof (Nat.pow_nonzero BASE k BASE_nz). lia. Qed.

(* ---- 1. every weight is a digit ---- *)

Lemma weight_lt_base (e : entry) : wf_entry e -> weight e < BASE.
Proof.
  unfold BASE. destruct e as [s|l|s]; cbn [weight wf_entry]; intros H.
  - destruct (s_ex s); [|lia].
    pose proof (filter_length_le (fun t => is_pending t || is_skip t) (s_threads s)) as Hf.
    unfold MAX_THREADS in H. lia.
  - destruct (l_ex l); [|lia]. unfold MAX_ATOMIC_HISTORY in H. lia.
  - destruct (p_ex s && negb (p_spur s)); lia.
Qed.

(* ---- 2. backtrack marks change neither weight nor well-formedness ---- *)

Lemma ext_t_filter (l l' : list tstat) :
  Forall2 ext_t l l' ->
  length (filter (fun t => is_pending t || is_skip t) l')
  = length (filter (fun t => is_pending t || is_skip t) l).
Proof.
  induction 1 as [|t t' l l' Ht _ IH]; [reflexivity|].
  destruct Ht as [Ht|[Ht1 Ht2]]; subst.
  - cbn [filter]. destruct (is_pending t || is_skip t); cbn [length]; lia.
  - cbn. lia.
Qed.

Lemma ext_t_active_index l l' :
  Forall2 ext_t l l' -> find_index is_active l = find_index is_active l'.
Proof.
  induction 1 as [|a b l l' Hab Hl IH]; cbn [find_index]; auto.
  destruct Hab as [->|[-> ->]]; rewrite IH; reflexivity.
Qed.

Lemma ext_weight (e e' : entry) : ext e e' -> weight e' = weight e.
Proof.
  intros H. destruct H as [e|s th' Hex Hth]; [reflexivity|].
  cbn [weight s_ex s_threads]. rewrite Hex. apply ext_t_filter. exact Hth.
Qed.

Lemma ext_wf (e e' : entry) : ext e e' -> wf_entry e -> wf_entry e'.
Proof.
  intros H Hwf. destruct H as [e|s th' Hex Hth]; [exact Hwf|].
  cbn [wf_entry s_threads] in *. rewrite <- (Forall2_len _ _ _ _ _ Hth). exact Hwf.
Qed.

Lemma ext_mu_rev (c : nat) (a b : list entry) :
  Forall2 ext a b -> mu_rev c b = mu_rev c a.
Proof.
  induction 1 as [|x y a b Hxy Hab IH]; [reflexivity|].
  cbn [mu_rev]. rewrite IH, (ext_weight _ _ Hxy), <- (Forall2_len _ _ _ _ _ Hab). reflexivity.
Qed.

(* ---- 3. the digits after position k are worth less than one unit of
        position k ---- *)

Lemma mu_rev_app_bound (c : nat) (nr old : list entry) :
  Forall wf_entry nr -> length nr + length old <= c ->
  mu_rev c (nr ++ old) + BASE ^ (c - (length nr + length old))
  <= mu_rev c old + BASE ^ (c - length old).
Proof.
  induction nr as [|e nr IH]; intros Hwf Hlen.
  - cbn [app length Nat.add]. lia.
  - inversion Hwf as [|e0 nr0 He Hnr]; subst e0 nr0.
    cbn [app mu_rev length] in *.
    assert (Hlen' : length nr + length old <= c) by lia.
    specialize (IH Hnr Hlen').
    pose proof (weight_lt_base _ He) as Hw.
    rewrite app_length.
    remember (length nr + length old) as L eqn:HL.
    replace (c - L) with (S (c - S L)) in IH by lia.
    rewrite Nat.pow_succ_r' in IH.
    replace (c - (S (length nr) + length old)) with (c - S L) by lia.
    remember (BASE ^ (c - S L)) as x eqn:Hx.
    nia.
Qed.

Lemma mu_rev_lt_pow (c : nat) (rb : list entry) :
  Forall wf_entry rb -> length rb <= c -> mu_rev c rb < BASE ^ c.
Proof.
  intros Hwf Hlen.
  pose proof (mu_rev_app_bound c rb [] Hwf) as H.
  cbn [length mu_rev] in H. rewrite app_nil_r, Nat.add_0_r, Nat.sub_0_r in H.
  specialize (H Hlen).
  pose proof (BASE_pow_pos (c - length rb)). lia.
Qed.

Lemma mu_lt_cap (p : path) : wf_path p -> mu p < BASE ^ cap p.
Proof.
  intros [Hwf Hlen]. unfold mu. apply mu_rev_lt_pow.
  - apply Forall_rev. exact Hwf.
  - rewrite rev_length. exact Hlen.
Qed.

(* ---- 4. what step does ---- *)

(* Path::step advances a Schedule entry in two passes over its thread array:
   the Active thread becomes Visited, then the first Pending thread Active *)
Lemma visit_active_spec (l : list tstat) :
  visit_active l =
  match find_index is_active l with Some a => list_set l a Visited | None => l end.
Proof.
  induction l as [|h t IH]; [reflexivity|]. cbn [visit_active find_index].
  destruct (is_active h); [reflexivity|]. rewrite IH.
  destruct (find_index is_active t); reflexivity.
Qed.

Lemma activate_pending_spec (l : list tstat) :
  activate_pending l = option_map (fun i => list_set l i Active) (find_index is_pending l).
Proof.
  induction l as [|h t IH]; [reflexivity|]. cbn [activate_pending find_index].
  destruct (is_pending h); [reflexivity|]. rewrite IH.
  destruct (find_index is_pending t); reflexivity.
Qed.

Lemma find_index_tstat (c : tstat) (l : list tstat) (i : nat) :
  find_index (fun t => tstat_eqb t c) l = Some i -> nth_error l i = Some c.
Proof.
  intros H. destruct (find_index_Some _ _ _ _ H) as (t & Ht & Hc).
  destruct t, c; try discriminate; exact Ht.
Qed.

Lemma visit_active_inv (l : list tstat) :
  (find_index is_active l = None /\ visit_active l = l) \/
  exists a, find_index is_active l = Some a /\ nth_error l a = Some Active /\
            visit_active l = list_set l a Visited.
Proof.
  rewrite visit_active_spec. destruct (find_index is_active l) as [a|] eqn:Ha; [right|left; auto].
  exists a. auto using (find_index_tstat Active).
Qed.

Lemma activate_pending_inv (l th : list tstat) :
  activate_pending l = Some th ->
  exists i, nth_error l i = Some Pending /\ th = list_set l i Active.
Proof.
  rewrite activate_pending_spec.
  destruct (find_index is_pending l) as [i|] eqn:Hi; [|discriminate].
  intros H. injection H as <-. exists i. auto using (find_index_tstat Pending).
Qed.

Lemma visit_active_length (l : list tstat) : length (visit_active l) = length l.
Proof.
  destruct (visit_active_inv l) as [(_ & ->)|(a & _ & _ & ->)]; auto using list_set_length.
Qed.

Lemma activate_pending_length (l th : list tstat) :
  activate_pending l = Some th -> length th = length l.
Proof.
  intros H. destruct (activate_pending_inv _ _ H) as (i & _ & ->). apply list_set_length.
Qed.

Lemma visit_active_nth (l : list tstat) (u : nat) :
  (find_index is_active l <> Some u /\ nth_error (visit_active l) u = nth_error l u) \/
  (find_index is_active l = Some u /\ nth_error l u = Some Active /\
   nth_error (visit_active l) u = Some Visited).
Proof.
  destruct (visit_active_inv l) as [(Hn & ->)|(a & Ha & Hact & ->)].
  - left. rewrite Hn. split; [discriminate|reflexivity].
  - destruct (Nat.eq_dec u a) as [->|Hne].
    + right. split; [exact Ha|]. split; [exact Hact|].
      apply nth_error_list_set_same, nth_error_Some. congruence.
    + left. rewrite Ha, nth_error_list_set_other by auto. split; congruence.
Qed.

Lemma activate_pending_nth (l th : list tstat) (u : nat) :
  activate_pending l = Some th ->
  nth_error th u = nth_error l u \/
  (nth_error l u = Some Pending /\ nth_error th u = Some Active).
Proof.
  intros H. destruct (activate_pending_inv _ _ H) as (i & Hi & ->).
  destruct (Nat.eq_dec u i) as [->|Hne].
  - right. split; [exact Hi|]. apply nth_error_list_set_same, nth_error_Some. congruence.
  - left. apply nth_error_list_set_other. auto.
Qed.

Lemma advance_threads_nth (l th : list tstat) (u : nat) :
  activate_pending (visit_active l) = Some th ->
  (find_index is_active l <> Some u /\ nth_error th u = nth_error l u) \/
  (find_index is_active l = Some u /\ nth_error l u = Some Active /\
   nth_error th u = Some Visited) \/
  (find_index is_active l <> Some u /\ nth_error l u = Some Pending /\
   nth_error th u = Some Active).
Proof.
  intros H.
  destruct (visit_active_nth l u) as [(Hne & Hv)|(Ha & Hact & Hv)];
    destruct (activate_pending_nth _ _ u H) as [Hp|(Hp & Hth)]; rewrite Hv in Hp.
  - left. split; [exact Hne|]. congruence.
  - right; right. auto.
  - right; left. split; [exact Ha|]. split; [exact Hact|]. congruence.
  - discriminate.
Qed.

Lemma advance_threads_some (l : list tstat) (a : nat) :
  nth_error l a = Some Pending -> activate_pending (visit_active l) <> None.
Proof.
  intros Ha. rewrite activate_pending_spec.
  destruct (find_index is_pending (visit_active l)) eqn:E; [discriminate|].
  destruct (visit_active_nth l a) as [(_ & Hv)|(_ & Hact & _)]; [|congruence].
  rewrite Ha in Hv. discriminate (find_index_None _ _ _ _ _ E Hv).
Qed.

Lemma visit_active_filter (f : tstat -> bool) (l : list tstat) :
  (find_index is_active l = None /\ visit_active l = l) \/
  length (filter f (visit_active l)) + (if f Active then 1 else 0)
  = length (filter f l) + (if f Visited then 1 else 0).
Proof.
  destruct (visit_active_inv l) as [H|(a & _ & Hact & ->)]; [left; exact H|right].
  apply filter_list_set_length. exact Hact.
Qed.

Lemma activate_pending_filter (f : tstat -> bool) (l th : list tstat) :
  activate_pending l = Some th ->
  length (filter f th) + (if f Pending then 1 else 0)
  = length (filter f l) + (if f Active then 1 else 0).
Proof.
  intros H. destruct (activate_pending_inv _ _ H) as (i & Hi & ->).
  apply filter_list_set_length. exact Hi.
Qed.

Inductive advanced : entry -> entry -> Prop :=
  | adv_sched s th :
      s_ex s = true -> activate_pending (visit_active (s_threads s)) = Some th ->
      advanced (ESched s) (ESched (mkSched (s_pre s) (s_ia s) th (s_prev s) (s_ex s)))
  | adv_load l :
      l_ex l = true -> S (l_pos l) < length (l_vals l) ->
      advanced (ELoad l) (ELoad (mkLoad (l_vals l) (S (l_pos l)) (l_ex l)))
  | adv_spur s :
      p_ex s = true -> p_spur s = false ->
      advanced (ESpur s) (ESpur (mkSpur true (p_ex s))).

Lemma advance_entry_inv (e e' : entry) : advance_entry e = Some e' -> advanced e e'.
Proof.
  destruct e as [s|l|s]; cbn [advance_entry]; intros H.
  - destruct (negb (s_ex s)) eqn:Hex; [discriminate|]. apply negb_false_iff in Hex.
    destruct (activate_pending (visit_active (s_threads s))) as [th|] eqn:E; [|discriminate].
    injection H as <-. constructor; assumption.
  - destruct (negb (l_ex l)) eqn:Hex; [discriminate|]. apply negb_false_iff in Hex.
    destruct (Nat.ltb_spec (S (l_pos l)) (length (l_vals l))) as [Hlt|]; [|discriminate].
    injection H as <-. constructor; assumption.
  - destruct (negb (p_ex s)) eqn:Hex; [discriminate|]. apply negb_false_iff in Hex.
    destruct (p_spur s) eqn:Hsp; [discriminate|].
    injection H as <-. constructor; assumption.
Qed.

(* step pops a (possibly empty) run of exhausted entries off the end of the
   stack and advances the entry below them *)
Lemma step_rev_cases rb rb' :
  step_rev rb = Some rb' ->
  exists popped e e' rest,
    rb = popped ++ e :: rest /\ rb' = e' :: rest /\ advance_entry e = Some e' /\
    Forall (fun x => advance_entry x = None) popped.
Proof.
  revert rb'; induction rb as [|x rb IH]; intros rb' H; cbn [step_rev] in H;
    [discriminate|].
  destruct (advance_entry x) as [x'|] eqn:Hx.
  - injection H as <-. exists [], x, x', rb. auto.
  - destruct (IH _ H) as (popped & e & e' & rest & -> & -> & He & Hp).
    exists (x :: popped), e, e', rest. auto.
Qed.

Lemma step_cases p p' :
  step p = Some p' ->
  exists kept e e' popped,
    branches p = kept ++ e :: popped /\ branches p' = kept ++ [e'] /\
    advance_entry e = Some e' /\ Forall (fun x => advance_entry x = None) popped /\
    bound p' = bound p /\ cap p' = cap p /\ eos p' = eos p /\
    pos p' = 0 /\ exploring p' = eos p /\ skipping p' = false.
Proof.
  unfold step. intros H.
  destruct (step_rev (rev (branches p))) as [rb|] eqn:Hs; [|discriminate].
  injection H as <-. cbn [branches bound cap eos pos exploring skipping].
  destruct (step_rev_cases _ _ Hs) as (popped & e & e' & rest & Hrev & -> & He & Hp).
  exists (rev rest), e, e', (rev popped).
  split.
  - rewrite <- (rev_involutive (branches p)), Hrev, rev_app_distr.
    cbn [rev]. rewrite <- app_assoc. reflexivity.
  - split; [reflexivity|]. split; [exact He|]. split; [|auto 10].
    apply Forall_rev. exact Hp.
Qed.

Lemma step_Forall (P : entry -> Prop) p p' :
  (forall e e', advance_entry e = Some e' -> P e -> P e') ->
  step p = Some p' -> Forall P (branches p) -> Forall P (branches p').
Proof.
  intros HP H Hp.
  destruct (step_cases _ _ H) as (kept & e & e' & popped & Hb & Hb' & He & _).
  rewrite Hb'. rewrite Hb in Hp. apply Forall_app in Hp. destruct Hp as [Hk Hep].
  inversion Hep as [|x y Hx _]; subst.
  apply Forall_app; split; [exact Hk|]. constructor; [exact (HP _ _ He Hx)|constructor].
Qed.

(* ---- 5. step strictly decreases the measure ---- *)

Lemma advance_weight (e e' : entry) :
  advance_entry e = Some e' -> weight e' < weight e.
Proof.
  intros H. destruct (advance_entry_inv _ _ H) as [s th Hex Hth|l Hex Hlt|s Hex Hsp];
    cbn [weight s_ex s_threads l_ex l_vals l_pos p_ex p_spur]; rewrite Hex.
  - pose proof (activate_pending_filter (fun t => is_pending t || is_skip t) _ _ Hth) as H1.
    destruct (visit_active_filter (fun t => is_pending t || is_skip t) (s_threads s))
      as [(_ & H2)|H2]; [rewrite H2 in H1|]; cbn in *; lia.
  - lia.
  - rewrite Hsp. cbn. lia.
Qed.

Lemma advance_wf (e e' : entry) :
  advance_entry e = Some e' -> wf_entry e -> wf_entry e'.
Proof.
  intros H Hwf. destruct (advance_entry_inv _ _ H) as [s th _ Hth| |]; [|exact Hwf|exact I].
  cbn [wf_entry s_threads] in *.
  rewrite (activate_pending_length _ _ Hth), visit_active_length. exact Hwf.
Qed.

Lemma mu_rev_app_ge (c : nat) (popped rb : list entry) :
  mu_rev c rb <= mu_rev c (popped ++ rb).
Proof.
  induction popped as [|e popped IH]; cbn [app mu_rev]; lia.
Qed.

Lemma step_cap (p p' : path) : step p = Some p' -> cap p' = cap p.
Proof.
  intros H. destruct (step_cases _ _ H) as (_ & _ & _ & _ & _ & _ & _ & _ & _ & Hc & _).
  exact Hc.
Qed.

Lemma step_wf (p p' : path) : wf_path p -> step p = Some p' -> wf_path p'.
Proof.
  intros [Hwf Hlen] H. split; [exact (step_Forall _ _ _ advance_wf H Hwf)|].
  destruct (step_cases _ _ H) as (kept & e & e' & popped & Hb & Hb' & _ & _ & _ & Hc & _).
  rewrite Hb', Hc. rewrite Hb in Hlen. rewrite app_length in *. cbn [length] in *. lia.
Qed.

(* the decrease is at least one unit of the position that was advanced *)
Lemma step_mu_gap (p p' : path) :
  step p = Some p' ->
  mu p' + BASE ^ (cap p - length (branches p')) <= mu p.
Proof.
  intros H.
  destruct (step_cases _ _ H) as (kept & e & e' & popped & Hb & Hb' & Hadv & _ & _ & Hc & _).
  unfold mu. rewrite Hc, Hb, Hb', !rev_app_distr, app_length. cbn [rev app length].
  rewrite <- app_assoc. cbn [app].
  pose proof (mu_rev_app_ge (cap p) (rev popped) (e :: rev kept)) as Hge.
  pose proof (advance_weight _ _ Hadv) as Hw.
  cbn [mu_rev] in *. rewrite rev_length in *.
  replace (length kept + 1) with (S (length kept)) by lia.
  remember (BASE ^ (cap p - S (length kept))) as x eqn:Hx.
  nia.
Qed.

Lemma step_mu (p p' : path) : step p = Some p' -> mu p' < mu p.
Proof.
  intros H. pose proof (step_mu_gap _ _ H) as Hg.
  pose proof (BASE_pow_pos (cap p - length (branches p'))). lia.
Qed.

(* ---- 6. an iteration adds less than what the step removed ---- *)

Lemma extends_mu (p p' : path) :
  extends p p' -> wf_path p' ->
  mu p' + BASE ^ (cap p - length (branches p'))
  <= mu p + BASE ^ (cap p - length (branches p)).
Proof.
  intros (_ & Hc & _ & old & new & Hbr & Hext) [Hwf Hlen].
  unfold mu. rewrite Hc in *. rewrite Hbr in *. rewrite rev_app_distr.
  pose proof (Forall2_len _ _ _ _ _ Hext) as Hlo.
  pose proof (ext_mu_rev (cap p) _ _ (Forall2_rev' _ _ _ Hext)) as Hmu.
  apply Forall_app in Hwf. destruct Hwf as [_ Hwfn].
  rewrite app_length in *.
  pose proof (mu_rev_app_bound (cap p) (rev new) (rev old) (Forall_rev Hwfn)) as Hb.
  rewrite !rev_length in Hb.
  rewrite Hmu, <- Hlo in Hb.
  replace (length old + length new) with (length new + length (branches p)) by lia.
  apply Hb. lia.
Qed.

Lemma iter_mu_decreases (it : path -> path) (q p' : path) :
  iter_ok it -> wf_path q -> step q = Some p' -> mu (it p') < mu q.
Proof.
  intros Hit Hwf Hstep.
  pose proof (step_wf _ _ Hwf Hstep) as Hwf'.
  destruct (Hit p' Hwf') as [Hext Hwfi].
  pose proof (extends_mu _ _ Hext Hwfi) as H1.
  pose proof (step_mu_gap _ _ Hstep) as H2.
  rewrite (step_cap _ _ Hstep) in H1.
  pose proof (BASE_pow_pos (cap q - length (branches (it p')))). lia.
Qed.

(* ---- conclusion ---- *)

Lemma explore_nth_inv (it : path -> path) (I Q : path -> Prop) :
  (forall pa, I pa -> Q (it pa)) ->
  (forall pa pa', I pa -> step (it pa) = Some pa' -> I pa') ->
  forall n pa k pk, I pa -> nth_error (explore it n pa) k = Some pk -> Q pk.
Proof.
  intros HQ HI. induction n as [|n IH]; intros pa k pk Hpa Hk; cbn [explore] in Hk.
  - destruct k; discriminate.
  - destruct k as [|k]; cbn [nth_error] in Hk; [injection Hk as <-; auto|].
    destruct (step (it pa)) as [pa'|] eqn:Hs; [eauto|destruct k; discriminate].
Qed.


Lemma finishes_fuel (it : path -> path) :
  iter_ok it ->
  forall n p, wf_path p -> mu (it p) < n -> finishes it n p = true.
Proof.
  intros Hit. induction n as [|n IH]; intros p Hwf Hlt; [lia|].
  cbn [finishes]. destruct (step (it p)) as [p'|] eqn:E; [|reflexivity].
  destruct (Hit p Hwf) as [_ Hwfi].
  apply IH.
  - exact (step_wf _ _ Hwfi E).
  - pose proof (iter_mu_decreases it _ _ Hit Hwfi E). lia.
Qed.

Lemma iter_mu_lt_cap (it : path -> path) (p : path) :
  iter_ok it -> wf_path p -> mu (it p) < BASE ^ cap p.
Proof.
  intros Hit Hwf. destruct (Hit p Hwf) as [(_ & Hc & _) Hwfi].
  rewrite <- Hc. apply mu_lt_cap. exact Hwfi.
Qed.

Theorem explore_terminates_tight :
  forall it p, iter_ok it -> wf_path p -> finishes it (BASE ^ cap p) p = true.
Proof.
  intros it p Hit Hwf. apply finishes_fuel; [exact Hit|exact Hwf|].
  apply iter_mu_lt_cap; assumption.
Qed.

Theorem explore_terminates :
  forall it p, iter_ok it -> wf_path p -> finishes it (S (BASE ^ cap p)) p = true.
Proof.
  intros it p Hit Hwf. apply finishes_fuel; [exact Hit|exact Hwf|].
  pose proof (iter_mu_lt_cap it p Hit Hwf). lia.
Qed.

Print Assumptions explore_terminates.
