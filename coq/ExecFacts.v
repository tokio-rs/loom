(* Facts about the execution model (Exec.v, Ops.v, Check.v).

   Part A  what a micro-operation does to the decision stack and the active
           thread ([exec_micro_shape]: it ends in schedule, or keeps the active
           thread and makes at most one call of the Path API), with the
           induction principles every file uses to carry a relation on paths
           or an invariant through a micro-operation and a run
           ([dpor_loop_rel], [exec_micro_path_rel], [run_path_rel],
           [run_invariant]); instances: every iteration of the model satisfies
           the iteration contract of the path theorems ([path_ok],
           [iteration_path_ok], [L_iter_ok], [L_preemptions_le_bound],
           [initial_path_ok]) and stays past the replayed prefix ([trv]);
   Part D  the leak check (C10), and the facts about the seed and the choice
           of schedule that Parts B and C use;
   Part B  deadlock detection is exact at the step where it happens (C05);
   Part C  yield (C18).

   Deviations from the requested statements: see the end of this header.

   Statements left to my choice, as fixed here:
     - "the path was traversed" is stated on the path BEFORE the DPOR loop
       ([is_traversed (e_path e) = true]); the DPOR loop only adds backtrack
       marks, it changes neither [pos] nor the length of the stack
       ([dpor_loop_shape]), so this is the same as being traversed after it;
     - [schedule_no_runnable] needs the traversed hypothesis: when a stored
       path is replayed the choice (and hence the deadlock verdict) comes from
       the stack, whatever the thread states are;
     - [yielder_not_first] is stated on [seed_loop]/[pick_initial]/[seed_choice]
       ([seed_choice] = what [branch_thread] returns on a traversed path,
       [branch_thread_traversed]); [schedule_yielder_not_chosen] is the
       corresponding statement about [schedule];
     - [yield_reactivated] is stated with [e_active e' <> Some i] (it covers the
       case where no thread is chosen: then every thread is Terminated and the
       statement is vacuous).

   Deviations: none of the requested statements is false; all are proved under
   the requested names, with the hypotheses spelled out above. *)
Require Import LV.Base LV.VV LV.Path LV.PathSpec LV.PathApi LV.Prog LV.Objects
               LV.Exec LV.Atomic LV.Ops LV.Check.
From Coq Require Import Lia.

(* ================================================================== *)
(* Part A: micro-operations and the decision stack                     *)
(* ================================================================== *)

Definition path_ok (p0 p : path) : Prop :=
  extends p0 p /\ (wf_path p0 -> wf_path p) /\ (c15_inv p0 -> c15_inv p).

Lemma path_ok_refl p : path_ok p p.
Proof. unfold path_ok. auto using extends_refl. Qed.

Lemma path_ok_trans p q r : path_ok p q -> path_ok q r -> path_ok p r.
Proof.
  intros (Hpq1 & Hpq2 & Hpq3) (Hqr1 & Hqr2 & Hqr3).
  unfold path_ok. split; [eauto using extends_trans|]. split; auto.
Qed.

(* how the Path API lemmas of PathApi.v are packaged *)
Lemma path_ok_intro p p' :
  extends p p' /\ (wf_path p -> wf_path p') -> (c15_inv p -> c15_inv p') -> path_ok p p'.
Proof. unfold path_ok. tauto. Qed.

Lemma backtrack_ok p point tid p' : backtrack p point tid = POk p' -> path_ok p p'.
Proof. intros H. apply path_ok_intro; eauto using backtrack_extends, backtrack_c15. Qed.

Lemma explore_state_ok p p' : explore_state p = POk p' -> path_ok p p'.
Proof. intros H. apply path_ok_intro; eauto using explore_state_extends, explore_state_c15. Qed.

Lemma critical_ok p p' : critical p = POk p' -> path_ok p p'.
Proof. intros H. apply path_ok_intro; eauto using critical_extends, critical_c15. Qed.

Lemma skip_branch_ok p : path_ok p (skip_branch p).
Proof. apply path_ok_intro; auto using skip_branch_extends, skip_branch_c15. Qed.

Lemma push_load_ok p seed p' : push_load p seed = POk p' -> path_ok p p'.
Proof. intros H. apply path_ok_intro; eauto using push_load_extends, push_load_c15. Qed.

Lemma branch_load_ok p p' v : branch_load p = POk (p', v) -> path_ok p p'.
Proof. intros H. apply path_ok_intro; eauto using branch_load_extends, branch_load_c15. Qed.

Lemma branch_spurious_ok p p' b : branch_spurious p = POk (p', b) -> path_ok p p'.
Proof.
  intros H. apply path_ok_intro; eauto using branch_spurious_extends, branch_spurious_c15.
Qed.

Lemma branch_thread_ok p seed p' t :
  Forall (fun t => t <> Pending) seed ->
  branch_thread p seed = POk (p', t) -> path_ok p p'.
Proof.
  intros Hs H. apply path_ok_intro; eauto using branch_thread_extends, branch_thread_c15.
Qed.

(* ---- the DPOR loop ---- *)
(* the loop is a chain of backtrack calls *)
Lemma dpor_accesses_rel (R : path -> path -> Prop) :
  (forall p, R p p) -> (forall p q r, R p q -> R q r -> R p r) ->
  (forall p pt tid p', backtrack p pt tid = POk p' -> R p p') ->
  forall accs dv id p p', dpor_accesses accs dv id p = POk p' -> R p p'.
Proof.
  intros Hrefl Htrans Hb.
  induction accs as [|acc rest IH]; intros dv id p p' H; cbn [dpor_accesses] in H.
  - injection H as <-. apply Hrefl.
  - destruct (access_hb acc dv); [eauto|].
    destruct (backtrack p (a_path_id acc) id) as [p1|x] eqn:E; [|discriminate]. eauto.
Qed.

Lemma dpor_loop_rel (R : path -> path -> Prop) :
  (forall p, R p p) -> (forall p q r, R p q -> R q r -> R p r) ->
  (forall p pt tid p', backtrack p pt tid = POk p' -> R p p') ->
  forall objs ths p p', dpor_loop objs ths p = POk p' -> R p p'.
Proof.
  intros Hrefl Htrans Hb objs.
  induction ths as [|[id th] rest IH]; intros p p' H; cbn [dpor_loop] in H.
  - injection H as <-. apply Hrefl.
  - destruct (t_op th) as [op|]; [|eauto].
    destruct (nth_error objs (op_obj op)) as [o|]; [|discriminate].
    destruct (last_dependent_accesses o (op_act op)) as [accs|]; [|discriminate].
    destruct (dpor_accesses accs (t_dpor th) id p) as [p1|x] eqn:E; [|discriminate].
    pose proof (dpor_accesses_rel R Hrefl Htrans Hb _ _ _ _ _ E). eauto.
Qed.

Lemma dpor_loop_ok objs ths p p' : dpor_loop objs ths p = POk p' -> path_ok p p'.
Proof. apply dpor_loop_rel; eauto using path_ok_refl, path_ok_trans, backtrack_ok. Qed.

(* the DPOR loop changes neither the position nor the length of the stack *)
Definition same_shape (p p' : path) : Prop :=
  pos p' = pos p /\ length (branches p') = length (branches p).

Lemma dpor_loop_shape objs ths p p' : dpor_loop objs ths p = POk p' -> same_shape p p'.
Proof.
  apply (dpor_loop_rel same_shape); unfold same_shape.
  - auto.
  - intros p0 q r [H1 H2] [H3 H4]. split; congruence.
  - intros p0 pt tid q Hb.
    destruct (backtrack_marks _ _ _ _ Hb) as (_ & _ & _ & Hpos & _ & _ & Hbr).
    apply Forall2_len in Hbr. auto.
Qed.

Lemma dpor_loop_traversed objs ths p p' :
  dpor_loop objs ths p = POk p' -> is_traversed p' = is_traversed p.
Proof.
  intros H. destruct (dpor_loop_shape _ _ _ _ H) as [H1 H2].
  unfold is_traversed. rewrite H1, H2. reflexivity.
Qed.

(* ---- the seed ---- *)
Lemma seed_loop_clean ths initial :
  Forall (fun t => t <> Pending /\ t <> Visited) (seed_loop ths initial).
Proof.
  revert initial; induction ths as [|[i th] rest IH]; intros initial; cbn [seed_loop].
  - constructor.
  - constructor; [|apply IH].
    destruct (opt_nat_eqb _ _); [split; discriminate|].
    destruct (is_yield th); [split; discriminate|].
    destruct (negb (is_runnable th)); split; discriminate.
Qed.

Lemma seed_loop_no_pending ths initial :
  Forall (fun t => t <> Pending) (seed_loop ths initial).
Proof. eapply Forall_impl; [|apply seed_loop_clean]. intros t [H _]. exact H. Qed.

(* ---- schedule: unfolding ---- *)
Definition res_exec (r : mres) : exec :=
  match r with MOk e' => e' | MFail e' _ => e' end.

Definition sched_initial (ths : list thread) (curr : nat) (cur_th : thread) : option nat :=
  if is_runnable cur_th then Some curr else pick_initial ths (index_list ths) None.

Definition sched_seed (ths : list thread) (curr : nat) (cur_th : thread) : list tstat :=
  seed_loop (index_list ths) (sched_initial ths curr cur_th).

(* the DPOR bookkeeping done for the chosen thread *)
Definition sched_note (e : exec) (nx path_id : nat) (nth_ : thread) : exec :=
  match t_op nth_ with
  | None => e
  | Some op =>
      match nth_error (e_objects e) (op_obj op) with
      | None => e
      | Some o =>
          let dv := match last_dependent_accesses o (op_act op) with
                    | Some accs => fold_left (fun d acc => vv_join d (a_vv acc)) accs (t_dpor nth_)
                    | None => t_dpor nth_
                    end in
          let dv := vv_inc dv nx in
          let e := upd_thread e nx (fun t => th_set_dpor t dv) in
          upd_object e (op_obj op) (fun o => set_last_access o (op_act op) nx path_id dv)
      end
  end.

Definition reactivate (nx : nat) (ths : list thread) : list thread :=
  mapi (fun id th => if is_yield th && negb (Nat.eqb id nx) then set_runnable th else th) ths.

(* what schedule does once the path has answered; [e] already carries the new
   path and the new active thread *)
Definition sched_post (e : exec) (curr path_id : nat) (next : option nat) : mres * bool :=
  match next with
  | None =>
      if forallb is_terminated (e_threads e) then (MOk e, true)
      else (MFail e (PanicDeadlock (map t_state (e_threads e))), true)
  | Some nx =>
      match nth_error (e_threads e) nx with
      | None => (MFail e (PanicModel 3), false)
      | Some nth_ =>
          let e1 := sched_note e nx path_id nth_ in
          (MOk (ex_set_threads e1 (reactivate nx (e_threads e1))), negb (Nat.eqb curr nx))
      end
  end.

Lemma schedule_unfold e :
  schedule e =
  match e_active e with
  | None => (MFail e (PanicModel 1), false)
  | Some curr =>
  match nth_error (e_threads e) curr with
  | None => (MFail e (PanicModel 2), false)
  | Some cur_th =>
  match dpor_loop (e_objects e) (index_list (e_threads e)) (e_path e) with
  | PErr x => (MFail e (PanicPath x), false)
  | POk p1 =>
  match branch_thread p1 (sched_seed (e_threads e) curr cur_th) with
  | PErr x => (MFail (ex_set_path e p1) (PanicPath x), false)
  | POk (p2, next) =>
      sched_post (ex_set_active (ex_set_path (ex_set_path e p1) p2) next) curr (pos p1) next
  end end end end.
Proof. reflexivity. Qed.

(* the successful prefix of schedule, as a predicate *)
Definition sched_prefix (e : exec) (curr : nat) (cur_th : thread) (p1 p2 : path)
           (next : option nat) : Prop :=
  e_active e = Some curr /\
  nth_error (e_threads e) curr = Some cur_th /\
  dpor_loop (e_objects e) (index_list (e_threads e)) (e_path e) = POk p1 /\
  branch_thread p1 (sched_seed (e_threads e) curr cur_th) = POk (p2, next).

Definition sched_base (e : exec) (p2 : path) (next : option nat) : exec :=
  ex_set_active (ex_set_path e p2) next.

(* every outcome of schedule *)
Lemma schedule_cases e :
  (exists c, schedule e = (MFail e (PanicModel c), false)) \/
  (exists x, schedule e = (MFail e (PanicPath x), false)) \/
  (exists p1 x, dpor_loop (e_objects e) (index_list (e_threads e)) (e_path e) = POk p1 /\
                schedule e = (MFail (ex_set_path e p1) (PanicPath x), false)) \/
  (exists curr cur_th p1 p2 next,
     sched_prefix e curr cur_th p1 p2 next /\
     schedule e = sched_post (sched_base e p2 next) curr (pos p1) next).
Proof.
  rewrite schedule_unfold. unfold sched_prefix.
  destruct (e_active e) as [curr|] eqn:Ha; [|left; eauto].
  destruct (nth_error (e_threads e) curr) as [cur_th|] eqn:Hc; [|left; eauto].
  destruct (dpor_loop _ _ _) as [p1|x] eqn:Hd; [|right; left; eauto].
  destruct (branch_thread _ _) as [[p2 next]|x] eqn:Hb; [|right; right; left; eauto].
  right; right; right. exists curr, cur_th, p1, p2, next.
  repeat split; assumption || reflexivity.
Qed.

(* framing: the parts of the state that sched_post leaves alone *)
Lemma sched_note_cases e nx pid th :
  sched_note e nx pid th = e \/
  exists dv i act,
    sched_note e nx pid th =
    upd_object (upd_thread e nx (fun t => th_set_dpor t dv)) i
               (fun o => set_last_access o act nx pid dv).
Proof.
  unfold sched_note. destruct (t_op th) as [op|]; [|left; reflexivity].
  destruct (nth_error (e_objects e) (op_obj op)); [|left; reflexivity].
  right. cbv zeta. eauto.
Qed.

Lemma sched_note_path e nx pid th : e_path (sched_note e nx pid th) = e_path e.
Proof. destruct (sched_note_cases e nx pid th) as [->|(dv & i & g & ->)]; reflexivity. Qed.

Lemma sched_note_active e nx pid th : e_active (sched_note e nx pid th) = e_active e.
Proof. destruct (sched_note_cases e nx pid th) as [->|(dv & i & g & ->)]; reflexivity. Qed.

Lemma sched_post_path e curr pid next :
  e_path (res_exec (fst (sched_post e curr pid next))) = e_path e.
Proof.
  unfold sched_post. destruct next as [nx|].
  - destruct (nth_error _ _); [|reflexivity].
    cbn [fst res_exec]. apply sched_note_path.
  - destruct (forallb _ _); reflexivity.
Qed.

Lemma sched_prefix_ok e curr cur_th p1 p2 next :
  sched_prefix e curr cur_th p1 p2 next -> path_ok (e_path e) p2.
Proof.
  intros (_ & _ & Hd & Hb).
  eapply path_ok_trans; [eapply dpor_loop_ok; eassumption|].
  eapply branch_thread_ok; [|eassumption]. apply seed_loop_no_pending.
Qed.

Lemma schedule_path_ok e :
  let r := fst (schedule e) in
  path_ok (e_path e) (e_path (match r with MOk e' => e' | MFail e' _ => e' end)).
Proof.
  cbv zeta. change (path_ok (e_path e) (e_path (res_exec (fst (schedule e))))).
  destruct (schedule_cases e)
    as [(c & ->)|[(x & ->)|[(p1 & x & Hd & ->)|(curr & cur_th & p1 & p2 & next & Hp & ->)]]].
  - apply path_ok_refl.
  - apply path_ok_refl.
  - cbn [fst res_exec]. eapply dpor_loop_ok; eassumption.
  - rewrite sched_post_path. eapply sched_prefix_ok; eassumption.
Qed.

Lemma schedule_ind (P : exec -> Prop) e :
  (forall e1 p, P e1 -> P (ex_set_path e1 p)) ->
  (forall e1 a, P e1 -> P (ex_set_active e1 a)) ->
  (forall e1 nx dv, P e1 -> P (upd_thread e1 nx (fun t => th_set_dpor t dv))) ->
  (forall e1 i act tid pid dv,
     P e1 -> P (upd_object e1 i (fun o => set_last_access o act tid pid dv))) ->
  (forall e1 nx, P e1 -> P (ex_set_threads e1 (reactivate nx (e_threads e1)))) ->
  P e -> P (res_exec (fst (schedule e))).
Proof.
  intros Hp Ha Ht Ho Hr H.
  destruct (schedule_cases e)
    as [(c & ->)|[(x & ->)|[(p1 & x & Hd & ->)|(curr & cur_th & p1 & p2 & next & Hs & ->)]]];
    cbn [fst res_exec]; auto.
  assert (Hb : P (sched_base e p2 next)) by (unfold sched_base; auto).
  revert Hb. generalize (sched_base e p2 next). intros e1 Hb.
  unfold sched_post. destruct next as [nx|].
  - destruct (nth_error (e_threads e1) nx) as [th|]; cbn [fst res_exec]; [|exact Hb].
    apply Hr. destruct (sched_note_cases e1 nx (pos p1) th) as [->|(dv & i & act & ->)]; auto.
  - destruct (forallb is_terminated (e_threads e1)); cbn [fst res_exec]; exact Hb.
Qed.

(* ---- framing: the helpers of Ops.v that do not touch the path ---- *)
Lemma upd_thread_path e i f : e_path (upd_thread e i f) = e_path e.
Proof. reflexivity. Qed.
Lemma upd_object_path e i f : e_path (upd_object e i f) = e_path e.
Proof. reflexivity. Qed.
Lemma upd_hobj_path e i f : e_path (upd_hobj e i f) = e_path e.
Proof. reflexivity. Qed.
Lemma ex_set_path_path e p : e_path (ex_set_path e p) = p.
Proof. reflexivity. Qed.
Lemma ex_set_threads_path e x : e_path (ex_set_threads e x) = e_path e.
Proof. reflexivity. Qed.
Lemma ex_set_active_path e x : e_path (ex_set_active e x) = e_path e.
Proof. reflexivity. Qed.
Lemma ex_set_seqcst_path e x : e_path (ex_set_seqcst e x) = e_path e.
Proof. reflexivity. Qed.
Lemma ex_set_objects_path e x : e_path (ex_set_objects e x) = e_path e.
Proof. reflexivity. Qed.
Lemma ex_set_h_path e x : e_path (ex_set_h e x) = e_path e.
Proof. reflexivity. Qed.
Lemma ex_set_spawned_path e x : e_path (ex_set_spawned e x) = e_path e.
Proof. reflexivity. Qed.
Lemma ex_set_joined_path e x : e_path (ex_set_joined e x) = e_path e.
Proof. reflexivity. Qed.
Lemma ex_set_log_path e x : e_path (ex_set_log e x) = e_path e.
Proof. reflexivity. Qed.
Lemma set_caus_path e me v : e_path (set_caus e me v) = e_path e.
Proof. reflexivity. Qed.
Lemma causality_inc_path e me : e_path (causality_inc e me) = e_path e.
Proof. reflexivity. Qed.
Lemma push_cont_path e me ms : e_path (push_cont e me ms) = e_path e.
Proof. reflexivity. Qed.
Lemma log_op_path e me r : e_path (log_op e me r) = e_path e.
Proof. unfold log_op. destruct (get_thread e me); reflexivity. Qed.
Lemma map_others_path e me p f : e_path (map_others e me p f) = e_path e.
Proof. reflexivity. Qed.
Lemma threads_unpark_path e me id : e_path (threads_unpark e me id) = e_path e.
Proof. unfold threads_unpark. destruct (Nat.eqb id me); reflexivity. Qed.
Lemma set_slot_path e k i b : e_path (set_slot e k i b) = e_path e.
Proof. reflexivity. Qed.
Lemma push_guard_path e me k m : e_path (push_guard e me k m) = e_path e.
Proof. reflexivity. Qed.
Lemma drop_guard_path e me k m : e_path (drop_guard e me k m) = e_path e.
Proof. reflexivity. Qed.

Lemma release_lock_path e me m : e_path (release_lock e me m) = e_path e.
Proof.
  unfold release_lock. destruct (get_mutex e m); [|reflexivity].
  cbv zeta. destruct (e_active _); reflexivity.
Qed.

Lemma post_acquire_path e me m : e_path (fst (post_acquire e me m)) = e_path e.
Proof.
  unfold post_acquire. destruct (get_mutex e m) as [s|]; [|reflexivity].
  destruct (is_some (mx_lock s)); reflexivity.
Qed.

Lemma post_acquire_read_path e me r : e_path (fst (post_acquire_read e me r)) = e_path e.
Proof.
  unfold post_acquire_read. destruct (get_rw e r) as [s|]; [|reflexivity].
  destruct (rw_lock s) as [[?|?]|]; reflexivity.
Qed.

Lemma post_acquire_write_path e me r : e_path (fst (post_acquire_write e me r)) = e_path e.
Proof.
  unfold post_acquire_write. destruct (get_rw e r) as [s|]; [|reflexivity].
  destruct (rw_lock s); reflexivity.
Qed.

Lemma release_read_path e me r : e_path (res_exec (release_read e me r)) = e_path e.
Proof.
  unfold release_read. destruct (get_rw e r) as [s|]; [|reflexivity].
  cbv zeta. destruct (rw_lock s) as [[rs|?]|]; try reflexivity.
  destruct (set_remove me rs); reflexivity.
Qed.

Lemma release_write_path e me r : e_path (res_exec (release_write e me r)) = e_path e.
Proof. unfold release_write. destruct (get_rw e r); reflexivity. Qed.

Lemma fold_unpark_path me l e :
  e_path (fold_left (fun e t => threads_unpark e me t) l e) = e_path e.
Proof.
  revert e; induction l as [|w l IH]; intros e; cbn [fold_left]; [reflexivity|].
  rewrite IH. apply threads_unpark_path.
Qed.

Global Hint Rewrite upd_thread_path upd_object_path upd_hobj_path ex_set_path_path
  ex_set_threads_path ex_set_active_path ex_set_seqcst_path ex_set_objects_path
  ex_set_h_path ex_set_spawned_path ex_set_joined_path ex_set_log_path
  set_caus_path causality_inc_path push_cont_path log_op_path map_others_path
  threads_unpark_path set_slot_path push_guard_path drop_guard_path
  release_lock_path fold_unpark_path : epath.

Lemma log_op_act e me r : e_active (log_op e me r) = e_active e.
Proof. unfold log_op. destruct (get_thread e me); reflexivity. Qed.
Lemma log_poll_act e me : e_active (log_poll e me) = e_active e.
Proof. unfold log_poll. destruct (get_thread e me); reflexivity. Qed.
Lemma threads_unpark_act e me id : e_active (threads_unpark e me id) = e_active e.
Proof. unfold threads_unpark. destruct (Nat.eqb id me); reflexivity. Qed.
Lemma fold_unpark_act me l e :
  e_active (fold_left (fun e t => threads_unpark e me t) l e) = e_active e.
Proof.
  revert e; induction l as [|w l IH]; intros e; cbn [fold_left]; [reflexivity|].
  rewrite IH. apply threads_unpark_act.
Qed.
Lemma release_lock_act e me m : e_active (release_lock e me m) = e_active e.
Proof.
  unfold release_lock. destruct (get_mutex e m); [|reflexivity].
  cbv zeta.
  match goal with
  | |- e_active (match ?x with _ => _ end) = _ => destruct x; reflexivity
  end.
Qed.
Lemma post_acquire_act e me m : e_active (fst (post_acquire e me m)) = e_active e.
Proof.
  unfold post_acquire. destruct (get_mutex e m) as [s|]; [|reflexivity].
  destruct (is_some (mx_lock s)); reflexivity.
Qed.
Lemma post_acquire_read_act e me r : e_active (fst (post_acquire_read e me r)) = e_active e.
Proof.
  unfold post_acquire_read. destruct (get_rw e r) as [s|]; [|reflexivity].
  destruct (rw_lock s) as [[?|?]|]; reflexivity.
Qed.
Lemma post_acquire_write_act e me r : e_active (fst (post_acquire_write e me r)) = e_active e.
Proof.
  unfold post_acquire_write. destruct (get_rw e r) as [s|]; [|reflexivity].
  destruct (rw_lock s); reflexivity.
Qed.
Lemma release_read_act e me r : e_active (res_exec (release_read e me r)) = e_active e.
Proof.
  unfold release_read. destruct (get_rw e r) as [s|]; [|reflexivity].
  cbv zeta. destruct (rw_lock s) as [[rs|?]|]; try reflexivity.
  destruct (set_remove me rs); reflexivity.
Qed.
Lemma release_write_act e me r : e_active (res_exec (release_write e me r)) = e_active e.
Proof. unfold release_write. destruct (get_rw e r); reflexivity. Qed.

Lemma ex_set_lazy_path e l : e_path (ex_set_lazy e l) = e_path e.
Proof. reflexivity. Qed.
Lemma log_poll_path e me : e_path (log_poll e me) = e_path e.
Proof. unfold log_poll. destruct (get_thread e me); reflexivity. Qed.
Global Hint Rewrite ex_set_lazy_path log_poll_path : epath.

Definition lp_exec (r : (exec * N) + (exec * panic)) : exec :=
  match r with inl (e, _) => e | inr (e, _) => e end.

(* the calls of the Path API that a micro-operation makes outside schedule;
   push_load is only ever followed at once by branch_load (choose_store) *)
Inductive pcall : path -> path -> Prop :=
| pc_load p sd p1 p2 idx :
    is_traversed p = true -> push_load p sd = POk p1 -> branch_load p1 = POk (p2, idx) ->
    pcall p p2
| pc_replay p p2 idx : is_traversed p = false -> branch_load p = POk (p2, idx) -> pcall p p2
| pc_spurious p p2 b : branch_spurious p = POk (p2, b) -> pcall p p2
| pc_explore p p2 : explore_state p = POk p2 -> pcall p p2
| pc_critical p p2 : critical p = POk p2 -> pcall p p2
| pc_skip p : pcall p (skip_branch p).

Definition quiet (e e' : exec) : Prop :=
  e_active e' = e_active e /\ (e_path e' = e_path e \/ pcall (e_path e) (e_path e')).

Definition micro_shape (e : exec) (r : mres) : Prop :=
  (exists i f, r = fst (schedule (upd_thread e i f))) \/ quiet e (res_exec r).

Lemma choose_store_quiet e seed : quiet e (fst (choose_store e seed)).
Proof.
  unfold choose_store, quiet.
  destruct (is_traversed (e_path e)) eqn:Ht.
  - destruct seed as [sd|]; [|auto].
    destruct (push_load (e_path e) sd) as [p1|x] eqn:Hp; [|auto].
    destruct (branch_load p1) as [[p2 idx]|x] eqn:Hb; cbn [fst]; [|auto].
    split; [reflexivity|right]. eapply pc_load; eassumption.
  - destruct (branch_load (e_path e)) as [[p2 idx]|x] eqn:Hb; cbn [fst]; [|auto].
    split; [reflexivity|right]. eapply pc_replay; eassumption.
Qed.

Lemma load_post_quiet e me a o : quiet e (lp_exec (load_post e me a o)).
Proof.
  unfold load_post.
  destruct (get_atomic (causality_inc e me) a) as [s|]; [|split; auto].
  destruct (get_thread (causality_inc e me) me) as [t|]; [|split; auto].
  pose proof (choose_store_quiet (causality_inc e me)
                (match_load_to_stores s me (t_caus t) (t_last_yield t) o)) as H.
  destruct (choose_store _ _) as [e1 [idx|p]]; cbn [fst] in H; [|exact H].
  destruct (atomic_load s me (t_caus t) idx o) as [[[s' c'] v]|p]; cbn [lp_exec]; exact H.
Qed.

Ltac pa_simpl :=
  cbn [e_active e_path causality_inc set_caus upd_thread upd_object upd_hobj push_cont map_others
       set_slot push_guard drop_guard ex_set_path ex_set_threads ex_set_active ex_set_seqcst
       ex_set_objects ex_set_h ex_set_spawned ex_set_joined ex_set_log ex_set_lazy].

Ltac shape_step :=
  match goal with
  | |- context [post_acquire ?e ?me ?m] =>
      pose proof (post_acquire_path e me m); pose proof (post_acquire_act e me m);
      destruct (post_acquire e me m); cbn [fst] in *
  | |- context [post_acquire_read ?e ?me ?m] =>
      pose proof (post_acquire_read_path e me m); pose proof (post_acquire_read_act e me m);
      destruct (post_acquire_read e me m); cbn [fst] in *
  | |- context [post_acquire_write ?e ?me ?m] =>
      pose proof (post_acquire_write_path e me m); pose proof (post_acquire_write_act e me m);
      destruct (post_acquire_write e me m); cbn [fst] in *
  | |- context [release_read ?e ?me ?m] =>
      pose proof (release_read_path e me m); pose proof (release_read_act e me m);
      destruct (release_read e me m); cbn [res_exec] in *
  | |- context [release_write ?e ?me ?m] =>
      pose proof (release_write_path e me m); pose proof (release_write_act e me m);
      destruct (release_write e me m); cbn [res_exec] in *
  | |- context [load_post ?e ?me ?a ?o] =>
      let H := fresh in
      destruct (load_post_quiet e me a o) as [H [?|?]];
      destruct (load_post e me a o) as [[? ?]|[? ?]]; cbn [lp_exec] in *
  | |- context [choose_store ?e ?s] =>
      let H := fresh in
      destruct (choose_store_quiet e s) as [H [?|?]];
      destruct (choose_store e s) as [? [?|?]]; cbn [fst] in *
  | |- context [branch_spurious ?p] =>
      let H := fresh in destruct (branch_spurious p) as [[? ?]|?] eqn:H; [apply pc_spurious in H|]
  | |- context [explore_state ?p] =>
      let H := fresh in destruct (explore_state p) eqn:H; [apply pc_explore in H|]
  | |- context [critical ?p] =>
      let H := fresh in destruct (critical p) eqn:H; [apply pc_critical in H|]
  | |- context [match ?x with _ => _ end] =>
      lazymatch x with
      | context [match _ with _ => _ end] => fail
      | _ => destruct x
      end
  end.

(* the result is schedule on [upd_thread e i f], or its path and active thread
   are, through the equations collected on the way, those of the start, or the
   path is the one after the call recorded in the context *)
Ltac shape_close :=
  lazymatch goal with
  | |- (exists i f, fst (schedule _) = _) \/ _ => left; eexists; eexists; reflexivity
  | _ =>
      right; cbn [res_exec]; unfold quiet;
      repeat first
        [ progress pa_simpl
        | match goal with
          | |- context [log_op _ _ _] => rewrite ?log_op_act, ?log_op_path
          | |- context [log_poll _ _] => rewrite ?log_poll_act, ?log_poll_path
          | |- context [release_lock _ _ _] => rewrite ?release_lock_act, ?release_lock_path
          | |- context [fold_left _ _ _] => rewrite ?fold_unpark_act, ?fold_unpark_path
          | |- context [threads_unpark _ _ _] => rewrite ?threads_unpark_act, ?threads_unpark_path
          end
        | match goal with
          | H : e_path _ = _ |- _ => progress rewrite H
          | H : e_active _ = _ |- _ => progress rewrite H
          end ];
      (split; [reflexivity
              | first [left; reflexivity | right; first [assumption | apply pc_skip]]])
  end.

Theorem exec_micro_shape e me m : micro_shape e (exec_micro e me m).
Proof.
  destruct m; cbn [exec_micro]; unfold micro_shape, lift_path, mbind, do_branch, do_park, do_yield;
    repeat shape_step; shape_close.
Qed.

Section PathRel.
  Variable R : path -> path -> Prop.
  Hypothesis R_refl : forall p, R p p.
  Hypothesis R_trans : forall p q r, R p q -> R q r -> R p r.
  Hypothesis R_sched : forall e, R (e_path e) (e_path (res_exec (fst (schedule e)))).
  Hypothesis R_call : forall p p', pcall p p' -> R p p'.

  Lemma exec_micro_path_rel e me m : R (e_path e) (e_path (res_exec (exec_micro e me m))).
  Proof.
    destruct (exec_micro_shape e me m) as [(i & f & ->)|(_ & [->|Hc])]; auto.
    apply (R_sched (upd_thread e i f)).
  Qed.

  Lemma run_path_rel fuel e : R (e_path e) (e_path (fst (run fuel e))).
  Proof.
    revert e; induction fuel as [|fuel IH]; intros e; cbn [run]; [apply R_refl|].
    destruct (e_active e) as [me|]; [|apply R_refl].
    destruct (nth_error (e_threads e) me) as [t|]; [|apply R_refl].
    destruct (t_cont t) as [|m rest]; [apply R_refl|].
    pose proof (exec_micro_path_rel (upd_thread e me (fun t => th_set_cont t rest)) me m) as Hm.
    destruct (exec_micro _ me m) as [e2|e2 pn]; [eapply R_trans; [exact Hm|apply IH]|exact Hm].
  Qed.
End PathRel.

Lemma run_invariant (P : exec -> Prop) :
  (forall e me t m rest,
     P e -> e_active e = Some me -> nth_error (e_threads e) me = Some t -> t_cont t = m :: rest ->
     P (res_exec (exec_micro (upd_thread e me (fun t => th_set_cont t rest)) me m))) ->
  forall fuel e, P e -> P (fst (run fuel e)).
Proof.
  intros Hstep. induction fuel as [|fuel IH]; intros e He; cbn [run]; [exact He|].
  destruct (e_active e) as [me|] eqn:Ha; [|exact He].
  destruct (nth_error (e_threads e) me) as [t|] eqn:Ht; [|exact He].
  destruct (t_cont t) as [|m rest] eqn:Hc; [exact He|].
  pose proof (Hstep e me t m rest He Ha Ht Hc) as Hm.
  destruct (exec_micro _ me m) as [e2|e2 pn]; [apply IH|]; exact Hm.
Qed.

(* ---- past the replayed prefix the path stays traversed ---- *)
Definition trv (p p' : path) : Prop := is_traversed p = true -> is_traversed p' = true.

Lemma trv_refl p : trv p p.
Proof. intros H. exact H. Qed.
Lemma trv_trans p q r : trv p q -> trv q r -> trv p r.
Proof. unfold trv. auto. Qed.

Lemma trv_same p p' : pos p' = pos p -> branches p' = branches p -> trv p p'.
Proof. intros H1 H2. unfold trv, is_traversed. rewrite H1, H2. auto. Qed.

Lemma explore_state_trv p p' : explore_state p = POk p' -> trv p p'.
Proof.
  intros H. destruct (explore_state_cases _ _ H) as [(_ & ->)|(_ & _ & ->)];
    apply trv_same; reflexivity.
Qed.

Lemma critical_trv p p' : critical p = POk p' -> trv p p'.
Proof.
  intros H. destruct (critical_cases _ _ H) as [(_ & ->)|(_ & _ & ->)];
    apply trv_same; reflexivity.
Qed.

Lemma skip_branch_trv p : trv p (skip_branch p).
Proof. apply trv_same; reflexivity. Qed.

Lemma traversed_push p x :
  is_traversed p = true ->
  is_traversed (set_pos (set_branches p (branches p ++ [x])) (S (pos p))) = true.
Proof.
  unfold is_traversed. cbn [set_pos set_branches pos branches]. intros H. apply Nat.eqb_eq in H.
  apply Nat.eqb_eq. rewrite app_length. cbn [length]. lia.
Qed.

Lemma branch_spurious_trv p p' b : branch_spurious p = POk (p', b) -> trv p p'.
Proof.
  intros H Ht. destruct (branch_spurious_cases _ _ _ H) as [(Hf & _)|(_ & _ & ->)]; [congruence|].
  apply traversed_push, Ht.
Qed.

Lemma branch_thread_trv p seed p' t : branch_thread p seed = POk (p', t) -> trv p p'.
Proof.
  intros H Ht. destruct (branch_thread_cases _ _ _ _ H) as [(Hf & _)|(_ & _ & s & -> & _)]; [congruence|].
  apply traversed_push, Ht.
Qed.

Lemma dpor_loop_trv objs ths p p' : dpor_loop objs ths p = POk p' -> trv p p'.
Proof. intros H Ht. rewrite (dpor_loop_traversed _ _ _ _ H). exact Ht. Qed.

Lemma schedule_trv e : trv (e_path e) (e_path (res_exec (fst (schedule e)))).
Proof.
  destruct (schedule_cases e)
    as [(c & ->)|[(x & ->)|[(p1 & x & Hd & ->)|(curr & cur_th & p1 & p2 & next & Hp & ->)]]].
  - apply trv_refl.
  - apply trv_refl.
  - cbn [fst res_exec]. eapply dpor_loop_trv; eassumption.
  - rewrite sched_post_path. destruct Hp as (_ & _ & Hd & Hb).
    eapply trv_trans; [eapply dpor_loop_trv; eassumption|eapply branch_thread_trv; eassumption].
Qed.

(* the first iteration of Builder::check starts on the empty stack *)
Lemma initial_path_traversed c : is_traversed (initial_path c) = true.
Proof. reflexivity. Qed.

Lemma pcall_trv p p' : pcall p p' -> trv p p'.
Proof.
  destruct 1 as [p sd p1 p2 idx _ Hp Hb|p p2 idx Hf _| | | |];
    eauto using branch_spurious_trv, explore_state_trv, critical_trv, skip_branch_trv.
  - intros Ht. rewrite (branch_load_cases _ _ _ Hb).
    destruct (push_load_cases _ _ _ Hp) as (_ & _ & ->). exact (traversed_push _ _ Ht).
  - intros Ht. congruence.
Qed.

Lemma exec_micro_trv e me m : trv (e_path e) (e_path (res_exec (exec_micro e me m))).
Proof. exact (exec_micro_path_rel trv trv_refl schedule_trv pcall_trv e me m). Qed.

Lemma run_trv fuel e : trv (e_path e) (e_path (fst (run fuel e))).
Proof. exact (run_path_rel trv trv_refl trv_trans schedule_trv pcall_trv fuel e). Qed.

Lemma pcall_ok p p' : pcall p p' -> path_ok p p'.
Proof.
  destruct 1;
    eauto using path_ok_trans, push_load_ok, branch_load_ok, branch_spurious_ok,
      explore_state_ok, critical_ok, skip_branch_ok.
Qed.

Lemma exec_micro_path_ok e me m :
  path_ok (e_path e)
          (e_path (match exec_micro e me m with MOk e' => e' | MFail e' _ => e' end)).
Proof. exact (exec_micro_path_rel path_ok path_ok_refl schedule_path_ok pcall_ok e me m). Qed.

(* ---- Scheduler::run, one iteration ---- *)
Lemma run_path_ok fuel e : path_ok (e_path e) (e_path (fst (run fuel e))).
Proof.
  exact (run_path_rel path_ok path_ok_refl path_ok_trans schedule_path_ok pcall_ok fuel e).
Qed.

Lemma iteration_fst fuel p pa : fst (iteration fuel p pa) = fst (run fuel (init_exec p pa)).
Proof.
  unfold iteration. destruct (run fuel (init_exec p pa)) as [e r].
  destruct r; try reflexivity.
  destruct (check_for_leaks (e_objects e)); reflexivity.
Qed.

Lemma init_exec_path p pa : e_path (init_exec p pa) = pa.
Proof. reflexivity. Qed.

Theorem iteration_path_ok fuel p pa : path_ok pa (e_path (fst (iteration fuel p pa))).
Proof.
  rewrite iteration_fst.
  pose proof (run_path_ok fuel (init_exec p pa)) as H.
  rewrite init_exec_path in H. exact H.
Qed.

Corollary L_iter_ok fuel p : iter_ok (fun pa => e_path (fst (iteration fuel p pa))).
Proof.
  intros pa Hwf. destruct (iteration_path_ok fuel p pa) as (Hext & Hw & _). auto.
Qed.

Corollary L_preemptions_le_bound fuel p pa bd :
  wf_path pa -> c15_inv pa -> bound pa = Some bd ->
  forall s, In (ESched s) (branches (e_path (fst (iteration fuel p pa)))) ->
            preemptions s <= bd.
Proof.
  intros _ Hc Hbd.
  destruct (iteration_path_ok fuel p pa) as (Hext & _ & Hc15).
  apply preemptions_le_bound; [auto|].
  destruct Hext as (Hb & _). congruence.
Qed.

Lemma initial_path_ok c : wf_path (initial_path c) /\ c15_inv (initial_path c).
Proof.
  unfold initial_path, path_new, wf_path, c15_inv. cbn [branches cap length].
  split; [split|]; auto using Nat.le_0_l.
Qed.

(* ================================================================== *)
(* Part D: the leak check (C10)                                        *)
(* ================================================================== *)

Lemma leak_of_spec o :
  leak_of o = None <->
  match o with
  | OAlloc d => d = true
  | OArc s => arc_cnt s = 0
  | OChannel s => ch_cnt s = 0
  | _ => True
  end.
Proof.
  destruct o; cbn [leak_of]; try tauto.
  all: try match goal with
           | |- (if Nat.eqb ?n 0 then _ else _) = None <-> _ =>
               destruct (Nat.eqb_spec n 0); split; intros; congruence
           end.
  all: match goal with |- (if ?d then _ else _) = None <-> _ =>
           destruct d; split; intros; congruence end.
Qed.

Lemma check_for_leaks_from_none i l :
  check_for_leaks_from i l = None <-> Forall (fun o => leak_of o = None) l.
Proof.
  revert i; induction l as [|o t IH]; intros i; cbn [check_for_leaks_from].
  - split; auto.
  - destruct (leak_of o) as [k|] eqn:Hk.
    + split; [discriminate|]. intros H. inversion H; congruence.
    + rewrite IH. split; [auto|]. intros H. inversion H; assumption.
Qed.

Lemma check_for_leaks_none l :
  check_for_leaks l = None <-> Forall (fun o => leak_of o = None) l.
Proof. apply check_for_leaks_from_none. Qed.

Lemma check_for_leaks_from_first b l pn :
  check_for_leaks_from b l = Some pn <->
  exists i o k, pn = PanicLeak k (b + i) /\ nth_error l i = Some o /\ leak_of o = Some k /\
                forall j o', j < i -> nth_error l j = Some o' -> leak_of o' = None.
Proof.
  revert b; induction l as [|h t IH]; intros b; cbn [check_for_leaks_from].
  - split; [discriminate|]. intros (i & o & k & _ & Hn & _). destruct i; discriminate.
  - destruct (leak_of h) as [kh|] eqn:Hh.
    + split.
      * intros H. injection H as <-. exists 0, h, kh.
        rewrite Nat.add_0_r. repeat split; auto. intros j o' Hj. lia.
      * intros (i & o & k & -> & Hn & Hk & Hmin). destruct i as [|i].
        -- cbn [nth_error] in Hn. injection Hn as <-. rewrite Nat.add_0_r. congruence.
        -- specialize (Hmin 0 h (Nat.lt_0_succ i) eq_refl). congruence.
    + rewrite IH. split.
      * intros (i & o & k & -> & Hn & Hk & Hmin). exists (S i), o, k.
        repeat split; auto; [f_equal; lia|].
        intros [|j] o' Hj Hn'; cbn [nth_error] in Hn'.
        -- congruence.
        -- eapply Hmin; [|eassumption]. lia.
      * intros (i & o & k & -> & Hn & Hk & Hmin). destruct i as [|i].
        -- cbn [nth_error] in Hn. congruence.
        -- exists i, o, k. repeat split; auto; [f_equal; lia|].
           intros j o' Hj Hn'. apply (Hmin (S j) o'); [lia|exact Hn'].
Qed.

Lemma check_for_leaks_first l pn :
  check_for_leaks l = Some pn <->
  exists i o k, pn = PanicLeak k i /\ nth_error l i = Some o /\ leak_of o = Some k /\
                forall j o', j < i -> nth_error l j = Some o' -> leak_of o' = None.
Proof. apply (check_for_leaks_from_first 0). Qed.

(* ================================================================== *)
(* list facts used by parts B and C                                    *)
(* ================================================================== *)

Lemma forallb_false_ex (A : Type) (f : A -> bool) (l : list A) :
  forallb f l = false -> exists x, In x l /\ f x = false.
Proof.
  induction l as [|h t IH]; cbn [forallb]; [discriminate|].
  destruct (f h) eqn:Hh; cbn [andb]; intros H.
  - destruct (IH H) as (x & Hx & Hfx). exists x. split; [right; exact Hx|exact Hfx].
  - exists h. split; [left; reflexivity|exact Hh].
Qed.

Definition is_tyield (t : tstat) : bool := tstat_eqb t TYield.

Lemma find_index_activate l :
  find_index is_active l = None ->
  find_index is_active (activate_first_yield l) = find_index is_tyield l.
Proof.
  induction l as [|h t IH]; [reflexivity|].
  cbn [find_index]. destruct (is_active h) eqn:Hh; [discriminate|].
  destruct (find_index is_active t) eqn:Ht; cbn [option_map]; [discriminate|].
  intros _. specialize (IH eq_refl).
  destruct h; cbn [activate_first_yield find_index]; try discriminate Hh;
    try (change (is_active ?x) with false; change (is_tyield ?x) with false; cbv iota;
         rewrite IH; reflexivity).
  reflexivity.
Qed.

Lemma index_list_from_length (A : Type) (l : list A) (k : nat) :
  length (index_list_from k l) = length l.
Proof. revert k; induction l as [|h t IH]; intros k; cbn [index_list_from length]; auto. Qed.

Lemma seed_loop_length ths init : length (seed_loop ths init) = length ths.
Proof.
  revert init; induction ths as [|[i th] rest IH]; intros init; cbn [seed_loop length]; auto.
Qed.

(* ================================================================== *)
(* the choice made on a traversed path                                 *)
(* ================================================================== *)

(* what branch_thread answers when it pushes a new entry: the Active entry of
   the seed, or else its first Yield entry *)
Definition seed_choice (seed : list tstat) : option nat :=
  match find_index is_active seed with
  | Some i => Some i
  | None => find_index is_tyield seed
  end.

Lemma branch_thread_traversed p seed p' t :
  is_traversed p = true -> branch_thread p seed = POk (p', t) -> t = seed_choice seed.
Proof.
  intros Htr H.
  destruct (branch_thread_inv _ _ _ _ H) as [(Hf & _)|(_ & _ & Hlen & _ & _ & _ & ->)];
    [congruence|].
  unfold active_thread_index, pushed_sched, new_threads, seed_choice. cbn [s_threads].
  assert (Hpa : find_index is_active (pad_to MAX_THREADS Disabled seed)
                = find_index is_active seed) by (apply find_index_pad; auto).
  destruct (find_index is_active (pad_to MAX_THREADS Disabled seed)) as [i|] eqn:Hfi.
  - rewrite <- Hpa. exact Hfi.
  - rewrite <- Hpa. rewrite (find_index_activate _ Hfi).
    apply find_index_pad; auto.
Qed.

(* ---- the seed, entry by entry ---- *)
Definition seed_class (th : thread) : tstat :=
  if is_yield th then TYield else if negb (is_runnable th) then Disabled else Skip.

Lemma seed_class_not_active th : seed_class th <> Active.
Proof.
  unfold seed_class. destruct (is_yield th); [discriminate|].
  destruct (negb (is_runnable th)); discriminate.
Qed.

Lemma seed_loop_Some l k j :
  seed_loop (index_list_from k l) (Some j)
  = mapi_from k (fun i th => if Nat.eqb j i then Active else seed_class th) l.
Proof.
  revert k; induction l as [|h t IH]; intros k; cbn [index_list_from seed_loop mapi_from];
    [reflexivity|].
  rewrite IH. reflexivity.
Qed.

Lemma seed_loop_no_runnable l k :
  Forall (fun t => is_runnable t = false) l ->
  seed_loop (index_list_from k l) None = map seed_class l.
Proof.
  intros H. revert k. induction H as [|h t Hh Ht IH]; intros k;
    cbn [index_list_from seed_loop map]; [reflexivity|].
  fold (seed_class h). rewrite Hh. cbn [opt_nat_eqb]. rewrite IH. reflexivity.
Qed.

(* ---- pick_initial ---- *)
Lemma pick_initial_Some all l k init j :
  pick_initial all (index_list_from k l) init = Some j ->
  init = Some j \/
  exists th, k <= j /\ nth_error l (j - k) = Some th /\ is_runnable th = true.
Proof.
  revert k init; induction l as [|h t IH]; intros k init H;
    cbn [index_list_from pick_initial] in H.
  - left; exact H.
  - assert (Htail : forall init', pick_initial all (index_list_from (S k) t) init' = Some j ->
                      init' = Some j \/
                      exists th, k <= j /\ nth_error (h :: t) (j - k) = Some th /\
                                 is_runnable th = true).
    { intros init' H'. destruct (IH _ _ H') as [Hi|(th & Hle & Hn & Hr)]; [left; exact Hi|].
      right. exists th. split; [lia|]. split; [|exact Hr].
      replace (j - k) with (S (j - S k)) by lia. exact Hn. }
    destruct (is_runnable h) eqn:Hr; cbn [negb] in H.
    + destruct init as [j0|].
      * destruct (Htail _ H) as [Hi|Hx]; [|right; exact Hx].
        destruct (Nat.ltb _ _); [|left; exact Hi].
        injection Hi as <-. right. exists h. rewrite Nat.sub_diag. auto.
      * destruct (Htail _ H) as [Hi|Hx]; [|right; exact Hx].
        injection Hi as <-. right. exists h. rewrite Nat.sub_diag. auto.
    + destruct (Htail _ H) as [Hi|Hx]; [left; exact Hi|right; exact Hx].
Qed.

Lemma pick_initial_None all l k init :
  pick_initial all (index_list_from k l) init = None ->
  init = None /\ Forall (fun t => is_runnable t = false) l.
Proof.
  revert k init; induction l as [|h t IH]; intros k init H;
    cbn [index_list_from pick_initial] in H.
  - split; [exact H|constructor].
  - destruct (is_runnable h) eqn:Hr; cbn [negb] in H.
    + destruct init as [j0|].
      * destruct (IH _ _ H) as [Hi _]. destruct (Nat.ltb _ _); discriminate.
      * destruct (IH _ _ H) as [Hi _]. discriminate.
    + destruct (IH _ _ H) as [Hi Ht]. split; [exact Hi|]. constructor; assumption.
Qed.

Lemma sched_initial_runnable l curr cur_th j :
  nth_error l curr = Some cur_th -> sched_initial l curr cur_th = Some j ->
  exists th, nth_error l j = Some th /\ is_runnable th = true.
Proof.
  intros Hc. unfold sched_initial. destruct (is_runnable cur_th) eqn:Hr.
  - intros H. injection H as <-. eauto.
  - intros H. destruct (pick_initial_Some _ _ _ _ _ H) as [Hi|(th & _ & Hn & Hth)];
      [discriminate|].
    rewrite Nat.sub_0_r in Hn. eauto.
Qed.

Lemma sched_initial_None l curr cur_th :
  sched_initial l curr cur_th = None -> Forall (fun t => is_runnable t = false) l.
Proof.
  unfold sched_initial. destruct (is_runnable cur_th); [discriminate|].
  intros H. apply (pick_initial_None _ _ _ _ H).
Qed.

Lemma runnable_not_yield th : is_runnable th = true -> is_yield th = false.
Proof. unfold is_runnable, is_yield. destruct (t_state th); congruence. Qed.

Lemma sched_seed_nth l curr cur_th n :
  nth_error (sched_seed l curr cur_th) n =
  option_map (fun th => if opt_nat_eqb (sched_initial l curr cur_th) (Some n) then Active
                        else seed_class th) (nth_error l n).
Proof.
  unfold sched_seed, index_list. destruct (sched_initial l curr cur_th) as [j|] eqn:Hi.
  - rewrite seed_loop_Some, nth_error_mapi_from. reflexivity.
  - rewrite (seed_loop_no_runnable _ _ (sched_initial_None _ _ _ Hi)), nth_error_map.
    reflexivity.
Qed.

Lemma sched_seed_Active l curr cur_th n :
  nth_error (sched_seed l curr cur_th) n = Some Active <->
  sched_initial l curr cur_th = Some n /\ n < length l.
Proof.
  rewrite sched_seed_nth. destruct (nth_error l n) as [th|] eqn:Hn; cbn [option_map].
  - assert (Hlt : n < length l) by (apply nth_error_Some; congruence).
    destruct (opt_nat_eqb (sched_initial l curr cur_th) (Some n)) eqn:E.
    + apply opt_nat_eqb_eq in E. tauto.
    + split.
      * intros H. injection H as H. destruct (seed_class_not_active _ H).
      * intros [Hi _]. rewrite Hi, opt_nat_eqb_refl in E. discriminate.
  - apply nth_error_None in Hn. split; [discriminate|lia].
Qed.

(* the chosen thread is runnable or yielded *)
Lemma seed_choice_sound l curr cur_th nx :
  nth_error l curr = Some cur_th ->
  seed_choice (sched_seed l curr cur_th) = Some nx ->
  exists th, nth_error l nx = Some th /\ is_runnable th || is_yield th = true.
Proof.
  intros Hc Hch. unfold seed_choice in Hch.
  destruct (find_index is_active (sched_seed l curr cur_th)) as [i|] eqn:Hfa.
  - injection Hch as ->. apply (find_index_tstat Active), sched_seed_Active in Hfa.
    destruct (sched_initial_runnable _ _ _ _ Hc (proj1 Hfa)) as (th & Hth & Hr).
    exists th. rewrite Hr. auto.
  - pose proof (find_index_tstat TYield _ _ Hch) as Hst. rewrite sched_seed_nth in Hst.
    destruct (nth_error l nx) as [th|]; [|discriminate]. cbn [option_map] in Hst.
    exists th. split; [reflexivity|].
    destruct (opt_nat_eqb _ _); [discriminate|]. injection Hst as Hty.
    unfold seed_class in Hty. destruct (is_yield th); [apply orb_true_r|].
    destruct (negb (is_runnable th)); discriminate.
Qed.

(* whenever a runnable thread exists, the seed has exactly one Active entry,
   it is a runnable (hence not a Yielded) thread, and it is the one chosen *)
Lemma yielder_not_first l curr cur_th :
  nth_error l curr = Some cur_th ->
  (exists th, In th l /\ is_runnable th = true) ->
  exists j th,
    sched_initial l curr cur_th = Some j /\
    nth_error l j = Some th /\ is_runnable th = true /\ is_yield th = false /\
    nth_error (sched_seed l curr cur_th) j = Some Active /\
    (forall n, nth_error (sched_seed l curr cur_th) n = Some Active -> n = j) /\
    seed_choice (sched_seed l curr cur_th) = Some j.
Proof.
  intros Hc (thr & Hin & Hrun).
  destruct (sched_initial l curr cur_th) as [j|] eqn:Hi.
  2:{ apply sched_initial_None in Hi. rewrite Forall_forall in Hi.
      specialize (Hi _ Hin). congruence. }
  destruct (sched_initial_runnable _ _ _ _ Hc Hi) as (th & Hth & Hr).
  assert (Hact : nth_error (sched_seed l curr cur_th) j = Some Active).
  { apply sched_seed_Active. split; [exact Hi|]. apply nth_error_Some. congruence. }
  assert (Huniq : forall n, nth_error (sched_seed l curr cur_th) n = Some Active -> n = j).
  { intros n Hn. apply sched_seed_Active in Hn. destruct Hn as [Hn _]. congruence. }
  exists j, th. repeat split; auto using runnable_not_yield.
  unfold seed_choice.
  destruct (find_index is_active (sched_seed l curr cur_th)) as [i|] eqn:Hfa.
  - f_equal. apply Huniq, (find_index_tstat Active), Hfa.
  - discriminate (find_index_None _ _ _ _ _ Hfa Hact).
Qed.

(* no choice at all: no thread is runnable or yielded *)
Lemma seed_choice_None l curr cur_th :
  nth_error l curr = Some cur_th ->
  seed_choice (sched_seed l curr cur_th) = None ->
  Forall (fun t => is_runnable t = false /\ is_yield t = false) l.
Proof.
  intros Hc Hch.
  assert (Hnr : Forall (fun t => is_runnable t = false) l).
  { rewrite Forall_forall. intros th Hin.
    destruct (is_runnable th) eqn:Hr; [|reflexivity].
    destruct (yielder_not_first l curr cur_th Hc) as (j & _ & _ & _ & _ & _ & _ & _ & Hj);
      [eauto|congruence]. }
  unfold seed_choice in Hch.
  destruct (find_index is_active (sched_seed l curr cur_th)) eqn:Hfa; [discriminate|].
  rewrite Forall_forall in *. intros th Hin. split; [auto|].
  destruct (In_nth_error _ _ Hin) as (n & Hn).
  pose proof (sched_seed_nth l curr cur_th n) as Hst. rewrite Hn in Hst. cbn [option_map] in Hst.
  pose proof (find_index_None _ _ _ _ _ Hfa Hst) as Hfa'.
  pose proof (find_index_None _ _ _ _ _ Hch Hst) as Hch'.
  destruct (opt_nat_eqb _ _); [discriminate Hfa'|].
  unfold seed_class in Hch'. destruct (is_yield th); [discriminate|reflexivity].
Qed.

(* ================================================================== *)
(* schedule: inversion of its two interesting outcomes                 *)
(* ================================================================== *)

Lemma sched_prefix_choice e curr cur_th p1 p2 next :
  sched_prefix e curr cur_th p1 p2 next -> is_traversed (e_path e) = true ->
  next = seed_choice (sched_seed (e_threads e) curr cur_th).
Proof.
  intros (_ & _ & Hd & Hb) Htr.
  eapply branch_thread_traversed; [|eassumption].
  rewrite (dpor_loop_traversed _ _ _ _ Hd). exact Htr.
Qed.

Lemma sched_note_nth e nx pid th i t :
  nth_error (e_threads e) i = Some t ->
  exists t', nth_error (e_threads (sched_note e nx pid th)) i = Some t' /\
             t_state t' = t_state t /\ (i <> nx -> t' = t).
Proof.
  intros Ht. destruct (sched_note_cases e nx pid th) as [->|(dv & j & g & ->)]; [eauto|].
  change (e_threads (upd_object (upd_thread e nx (fun t => th_set_dpor t dv)) j _))
    with (list_upd (e_threads e) nx (fun t => th_set_dpor t dv)).
  destruct (Nat.eq_dec i nx) as [->|Hne].
  - rewrite nth_error_list_upd_same, Ht. cbn [option_map].
    eexists. split; [reflexivity|]. split; [reflexivity|congruence].
  - rewrite nth_error_list_upd_other by auto. eauto.
Qed.

(* schedule fails with a deadlock *)
Lemma schedule_deadlock_inv e e' st :
  fst (schedule e) = MFail e' (PanicDeadlock st) ->
  exists curr cur_th p1 p2,
    sched_prefix e curr cur_th p1 p2 None /\
    e' = sched_base e p2 None /\
    forallb is_terminated (e_threads e) = false /\
    st = map t_state (e_threads e).
Proof.
  intros H.
  destruct (schedule_cases e)
    as [(c & Hs)|[(x & Hs)|[(p1 & x & Hd & Hs)|(curr & cur_th & p1 & p2 & next & Hp & Hs)]]];
    rewrite Hs in H; try discriminate H.
  unfold sched_post in H. destruct next as [nx|].
  - destruct (nth_error _ _); discriminate H.
  - change (e_threads (sched_base e p2 None)) with (e_threads e) in H.
    destruct (forallb is_terminated (e_threads e)) eqn:Hall; [discriminate H|].
    cbn [fst] in H. injection H as <- <-.
    exists curr, cur_th, p1, p2. auto.
Qed.

(* schedule succeeds *)
Lemma schedule_ok_inv e e' :
  fst (schedule e) = MOk e' ->
  exists curr cur_th p1 p2 next,
    sched_prefix e curr cur_th p1 p2 next /\
    e_active e' = next /\ e_path e' = p2 /\
    match next with
    | None => e' = sched_base e p2 None /\ forallb is_terminated (e_threads e) = true
    | Some nx =>
        exists nth_,
          nth_error (e_threads e) nx = Some nth_ /\
          e_threads e' =
            reactivate nx (e_threads (sched_note (sched_base e p2 next) nx (pos p1) nth_))
    end.
Proof.
  intros H.
  destruct (schedule_cases e)
    as [(c & Hs)|[(x & Hs)|[(p1 & x & Hd & Hs)|(curr & cur_th & p1 & p2 & next & Hp & Hs)]]];
    rewrite Hs in H; try discriminate H.
  exists curr, cur_th, p1, p2, next. split; [exact Hp|].
  unfold sched_post in H. destruct next as [nx|].
  - change (e_threads (sched_base e p2 (Some nx))) with (e_threads e) in H.
    destruct (nth_error (e_threads e) nx) as [nth_|] eqn:Hn; [|discriminate H].
    cbn [fst] in H. injection H as <-.
    split; [apply sched_note_active|]. split; [apply sched_note_path|].
    exists nth_. split; reflexivity.
  - change (e_threads (sched_base e p2 None)) with (e_threads e) in H.
    destruct (forallb is_terminated (e_threads e)) eqn:Hall; [|discriminate H].
    cbn [fst] in H. injection H as <-. repeat split; reflexivity.
Qed.

(* ================================================================== *)
(* Part B: deadlock detection (C05)                                    *)
(* ================================================================== *)

Lemma schedule_deadlock_iff e e' st :
  fst (schedule e) = MFail e' (PanicDeadlock st) ->
  (exists t, In t (e_threads e') /\ is_terminated t = false) /\
  e_active e' = None /\
  st = map t_state (e_threads e').
Proof.
  intros H.
  destruct (schedule_deadlock_inv _ _ _ H) as (curr & cur_th & p1 & p2 & _ & -> & Hall & ->).
  split; [|split; reflexivity].
  apply forallb_false_ex in Hall. exact Hall.
Qed.

(* the verdict is right: on a traversed path, a deadlock is reported only when
   no thread is runnable or yielded (the state of the threads is the one before
   the call: up to the verdict, schedule changes only the path) *)
Lemma schedule_no_runnable e e' st :
  fst (schedule e) = MFail e' (PanicDeadlock st) ->
  is_traversed (e_path e) = true ->
  e_threads e' = e_threads e /\
  Forall (fun t => is_runnable t = false /\ is_yield t = false) (e_threads e).
Proof.
  intros H Htr.
  destruct (schedule_deadlock_inv _ _ _ H) as (curr & cur_th & p1 & p2 & Hp & -> & _ & _).
  split; [reflexivity|].
  pose proof (sched_prefix_choice _ _ _ _ _ _ Hp Htr) as Hch.
  destruct Hp as (_ & Hc & _ & _).
  eapply seed_choice_None; [exact Hc|]. symmetry. exact Hch.
Qed.

(* conversely, on a traversed path the chosen thread was runnable or yielded *)
Lemma schedule_picks_runnable e e' nx :
  fst (schedule e) = MOk e' -> e_active e' = Some nx ->
  is_traversed (e_path e) = true ->
  exists th, nth_error (e_threads e) nx = Some th /\ is_runnable th || is_yield th = true.
Proof.
  intros H Hact Htr.
  destruct (schedule_ok_inv _ _ H) as (curr & cur_th & p1 & p2 & next & Hp & Hnext & _).
  pose proof (sched_prefix_choice _ _ _ _ _ _ Hp Htr) as Hch.
  destruct Hp as (_ & Hc & _ & _).
  eapply seed_choice_sound; [exact Hc|]. congruence.
Qed.

(* a successful schedule that chooses nobody: every thread is terminated *)
Lemma schedule_done e e' :
  fst (schedule e) = MOk e' -> e_active e' = None ->
  e_threads e' = e_threads e /\ Forall (fun t => is_terminated t = true) (e_threads e).
Proof.
  intros H Hact.
  destruct (schedule_ok_inv _ _ H) as (curr & cur_th & p1 & p2 & next & _ & Hnext & _ & Hn).
  destruct next as [nx|]; [congruence|]. destruct Hn as [-> Hall].
  split; [reflexivity|]. rewrite Forall_forall. apply forallb_forall. exact Hall.
Qed.

(* ================================================================== *)
(* Part C: yield (C18)                                                 *)
(* ================================================================== *)

(* [yielder_not_first] is above (it is used for [seed_choice_None]). At the
   level of schedule: if the current thread has yielded and some thread is
   runnable, a runnable thread (hence another one) is chosen *)
Lemma schedule_yielder_not_chosen e e' curr cur_th :
  fst (schedule e) = MOk e' ->
  is_traversed (e_path e) = true ->
  e_active e = Some curr -> nth_error (e_threads e) curr = Some cur_th ->
  is_yield cur_th = true ->
  (exists th, In th (e_threads e) /\ is_runnable th = true) ->
  exists nx th,
    e_active e' = Some nx /\ nx <> curr /\
    nth_error (e_threads e) nx = Some th /\ is_runnable th = true.
Proof.
  intros H Htr Ha Hc Hy Hex.
  destruct (schedule_ok_inv _ _ H) as (curr' & cur_th' & p1 & p2 & next & Hp & Hnext & _).
  pose proof (sched_prefix_choice _ _ _ _ _ _ Hp Htr) as Hch.
  destruct Hp as (Ha' & Hc' & _ & _).
  assert (curr' = curr) by congruence. subst curr'.
  assert (cur_th' = cur_th) by congruence. subst cur_th'.
  destruct (yielder_not_first _ _ _ Hc Hex) as (j & th & _ & Hth & Hr & Hny & _ & _ & Hj).
  exists j, th. split; [congruence|]. split; [|auto].
  intros ->. congruence.
Qed.

Lemma nth_error_reactivate nx l i :
  nth_error (reactivate nx l) i =
  option_map (fun th => if is_yield th && negb (Nat.eqb i nx) then set_runnable th else th)
             (nth_error l i).
Proof. unfold reactivate, mapi. rewrite nth_error_mapi_from. reflexivity. Qed.

(* every thread that was Yielded and is not the chosen one is Runnable again *)
Lemma yield_reactivated e e' i th :
  fst (schedule e) = MOk e' ->
  nth_error (e_threads e) i = Some th -> is_yield th = true ->
  e_active e' <> Some i ->
  nth_error (e_threads e') i = Some (set_runnable th) /\
  t_state (set_runnable th) = Runnable.
Proof.
  intros H Hth Hy Hne. split; [|reflexivity].
  destruct (schedule_ok_inv _ _ H) as (curr & cur_th & p1 & p2 & next & _ & Hnext & _ & Hn).
  destruct next as [nx|].
  - destruct Hn as (nth_ & _ & ->).
    assert (Hi : i <> nx) by congruence.
    rewrite nth_error_reactivate.
    destruct (sched_note_nth (sched_base e p2 (Some nx)) nx (pos p1) nth_ i th Hth)
      as (t' & -> & _ & Heq).
    rewrite (Heq Hi). cbn [option_map]. rewrite Hy.
    apply Nat.eqb_neq in Hi. rewrite Hi. reflexivity.
  - destruct Hn as [_ Hall]. exfalso.
    rewrite forallb_forall in Hall. specialize (Hall _ (nth_error_In _ _ Hth)).
    unfold is_terminated in Hall. unfold is_yield in Hy. destruct (t_state th); discriminate.
Qed.

(* the other threads keep their state *)
Lemma schedule_keeps_state e e' i th :
  fst (schedule e) = MOk e' ->
  nth_error (e_threads e) i = Some th -> is_yield th = false ->
  exists th', nth_error (e_threads e') i = Some th' /\ t_state th' = t_state th.
Proof.
  intros H Hth Hy.
  destruct (schedule_ok_inv _ _ H) as (curr & cur_th & p1 & p2 & next & _ & Hnext & _ & Hn).
  destruct next as [nx|].
  - destruct Hn as (nth_ & Hnx & ->). rewrite nth_error_reactivate.
    destruct (sched_note_nth (sched_base e p2 (Some nx)) nx (pos p1) nth_ i th Hth)
      as (t' & -> & Hst & _).
    cbn [option_map].
    assert (Hy' : is_yield t' = false) by (unfold is_yield in *; rewrite Hst; exact Hy).
    rewrite Hy'. cbn [andb]. eauto.
  - destruct Hn as [-> _]. eauto.
Qed.

Print Assumptions iteration_path_ok.
Print Assumptions L_iter_ok.
Print Assumptions L_preemptions_le_bound.
Print Assumptions schedule_deadlock_iff.
Print Assumptions check_for_leaks_first.
