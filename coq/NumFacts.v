(** * NumFacts: loom atomics compute the same values as std atomics (C12). *)

From Coq Require Import ZArith List Bool Lia ZifyBool.
From LV Require Import Num.
Import ListNotations.
Open Scope Z_scope.

(** [lia] knows the defining equations of [/] and [mod]. *)
Ltac Zify.zify_post_hook ::= Z.div_mod_to_equations.

(** ** Generic bit-level facts *)

Lemma mod_land b x y : 0 <= b ->
  Z.land (x mod 2 ^ b) (y mod 2 ^ b) = Z.land x y mod 2 ^ b.
Proof.
  intros Hb. apply Z.bits_inj'; intros n _.
  rewrite Z.land_spec, !Z.testbit_mod_pow2, Z.land_spec by assumption.
  destruct (n <? b); reflexivity.
Qed.

Lemma mod_lor b x y : 0 <= b ->
  Z.lor (x mod 2 ^ b) (y mod 2 ^ b) = Z.lor x y mod 2 ^ b.
Proof.
  intros Hb. apply Z.bits_inj'; intros n _.
  rewrite Z.lor_spec, !Z.testbit_mod_pow2, Z.lor_spec by assumption.
  destruct (n <? b); reflexivity.
Qed.

Lemma mod_lxor b x y : 0 <= b ->
  Z.lxor (x mod 2 ^ b) (y mod 2 ^ b) = Z.lxor x y mod 2 ^ b.
Proof.
  intros Hb. apply Z.bits_inj'; intros n _.
  rewrite Z.lxor_spec, !Z.testbit_mod_pow2, Z.lxor_spec by assumption.
  destruct (n <? b); reflexivity.
Qed.

(** [x] fits in [k+1] signed bits iff everything above bit [k] is the sign. *)
Lemma srange_shiftr k x : 0 <= k ->
  (- 2 ^ k <= x < 2 ^ k) <-> (Z.shiftr x k = 0 \/ Z.shiftr x k = -1).
Proof.
  intros Hk. rewrite Z.shiftr_div_pow2 by assumption.
  assert (Hp : 0 < 2 ^ k) by (apply Z.pow_pos_nonneg; lia).
  generalize dependent (2 ^ k). intros p Hp.
  split.
  - intros R. assert (-2 < x / p < 1) by nia. lia.
  - lia.
Qed.

Lemma srange_land k x y : 0 <= k ->
  - 2 ^ k <= x < 2 ^ k -> - 2 ^ k <= y < 2 ^ k -> - 2 ^ k <= Z.land x y < 2 ^ k.
Proof.
  intros Hk Hx Hy. rewrite srange_shiftr in * by assumption.
  rewrite Z.shiftr_land.
  destruct Hx as [-> | ->], Hy as [-> | ->]; auto.
Qed.

Lemma srange_lor k x y : 0 <= k ->
  - 2 ^ k <= x < 2 ^ k -> - 2 ^ k <= y < 2 ^ k -> - 2 ^ k <= Z.lor x y < 2 ^ k.
Proof.
  intros Hk Hx Hy. rewrite srange_shiftr in * by assumption.
  rewrite Z.shiftr_lor.
  destruct Hx as [-> | ->], Hy as [-> | ->]; auto.
Qed.

Lemma srange_lxor k x y : 0 <= k ->
  - 2 ^ k <= x < 2 ^ k -> - 2 ^ k <= y < 2 ^ k -> - 2 ^ k <= Z.lxor x y < 2 ^ k.
Proof.
  intros Hk Hx Hy. rewrite srange_shiftr in * by assumption.
  rewrite Z.shiftr_lxor.
  destruct Hx as [-> | ->], Hy as [-> | ->]; auto.
Qed.

(** ** Arithmetic modulo a power of two *)

Lemma reinterp_mod h p y : 0 < h /\ p = 2 * h ->
  (if h <=? y mod p then y mod p - p else y mod p) = (y + h) mod p - h.
Proof.
  intros [Hh Hp]. destruct (Z.leb_spec h (y mod p)).
  - rewrite <- (Z.mod_unique (y + h) p (y / p + 1) (y mod p - h)); lia.
  - rewrite <- (Z.mod_unique (y + h) p (y / p) (y mod p + h)); lia.
Qed.

Lemma lnot_mod p y : 0 < p -> p - 1 - y mod p = Z.lnot y mod p.
Proof.
  intros Hp. apply Z.mod_unique with (q := - (y / p) - 1).
  - lia.
  - unfold Z.lnot. lia.
Qed.

(** ** Ranges *)

Lemma in_range_spec t x : in_range t x = true <-> lo t <= x < hi t.
Proof. unfold in_range. lia. Qed.

Lemma bits_pos t : 0 < bits t.
Proof. destruct t; reflexivity. Qed.

Lemma bits_half t : 0 < 2 ^ (bits t - 1) /\ 2 ^ bits t = 2 * 2 ^ (bits t - 1).
Proof.
  pose proof (bits_pos t). split.
  - apply Z.pow_pos_nonneg; lia.
  - rewrite <- Z.pow_succ_r by lia. f_equal. lia.
Qed.

Lemma urange_mod t x : signed t = false -> (lo t <= x < hi t <-> x mod 2 ^ bits t = x).
Proof.
  intros S. unfold lo, hi. rewrite S.
  pose proof (bits_half t).
  split.
  - intros. apply Z.mod_small; assumption.
  - intros <-. lia.
Qed.

(** Signed ranges are closed under the bitwise operators because the
    operators act on the sign; unsigned ranges because the operators commute
    with [mod 2^bits]. *)
Lemma range_bitwise t x y :
  lo t <= x < hi t -> lo t <= y < hi t ->
  lo t <= Z.land x y < hi t /\ lo t <= Z.lor x y < hi t /\ lo t <= Z.lxor x y < hi t.
Proof.
  intros Hx Hy. pose proof (bits_pos t) as Hb.
  destruct (signed t) eqn:S.
  - unfold lo, hi in *. rewrite S in *.
    repeat split;
      first [ apply srange_land | apply srange_lor | apply srange_lxor ]; lia.
  - rewrite !urange_mod in * by assumption.
    rewrite <- mod_land, <- mod_lor, <- mod_lxor by lia.
    rewrite Hx, Hy. auto.
Qed.

Lemma bool_range x : lo TBool <= x < hi TBool -> x = 0 \/ x = 1.
Proof. cbn. lia. Qed.

(** ** wrapping *)

(** Truncating to the bit pattern and reading it back is [wrap]. *)
Lemma reinterp_pat t y : reinterp t (pat t y) = wrap t y.
Proof.
  unfold reinterp, pat, wrap. destruct (signed t); cbn [andb].
  - apply reinterp_mod, bits_half.
  - reflexivity.
Qed.

Lemma wrap_range t y : lo t <= wrap t y < hi t.
Proof.
  unfold wrap, lo, hi. pose proof (bits_half t).
  destruct (signed t); lia.
Qed.

Lemma wrap_id t y : lo t <= y < hi t -> wrap t y = y.
Proof.
  unfold wrap, lo, hi. pose proof (bits_half t).
  destruct (signed t); intros R; rewrite Z.mod_small; lia.
Qed.

Lemma pat_add t x v : (pat t x + pat t v) mod 2 ^ bits t = pat t (x + v).
Proof.
  symmetry. apply Zplus_mod.
Qed.

Lemma pat_sub t x v : (pat t x - pat t v) mod 2 ^ bits t = pat t (x - v).
Proof.
  symmetry. apply Zminus_mod.
Qed.

Lemma pat_lnot t y : 2 ^ bits t - 1 - pat t y = pat t (Z.lnot y).
Proof.
  unfold pat. apply lnot_mod.
  pose proof (bits_half t). lia.
Qed.

Lemma pat_u64 t x : pat t (x mod 2 ^ 64) = pat t x.
Proof.
  symmetry. pose proof (bits_half t). apply Znumtheory.Zmod_div_mod; try lia.
  exists (2 ^ (64 - bits t)). destruct t; reflexivity.
Qed.

Lemma reinterp_pat_id t y : lo t <= y < hi t -> reinterp t (pat t y) = y.
Proof.
  intros R. rewrite reinterp_pat. apply wrap_id. assumption.
Qed.

(** ** Encoding round trip *)

Theorem num_roundtrip : forall t x, in_range t x = true -> from_u64 t (into_u64 t x) = x.
Proof.
  intros t x H. apply in_range_spec in H.
  assert (Int : reinterp t (pat t (x mod 2 ^ 64)) = x).
  { rewrite pat_u64. apply reinterp_pat_id. assumption. }
  destruct t; try exact Int.
  (* TBool *)
  apply bool_range in H. destruct H as [-> | ->]; reflexivity.
Qed.

(** ** The closures agree *)

Lemma closure_matches t f x v :
  in_range t x = true -> in_range t v = true -> rmw_allowed t f = true ->
  loom_closure t f x v = std_rmw t f x v.
Proof.
  intros Hx Hv Hf. apply in_range_spec in Hx, Hv.
  pose proof (Z.lt_le_incl _ _ (bits_pos t)) as Hb.
  pose proof (range_bitwise t x v Hx Hv) as (Hand & Hor & Hxor).
  assert (Int : forall g,
    match g with
    | FAdd => reinterp t ((pat t x + pat t v) mod 2 ^ bits t)
    | FSub => reinterp t ((pat t x - pat t v) mod 2 ^ bits t)
    | FAnd => reinterp t (Z.land (pat t x) (pat t v))
    | FNand => reinterp t (2 ^ bits t - 1 - Z.land (pat t x) (pat t v))
    | FOr => reinterp t (Z.lor (pat t x) (pat t v))
    | FXor => reinterp t (Z.lxor (pat t x) (pat t v))
    | FMax => if x <? v then v else x
    | FMin => if v <? x then v else x
    end =
    match g with
    | FAdd => wrap t (x + v)
    | FSub => wrap t (x - v)
    | FAnd => Z.land x v
    | FNand => wrap t (Z.lnot (Z.land x v))
    | FOr => Z.lor x v
    | FXor => Z.lxor x v
    | FMax => Z.max x v
    | FMin => Z.min x v
    end).
  { intros g. destruct g.
    - rewrite pat_add. apply reinterp_pat.
    - rewrite pat_sub. apply reinterp_pat.
    - unfold pat. rewrite mod_land by assumption. apply reinterp_pat_id. assumption.
    - unfold pat. rewrite mod_land by assumption.
      fold (pat t (Z.land x v)). rewrite pat_lnot. apply reinterp_pat.
    - unfold pat. rewrite mod_lor by assumption. apply reinterp_pat_id. assumption.
    - unfold pat. rewrite mod_lxor by assumption. apply reinterp_pat_id. assumption.
    - destruct (Z.ltb_spec x v); lia.
    - destruct (Z.ltb_spec v x); lia. }
  destruct t; try apply Int; try discriminate Hf.
  (* TBool *)
  apply bool_range in Hx, Hv.
  destruct f; try discriminate Hf;
    destruct Hx as [-> | ->], Hv as [-> | ->]; reflexivity.
Qed.

Lemma std_rmw_in_range t f x v :
  in_range t x = true -> in_range t v = true -> rmw_allowed t f = true ->
  in_range t (std_rmw t f x v) = true.
Proof.
  intros Hx Hv Hf. apply in_range_spec in Hx, Hv.
  pose proof (range_bitwise t x v Hx Hv) as (Hand & Hor & Hxor).
  assert (Int : forall g,
    lo t <= match g with
    | FAdd => wrap t (x + v)
    | FSub => wrap t (x - v)
    | FAnd => Z.land x v
    | FNand => wrap t (Z.lnot (Z.land x v))
    | FOr => Z.lor x v
    | FXor => Z.lxor x v
    | FMax => Z.max x v
    | FMin => Z.min x v
    end < hi t).
  { intros g. destruct g; try apply wrap_range; try assumption; lia. }
  destruct t; try (apply in_range_spec, Int); try discriminate Hf.
  (* TBool *)
  apply bool_range in Hx, Hv.
  destruct f; try discriminate Hf;
    destruct Hx as [-> | ->], Hv as [-> | ->]; reflexivity.
Qed.

(** ** Steps *)

Theorem std_step_in_range : forall t c o,
  in_range t c = true -> op_ok t o = true -> in_range t (fst (std_step t c o)) = true.
Proof.
  intros t c o Hc Ho.
  destruct o; cbv beta iota delta [std_step op_ok fst] in *;
    try assumption;
    apply andb_prop in Ho as [H1 H2];
    try (destruct (c =? e); assumption).
  - apply std_rmw_in_range; assumption.
  - apply std_rmw_in_range; assumption.
Qed.

Theorem loom_step_matches_std : forall t c o,
  in_range t c = true -> op_ok t o = true ->
  let '(u', r) := loom_step t (into_u64 t c) o in
  let '(c', r') := std_step t c o in
  u' = into_u64 t c' /\ r = r'.
Proof.
  intros t c o Hc Ho.
  destruct o; cbv beta iota zeta delta [loom_step std_step op_ok loom_cas loom_rmw] in *;
    rewrite ?(num_roundtrip t c Hc);
    try (split; reflexivity);
    apply andb_prop in Ho as [H1 H2];
    try (destruct (c =? e); split; reflexivity).
  - rewrite closure_matches by assumption. split; reflexivity.
  - rewrite Z.eqb_refl. rewrite closure_matches by assumption. split; reflexivity.
Qed.

(** ** Runs *)

Lemma steps_match t : forall ops c,
  in_range t c = true -> forallb (op_ok t) ops = true ->
  let '(rs, u) := steps (loom_step t) (into_u64 t c) ops in
  let '(rs', c') := steps (std_step t) c ops in
  rs = rs' /\ u = into_u64 t c' /\ in_range t c' = true.
Proof.
  induction ops as [| o ops IH]; intros c Hc Hops.
  - cbn [steps]. auto.
  - cbn [forallb] in Hops. apply andb_prop in Hops as [Ho Hops].
    cbn [steps].
    pose proof (loom_step_matches_std t c o Hc Ho) as M.
    pose proof (std_step_in_range t c o Hc Ho) as R.
    destruct (loom_step t (into_u64 t c) o) as [u1 r1].
    destruct (std_step t c o) as [c1 r1'].
    cbn [fst] in R. destruct M as [-> ->].
    specialize (IH c1 R Hops).
    destruct (steps (loom_step t) (into_u64 t c1) ops) as [rs u].
    destruct (steps (std_step t) c1 ops) as [rs' c'].
    destruct IH as (-> & -> & R'). auto.
Qed.

Theorem atomic_matches_std : forall t init ops,
  in_range t init = true -> forallb (op_ok t) ops = true ->
  loom_run t init ops = std_run t init ops.
Proof.
  intros t init ops Hi Hops. unfold loom_run, std_run.
  pose proof (steps_match t ops init Hi Hops) as M.
  destruct (steps (loom_step t) (into_u64 t init) ops) as [rs u].
  destruct (steps (std_step t) init ops) as [rs' c'].
  destruct M as (-> & -> & R).
  rewrite num_roundtrip by assumption. reflexivity.
Qed.

(** ** Boundary cases, computed through the loom encoding *)

(* i8: 127.fetch_add(1) wraps to -128 *)
Example ex_i8_add_overflow :
  loom_run I8 127 [NRmw FAdd 1; NLoad] = ([NRVal 127; NRVal (-128)], -128).
Proof. vm_compute. reflexivity. Qed.

(* i8: -128.fetch_sub(1) wraps to 127; the cell holds the sign extension *)
Example ex_i8_sub_underflow :
  loom_run I8 (-128) [NRmw FSub 1; NRmw FAdd (-128)] = ([NRVal (-128); NRVal 127], -1).
Proof. vm_compute. reflexivity. Qed.

Example ex_i8_cell_sign_extended :
  loom_step I8 (into_u64 I8 0) (NRmw FSub 1) = (18446744073709551615, NRVal 0).
Proof. vm_compute. reflexivity. Qed.

(* u8: 0.fetch_sub(1) = 255, then 255 + 1 = 0 *)
Example ex_u8_sub_underflow :
  loom_run U8 0 [NRmw FSub 1; NRmw FAdd 1; NLoad] = ([NRVal 0; NRVal 255; NRVal 0], 0).
Proof. vm_compute. reflexivity. Qed.

(* i16: !(0x7fff & -1) = -32768 ; !(-32768 & -32768) = 32767 *)
Example ex_i16_nand :
  loom_run I16 32767 [NRmw FNand (-1); NRmw FNand (-32768); NIntoInner]
  = ([NRVal 32767; NRVal (-32768); NRVal 32767], 32767).
Proof. vm_compute. reflexivity. Qed.

(* u16: !(0x00ff & 0x0f0f) = 0xfff0 *)
Example ex_u16_nand :
  loom_run U16 255 [NRmw FNand 3855] = ([NRVal 255], 65520).
Proof. vm_compute. reflexivity. Qed.

(* i32: max/min are signed comparisons, not comparisons of the u64 cells *)
Example ex_i32_max_min_negative :
  loom_run I32 (-5) [NRmw FMax (-7); NRmw FMax (-2); NRmw FMin (-2147483648); NRmw FMax 3]
  = ([NRVal (-5); NRVal (-5); NRVal (-2); NRVal (-2147483648)], 3).
Proof. vm_compute. reflexivity. Qed.

(* i64 / u64 at the 64-bit boundary *)
Example ex_i64_add_overflow :
  loom_run I64 9223372036854775807 [NRmw FAdd 1; NRmw FXor (-1)]
  = ([NRVal 9223372036854775807; NRVal (-9223372036854775808)], 9223372036854775807).
Proof. vm_compute. reflexivity. Qed.

Example ex_u64_add_overflow :
  loom_run U64 18446744073709551615 [NRmw FAdd 2; NRmw FSub 2]
  = ([NRVal 18446744073709551615; NRVal 1], 18446744073709551615).
Proof. vm_compute. reflexivity. Qed.

(* bool: nand, xor *)
Example ex_bool_nand :
  loom_run TBool 1 [NRmw FNand 1; NRmw FNand 1; NRmw FXor 1; NRmw FOr 0; NRmw FAnd 1]
  = ([NRVal 1; NRVal 0; NRVal 1; NRVal 0; NRVal 0], 0).
Proof. vm_compute. reflexivity. Qed.

(* compare_exchange on a negative value; failure leaves the cell alone *)
Example ex_i8_cas :
  loom_run I8 (-1) [NCas 127 0; NCas (-1) (-128); NCasWeak (-1) 5; NCompareAndSwap (-128) 7;
                    NFetchUpdate FAdd 121; NFetchUpdateNone; NWithMut (-3); NUnsyncLoad]
  = ([NRErr (-1); NROk (-1); NRErr (-128); NRVal (-128);
      NROk 7; NRErr (-128); NRVal (-128); NRVal (-3)], -3).
Proof. vm_compute. reflexivity. Qed.

(* the same programs on the std side *)
Example ex_std_agree :
  std_run I8 (-1) [NCas 127 0; NCas (-1) (-128); NCasWeak (-1) 5; NCompareAndSwap (-128) 7;
                   NFetchUpdate FAdd 121; NFetchUpdateNone; NWithMut (-3); NUnsyncLoad]
  = ([NRErr (-1); NROk (-1); NRErr (-128); NRVal (-128);
      NROk 7; NRErr (-128); NRVal (-128); NRVal (-3)], -3).
Proof. vm_compute. reflexivity. Qed.

Print Assumptions num_roundtrip.
Print Assumptions std_step_in_range.
Print Assumptions loom_step_matches_std.
Print Assumptions atomic_matches_std.
