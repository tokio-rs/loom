(* Coherence of the view-based store history of rt/atomic.rs (Atomic.v), for
   ARBITRARY atomic states and any number of threads: no single-thread
   assumption and no invariant (the only side conditions are on the length of
   the ring where the statement talks about the slot written by a store).

   1. Exact characterisation of the candidate lists.
      - [mlts_inner_spec], [mlts_inner_none]: the inner loop of
        match_load_to_stores; [mlts_outer_spec], [mlts_outer_In]: the outer
        loop is a filter.
      - [load_candidates_spec]: when match_load_to_stores returns [Some l], a
        slot i is in l iff it is live and every other live slot j that is
        mo-after i is (a) not yet seen by the loading thread, (b) i has not
        been seen by the loading thread before its last yield and (c) not all
        of load, store i and store j are SeqCst.  [load_candidates_NoDup],
        [load_candidates_sorted] (StronglySorted lt), [load_candidates_none]
        (None = the assertion `mo_i != mo_j` fires = two distinct live slots
        with vv_eqb modification orders).
      - the same for match_rmw_to_stores: [rmw_candidates_spec] (exactly the
        live mo-maximal slots), [rmw_candidates_NoDup], [rmw_candidates_sorted],
        [rmw_candidates_none].
      Both are instances of one generic loop ([g_inner]/[g_outer], defined and
      characterised in AtomicFacts.v: [g_candidates_spec]) parameterised by the
      "blocking" test.

   2. Coherence corollaries: [coherence_write_read] (CoWR/CoRR),
      [mo_maximal_is_candidate], [mo_maximal_exists] (vv_lt is a strict order
      on a finite non-empty set), [candidates_nonempty],
      [rmw_candidates_nonempty], [rmw_candidates_are_load_candidates].

   3. RMW atomicity: [rmw_atomicity_ind] (induction over the passes),
      [rmw_atomicity_grows], [rmw_pass_stable_iff] (a pass
      reports "unchanged" iff mo is closed: [rmw_closed]),
      [rmw_atomicity_fixpoint] (the requested postcondition, spelled out),
      [rmw_atomicity_sufficient_fuel] (length stores <= fuel), and for the
      model's own call in atomic_store_from (fuel S MAX_ATOMIC_HISTORY):
      [atomic_store_from_mo], [store_from_mo_closed], [store_from_mo_ge_caus],
      [store_from_mo_ge_seen], [atomic_store_from_rmw_atomic].

   4. [coherence_example_*]: a concrete two-store state.

   Deviations from the requested statements: none of the requested statements
   is false.  Details that were "up to" this file:
   - "l is increasing" is stated as [StronglySorted lt l].
   - the condition j <> i of the characterisation is kept although it is
     implied by vv_lt (irreflexive); [coherence_write_read] therefore needs no
     hypothesis i <> j.
   - the fixpoint property holds for ANY mo' on which a pass reports
     "unchanged", not only for results of rmw_atomicity, and is an
     equivalence ([rmw_pass_stable_iff]).
   - the model's call needs [length (at_stores s) <= S MAX_ATOMIC_HISTORY]
     for the fuel to suffice (the ring has length MAX_ATOMIC_HISTORY in every
     state the model builds; an arbitrary atomic_state record can carry a
     longer list), and [length (at_stores s) = MAX_ATOMIC_HISTORY] to read
     back the written slot. *)
Require Import LV.Base LV.VV LV.VVFacts LV.Path LV.Prog LV.Objects LV.Atomic LV.AtomicFacts.
From Coq Require Import Lia Sorted.

(* ------------------------------------------------------------------ *)
(* vv_lt is a strict order; relation with vv_le and vv_eqb             *)

Lemma vv_lt_irrefl : forall a, vv_lt a a = false.
Proof.
  intros a. destruct (vv_lt a a) eqn:H; [|reflexivity].
  apply vv_lt_spec in H. destruct H as [_ [i Hi]]. lia.
Qed.

Lemma vv_lt_trans : forall a b c,
  vv_lt a b = true -> vv_lt b c = true -> vv_lt a c = true.
Proof.
  intros a b c Hab Hbc. apply vv_lt_spec in Hab. apply vv_lt_spec in Hbc.
  apply vv_lt_spec. destruct Hab as [Hab [i Hi]]. destruct Hbc as [Hbc _].
  split.
  - eapply vle_trans; [exact Hab | exact Hbc].
  - exists i. specialize (Hbc i). lia.
Qed.

Lemma vv_lt_asym : forall a b, vv_lt a b = true -> vv_lt b a = false.
Proof.
  intros a b Hab. destruct (vv_lt b a) eqn:Hba; [|reflexivity].
  pose proof (vv_lt_trans _ _ _ Hab Hba) as H. rewrite vv_lt_irrefl in H. discriminate.
Qed.

Lemma vv_lt_le : forall a b, vv_lt a b = true -> vv_le a b = true.
Proof.
  intros a b H. apply vv_lt_spec in H. apply vv_le_spec. destruct H as [H _]. exact H.
Qed.

Lemma vv_eqb_not_lt : forall a b, vv_eqb a b = true -> vv_lt a b = false.
Proof.
  intros a b He. destruct (vv_lt a b) eqn:Hl; [|reflexivity].
  apply vv_lt_spec in Hl. destruct Hl as [_ [i Hi]].
  rewrite vv_eqb_spec in He. specialize (He i). lia.
Qed.

Lemma vv_le_trans_b : forall a b c,
  vv_le a b = true -> vle b c -> vv_le a c = true.
Proof.
  intros a b c Hab Hbc. apply vv_le_spec. apply vv_le_spec in Hab.
  eapply vle_trans; [exact Hab | exact Hbc].
Qed.

(* ------------------------------------------------------------------ *)
(* list utilities                                                      *)

Lemma filter_StronglySorted : forall (A : Type) (R : A -> A -> Prop) (p : A -> bool) (l : list A),
  StronglySorted R l -> StronglySorted R (filter p l).
Proof.
  intros A R p l Hs. induction Hs as [|a l Hs IH Hall].
  - constructor.
  - cbn [filter]. destruct (p a).
    + constructor; [exact IH|].
      apply Forall_forall. intros x Hx. apply filter_In in Hx. destruct Hx as [Hx _].
      rewrite Forall_forall in Hall. apply Hall. exact Hx.
    + exact IH.
Qed.

Lemma seq_StronglySorted : forall n a, StronglySorted lt (seq a n).
Proof.
  induction n as [|n IH]; intros a.
  - constructor.
  - cbn [seq]. constructor; [apply IH|].
    apply Forall_forall. intros x Hx. apply in_seq in Hx. lia.
Qed.

Lemma filter_length_mono : forall (A : Type) (p q : A -> bool) (l : list A),
  (forall x, In x l -> q x = true -> p x = true) ->
  length (filter q l) <= length (filter p l).
Proof.
  intros A p q l. induction l as [|a l IH]; intros Himp; [apply le_n|].
  assert (IH' : length (filter q l) <= length (filter p l)).
  { apply IH. intros x Hx. apply Himp. right. exact Hx. }
  cbn [filter]. destruct (q a) eqn:Hq.
  - rewrite (Himp a (or_introl eq_refl) Hq). simpl. lia.
  - destruct (p a); simpl; lia.
Qed.

Lemma filter_length_lt : forall (A : Type) (p q : A -> bool) (l : list A) (w : A),
  (forall x, In x l -> q x = true -> p x = true) ->
  In w l -> p w = true -> q w = false ->
  length (filter q l) < length (filter p l).
Proof.
  intros A p q l w. induction l as [|a l IH]; intros Himp Hin Hp Hq; [contradiction|].
  assert (Himp' : forall x, In x l -> q x = true -> p x = true).
  { intros x Hx. apply Himp. right. exact Hx. }
  cbn [filter]. destruct Hin as [Heq|Hin].
  - subst a. rewrite Hp, Hq. simpl.
    pose proof (filter_length_mono A p q l Himp') as Hm. lia.
  - specialize (IH Himp' Hin Hp Hq).
    destruct (q a) eqn:Hqa.
    + rewrite (Himp a (or_introl eq_refl) Hqa). simpl. lia.
    + destruct (p a); simpl; lia.
Qed.

Lemma filter_length_0 : forall (A : Type) (p : A -> bool) (l : list A),
  length (filter p l) = 0 -> forall x, In x l -> p x = false.
Proof.
  intros A p l. induction l as [|a l IH]; intros Hlen x Hx; [contradiction|].
  cbn [filter] in Hlen. destruct (p a) eqn:Hpa; [simpl in Hlen; discriminate|].
  destruct Hx as [Heq|Hx]; [subst x; exact Hpa | apply IH; assumption].
Qed.

(* a boolean strict order on nat has a maximal element below every n > 0 *)
Lemma maximal_exists : forall (R : nat -> nat -> bool),
  (forall a, R a a = false) ->
  (forall a b c, R a b = true -> R b c = true -> R a c = true) ->
  forall n, 0 < n -> exists m, m < n /\ forall j, j < n -> R m j = false.
Proof.
  intros R Hirr Htr n. induction n as [|n IH]; intros Hpos; [lia|].
  destruct n as [|n].
  - exists 0. split; [lia|]. intros j Hj. replace j with 0 by lia. apply Hirr.
  - destruct (IH ltac:(lia)) as [m [Hm Hmax]].
    destruct (R m (S n)) eqn:Hmn.
    + exists (S n). split; [lia|]. intros j Hj.
      destruct (Nat.eq_dec j (S n)) as [Heq|Hne]; [subst j; apply Hirr|].
      destruct (R (S n) j) eqn:Hnj; [|reflexivity].
      pose proof (Htr _ _ _ Hmn Hnj) as Hmj. rewrite Hmax in Hmj by lia. discriminate.
    + exists m. split; [lia|]. intros j Hj.
      destruct (Nat.eq_dec j (S n)) as [Heq|Hne]; [subst j; exact Hmn|].
      apply Hmax. lia.
Qed.

(* ------------------------------------------------------------------ *)
(* match_load_to_stores and match_rmw_to_stores as instances            *)

Lemma g_candidates_sorted : forall s blk l,
  g_outer s blk (seq 0 MAX_ATOMIC_HISTORY) = Some l -> StronglySorted lt l.
Proof.
  intros s blk l Hr. destruct (g_outer_some _ _ _ Hr) as [Hl _]. subst l.
  apply filter_StronglySorted. apply seq_StronglySorted.
Qed.

Lemma load_blk_false : forall s me caus ly o i j,
  load_blk s me caus ly o i j = false <->
  (is_seen_by_current (st_seen (get_store s j)) caus = false /\
   is_seen_before_yield (st_seen (get_store s i)) me ly = false /\
   (is_seq_cst o && st_seqcst (get_store s i) && st_seqcst (get_store s j)) = false).
Proof.
  intros s me caus ly o i j. unfold load_blk. rewrite !orb_false_iff. tauto.
Qed.

(* ---- the inner loop of a load ---- *)
Theorem mlts_inner_spec : forall s me caus ly o i js b,
  mlts_inner s me caus ly o i js = Some b ->
  (b = true <->
   forall j, In j js -> j <> i -> j < at_cnt s ->
     vv_lt (st_mo (get_store s i)) (st_mo (get_store s j)) = true ->
     (is_seen_by_current (st_seen (get_store s j)) caus = false /\
      is_seen_before_yield (st_seen (get_store s i)) me ly = false /\
      (is_seq_cst o && st_seqcst (get_store s i) && st_seqcst (get_store s j)) = false)).
Proof.
  intros s me caus ly o i js b Hr. rewrite mlts_inner_g in Hr.
  rewrite (g_inner_some _ _ _ _ Hr).
  split; intros H j Hj Hne Hlive Hlt.
  - apply load_blk_false. apply H; assumption.
  - apply load_blk_false. apply H; assumption.
Qed.

Theorem mlts_inner_none : forall s me caus ly o i js,
  mlts_inner s me caus ly o i js = None ->
  exists j, In j js /\ j <> i /\ j < at_cnt s /\
            vv_eqb (st_mo (get_store s i)) (st_mo (get_store s j)) = true.
Proof.
  intros s me caus ly o i js Hr. rewrite mlts_inner_g in Hr.
  apply (g_inner_none _ _ _ _ Hr).
Qed.

(* ---- the outer loop of a load: a filter ---- *)
Theorem mlts_outer_spec : forall s me caus ly o is_ l,
  mlts_outer s me caus ly o is_ = Some l ->
  l = filter (fun i => Nat.ltb i (at_cnt s) &&
                       opt_true (mlts_inner s me caus ly o i (seq 0 MAX_ATOMIC_HISTORY))) is_.
Proof.
  intros s me caus ly o is_ l Hr. rewrite mlts_outer_g in Hr.
  destruct (g_outer_some _ _ _ Hr) as [Hl _]. subst l.
  apply filter_ext. intros i. unfold g_keep. rewrite mlts_inner_g. reflexivity.
Qed.

Theorem mlts_outer_In : forall s me caus ly o is_ l,
  mlts_outer s me caus ly o is_ = Some l ->
  forall i, In i l <->
    (In i is_ /\ i < at_cnt s /\
     mlts_inner s me caus ly o i (seq 0 MAX_ATOMIC_HISTORY) = Some true).
Proof.
  intros s me caus ly o is_ l Hr i. rewrite (mlts_outer_spec _ _ _ _ _ _ _ Hr).
  rewrite filter_In. rewrite andb_true_iff. rewrite Nat.ltb_lt.
  destruct (mlts_inner s me caus ly o i (seq 0 MAX_ATOMIC_HISTORY)) as [[|]|];
    cbn [opt_true]; split; intros [H1 [H2 H3]]; try discriminate; repeat split; assumption.
Qed.

Theorem mlts_outer_none : forall s me caus ly o is_,
  mlts_outer s me caus ly o is_ = None ->
  exists i, In i is_ /\ i < at_cnt s /\
            mlts_inner s me caus ly o i (seq 0 MAX_ATOMIC_HISTORY) = None.
Proof.
  intros s me caus ly o is_ Hr. rewrite mlts_outer_g in Hr.
  destruct (g_outer_none _ _ _ Hr) as [i [Hi [Hl Hin]]].
  exists i. rewrite mlts_inner_g. repeat split; assumption.
Qed.

(* ---- MAIN THEOREM: the candidates of a load ---- *)
Theorem load_candidates_spec : forall s me caus ly o l,
  match_load_to_stores s me caus ly o = Some l ->
  forall i, In i l <->
    (i < MAX_ATOMIC_HISTORY /\ i < at_cnt s /\
     forall j, j < MAX_ATOMIC_HISTORY -> j < at_cnt s -> j <> i ->
       vv_lt (st_mo (get_store s i)) (st_mo (get_store s j)) = true ->
       (is_seen_by_current (st_seen (get_store s j)) caus = false /\
        is_seen_before_yield (st_seen (get_store s i)) me ly = false /\
        (is_seq_cst o && st_seqcst (get_store s i) && st_seqcst (get_store s j)) = false)).
Proof.
  intros s me caus ly o l Hr i. unfold match_load_to_stores in Hr.
  rewrite mlts_outer_g in Hr. rewrite (g_candidates_spec _ _ Hr i).
  split; intros [H7 [Hlive H]]; (split; [exact H7|]); (split; [exact Hlive|]);
    intros j Hj7 Hjl Hne Hlt; apply load_blk_false; apply H; assumption.
Qed.

Theorem load_candidates_NoDup : forall s me caus ly o l,
  match_load_to_stores s me caus ly o = Some l -> NoDup l.
Proof.
  intros s me caus ly o l Hr. unfold match_load_to_stores in Hr.
  rewrite mlts_outer_g in Hr. apply (g_candidates_NoDup _ _ Hr).
Qed.

Theorem load_candidates_sorted : forall s me caus ly o l,
  match_load_to_stores s me caus ly o = Some l -> StronglySorted lt l.
Proof.
  intros s me caus ly o l Hr. unfold match_load_to_stores in Hr.
  rewrite mlts_outer_g in Hr. apply (g_candidates_sorted _ _ _ Hr).
Qed.

(* None: the assertion `mo_i != mo_j` fired for two distinct live slots *)
Theorem load_candidates_none : forall s me caus ly o,
  match_load_to_stores s me caus ly o = None ->
  exists i j, i < MAX_ATOMIC_HISTORY /\ i < at_cnt s /\
              j < MAX_ATOMIC_HISTORY /\ j < at_cnt s /\ i <> j /\
              vv_eqb (st_mo (get_store s i)) (st_mo (get_store s j)) = true.
Proof.
  intros s me caus ly o Hr. unfold match_load_to_stores in Hr.
  rewrite mlts_outer_g in Hr. apply (g_candidates_none _ _ Hr).
Qed.

(* ---- the candidates of an RMW: exactly the live mo-maximal slots ---- *)
Theorem rmw_candidates_spec : forall s l,
  match_rmw_to_stores s = Some l ->
  forall i, In i l <->
    (i < MAX_ATOMIC_HISTORY /\ i < at_cnt s /\
     forall j, j < MAX_ATOMIC_HISTORY -> j < at_cnt s -> j <> i ->
       vv_lt (st_mo (get_store s i)) (st_mo (get_store s j)) = false).
Proof.
  intros s l Hr i. unfold match_rmw_to_stores in Hr.
  rewrite mrts_outer_g in Hr. rewrite (g_candidates_spec _ _ Hr i).
  split; intros [H7 [Hlive H]]; (split; [exact H7|]); (split; [exact Hlive|]).
  - intros j Hj7 Hjl Hne.
    destruct (vv_lt (st_mo (get_store s i)) (st_mo (get_store s j))) eqn:Hlt; [|reflexivity].
    specialize (H j Hj7 Hjl Hne Hlt). discriminate.
  - intros j Hj7 Hjl Hne Hlt. rewrite (H j Hj7 Hjl Hne) in Hlt. discriminate.
Qed.

Theorem rmw_candidates_NoDup : forall s l,
  match_rmw_to_stores s = Some l -> NoDup l.
Proof.
  intros s l Hr. unfold match_rmw_to_stores in Hr.
  rewrite mrts_outer_g in Hr. apply (g_candidates_NoDup _ _ Hr).
Qed.

Theorem rmw_candidates_sorted : forall s l,
  match_rmw_to_stores s = Some l -> StronglySorted lt l.
Proof.
  intros s l Hr. unfold match_rmw_to_stores in Hr.
  rewrite mrts_outer_g in Hr. apply (g_candidates_sorted _ _ _ Hr).
Qed.

Theorem rmw_candidates_none : forall s,
  match_rmw_to_stores s = None ->
  exists i j, i < MAX_ATOMIC_HISTORY /\ i < at_cnt s /\
              j < MAX_ATOMIC_HISTORY /\ j < at_cnt s /\ i <> j /\
              vv_eqb (st_mo (get_store s i)) (st_mo (get_store s j)) = true.
Proof.
  intros s Hr. unfold match_rmw_to_stores in Hr.
  rewrite mrts_outer_g in Hr. apply (g_candidates_none _ _ Hr).
Qed.

(* ------------------------------------------------------------------ *)
(* coherence corollaries                                               *)

Lemma candidate_not_hidden : forall s me caus ly o l i j,
  match_load_to_stores s me caus ly o = Some l -> In i l ->
  j < MAX_ATOMIC_HISTORY -> j < at_cnt s ->
  vv_lt (st_mo (get_store s i)) (st_mo (get_store s j)) = true ->
  is_seen_by_current (st_seen (get_store s j)) caus = false /\
  is_seen_before_yield (st_seen (get_store s i)) me ly = false /\
  (is_seq_cst o && st_seqcst (get_store s i) && st_seqcst (get_store s j)) = false.
Proof.
  intros s me caus ly o l i j Hr Hin Hj7 Hjl Hlt.
  apply (load_candidates_spec _ _ _ _ _ _ Hr i) in Hin.
  destruct Hin as [_ [_ Hall]].
  apply (Hall j Hj7 Hjl); [|exact Hlt].
  intros Heq. subst j. rewrite vv_lt_irrefl in Hlt. discriminate.
Qed.

(* CoWR / CoRR: a thread never reads a store that is mo-before a store it has
   already observed *)
Theorem coherence_write_read : forall s me caus ly o l i j,
  match_load_to_stores s me caus ly o = Some l ->
  j < MAX_ATOMIC_HISTORY -> j < at_cnt s ->
  vv_lt (st_mo (get_store s i)) (st_mo (get_store s j)) = true ->
  is_seen_by_current (st_seen (get_store s j)) caus = true ->
  ~ In i l.
Proof.
  intros s me caus ly o l i j Hr Hj7 Hjl Hlt Hseen Hin.
  destruct (candidate_not_hidden _ _ _ _ _ _ _ _ Hr Hin Hj7 Hjl Hlt) as [Hs _].
  rewrite Hs in Hseen. discriminate.
Qed.

(* the two other exclusion rules, in the same form *)
Theorem coherence_seen_before_yield : forall s me caus ly o l i j,
  match_load_to_stores s me caus ly o = Some l ->
  j < MAX_ATOMIC_HISTORY -> j < at_cnt s ->
  vv_lt (st_mo (get_store s i)) (st_mo (get_store s j)) = true ->
  is_seen_before_yield (st_seen (get_store s i)) me ly = true ->
  ~ In i l.
Proof.
  intros s me caus ly o l i j Hr Hj7 Hjl Hlt Hseen Hin.
  destruct (candidate_not_hidden _ _ _ _ _ _ _ _ Hr Hin Hj7 Hjl Hlt) as [_ [Hs _]].
  rewrite Hs in Hseen. discriminate.
Qed.

Theorem coherence_seq_cst : forall s me caus ly l i j,
  match_load_to_stores s me caus ly SeqCst = Some l ->
  j < MAX_ATOMIC_HISTORY -> j < at_cnt s ->
  vv_lt (st_mo (get_store s i)) (st_mo (get_store s j)) = true ->
  st_seqcst (get_store s i) = true -> st_seqcst (get_store s j) = true ->
  ~ In i l.
Proof.
  intros s me caus ly l i j Hr Hj7 Hjl Hlt Hi Hj Hin.
  destruct (candidate_not_hidden _ _ _ _ _ _ _ _ Hr Hin Hj7 Hjl Hlt) as [_ [_ Hs]].
  rewrite Hi, Hj in Hs. discriminate.
Qed.

(* a live mo-maximal slot is always a candidate *)
Theorem mo_maximal_is_candidate : forall s me caus ly o l i,
  match_load_to_stores s me caus ly o = Some l ->
  i < MAX_ATOMIC_HISTORY -> i < at_cnt s ->
  (forall j, j < MAX_ATOMIC_HISTORY -> j < at_cnt s ->
     vv_lt (st_mo (get_store s i)) (st_mo (get_store s j)) = false) ->
  In i l.
Proof.
  intros s me caus ly o l i Hr H7 Hlive Hmax.
  apply (load_candidates_spec _ _ _ _ _ _ Hr i).
  split; [exact H7|]. split; [exact Hlive|].
  intros j Hj7 Hjl Hne Hlt. rewrite (Hmax j Hj7 Hjl) in Hlt. discriminate.
Qed.

(* vv_lt is a strict order and the live slots are a finite non-empty set *)
Theorem mo_maximal_exists : forall s,
  1 <= at_cnt s ->
  exists i, i < MAX_ATOMIC_HISTORY /\ i < at_cnt s /\
    forall j, j < MAX_ATOMIC_HISTORY -> j < at_cnt s ->
      vv_lt (st_mo (get_store s i)) (st_mo (get_store s j)) = false.
Proof.
  intros s Hcnt.
  destruct (maximal_exists
              (fun a b => vv_lt (st_mo (get_store s a)) (st_mo (get_store s b)))
              (fun a => vv_lt_irrefl _)
              (fun a b c => vv_lt_trans _ _ _)
              (Nat.min MAX_ATOMIC_HISTORY (at_cnt s))) as [m [Hm Hmax]].
  - unfold MAX_ATOMIC_HISTORY. lia.
  - exists m. split; [lia|]. split; [lia|].
    intros j Hj7 Hjl. apply Hmax. lia.
Qed.

Theorem candidates_nonempty : forall s me caus ly o l,
  match_load_to_stores s me caus ly o = Some l ->
  1 <= at_cnt s -> l <> [].
Proof.
  intros s me caus ly o l Hr Hcnt Hnil.
  destruct (mo_maximal_exists s Hcnt) as [i [H7 [Hlive Hmax]]].
  pose proof (mo_maximal_is_candidate _ _ _ _ _ _ _ Hr H7 Hlive Hmax) as Hin.
  rewrite Hnil in Hin. contradiction.
Qed.

Theorem rmw_candidates_nonempty : forall s l,
  match_rmw_to_stores s = Some l -> 1 <= at_cnt s -> l <> [].
Proof.
  intros s l Hr Hcnt Hnil.
  destruct (mo_maximal_exists s Hcnt) as [i [H7 [Hlive Hmax]]].
  assert (Hin : In i l).
  { apply (rmw_candidates_spec _ _ Hr i). split; [exact H7|]. split; [exact Hlive|].
    intros j Hj7 Hjl _. apply Hmax; assumption. }
  rewrite Hnil in Hin. contradiction.
Qed.

(* an RMW reads only stores that a load (by any thread, any ordering) may read *)
Theorem rmw_candidates_are_load_candidates : forall s me caus ly o l lr i,
  match_load_to_stores s me caus ly o = Some l ->
  match_rmw_to_stores s = Some lr ->
  In i lr -> In i l.
Proof.
  intros s me caus ly o l lr i Hl Hr Hin.
  apply (rmw_candidates_spec _ _ Hr i) in Hin. destruct Hin as [H7 [Hlive Hmax]].
  apply (load_candidates_spec _ _ _ _ _ _ Hl i).
  split; [exact H7|]. split; [exact Hlive|].
  intros j Hj7 Hjl Hne Hlt. rewrite (Hmax j Hj7 Hjl Hne) in Hlt. discriminate.
Qed.

(* ------------------------------------------------------------------ *)
(* RMW atomicity                                                       *)

(* [rmw_link stores src x = Some v]: x is the store half of an RMW whose source
   (slot, id) is not [src], the source is still in the ring (same id), and v is
   the source's modification order *)
Definition rmw_link (stores : list astore) (src : option (nat * nat)) (x : astore) : option vv :=
  match st_rmw_src x with
  | Some (slot, sid) =>
      if src_eqb (Some (slot, sid)) src then None
      else if Nat.eqb (st_id (nth slot stores store_default)) sid
           then Some (st_mo (nth slot stores store_default))
           else None
  | None => None
  end.

Lemma rmw_link_some : forall stores src x v,
  rmw_link stores src x = Some v <->
  exists slot sid,
    st_rmw_src x = Some (slot, sid) /\
    src_eqb (Some (slot, sid)) src = false /\
    st_id (nth slot stores store_default) = sid /\
    v = st_mo (nth slot stores store_default).
Proof.
  intros stores src x v. unfold rmw_link. split.
  - destruct (st_rmw_src x) as [[slot sid]|]; [|discriminate].
    destruct (src_eqb (Some (slot, sid)) src) eqn:Hs; [discriminate|].
    destruct (Nat.eqb_spec (st_id (nth slot stores store_default)) sid) as [Hid|Hid]; [|discriminate].
    intros H. inversion H. exists slot, sid. repeat split; assumption.
  - intros [slot [sid [Hsrc [Hs [Hid Hv]]]]]. rewrite Hsrc, Hs.
    rewrite (proj2 (Nat.eqb_eq _ _) Hid). rewrite Hv. reflexivity.
Qed.

Definition pass_step (stores : list astore) (src : option (nat * nat))
           (acc : vv * bool) (x : astore) : vv * bool :=
  let '(mo, changed) := acc in
  match st_rmw_src x with
  | Some (slot, sid) =>
      if src_eqb (Some (slot, sid)) src then (mo, changed)
      else
        let srcst := nth slot stores store_default in
        if negb (Nat.eqb (st_id srcst) sid) then (mo, changed)
        else if vv_le (st_mo srcst) mo && negb (vv_le (st_mo x) mo)
             then (vv_join mo (st_mo x), true)
             else (mo, changed)
  | None => (mo, changed)
  end.

Lemma rmw_atomicity_pass_fold : forall stores src mo,
  rmw_atomicity_pass stores src mo = fold_left (pass_step stores src) stores (mo, false).
Proof. reflexivity. Qed.

Lemma pass_step_eq : forall stores src mo c x,
  pass_step stores src (mo, c) x =
  match rmw_link stores src x with
  | Some v => if vv_le v mo && negb (vv_le (st_mo x) mo)
              then (vv_join mo (st_mo x), true) else (mo, c)
  | None => (mo, c)
  end.
Proof.
  intros stores src mo c x. unfold pass_step, rmw_link.
  destruct (st_rmw_src x) as [[slot sid]|]; [|reflexivity].
  destruct (src_eqb (Some (slot, sid)) src); [reflexivity|].
  cbv zeta.
  destruct (Nat.eqb (st_id (nth slot stores store_default)) sid); reflexivity.
Qed.

(* [mo] is closed under the RMW-atomicity rule *)
Definition rmw_closed (stores : list astore) (src : option (nat * nat)) (mo : vv) : Prop :=
  forall x v, In x stores -> rmw_link stores src x = Some v ->
    vv_le v mo = true -> vv_le (st_mo x) mo = true.

(* Induction over the passes. A relation between the clock before and the clock after
   that is reflexive and transitive, and holds across one firing of the rule (a linked
   RMW store whose source is below [m] is joined into [m]), holds across a pass and
   across rmw_atomicity. With [R a b := P a -> P b] this is an invariant of the passes. *)
Section PassInd.
  Variable stores : list astore.
  Variable src : option (nat * nat).
  Variable R : vv -> vv -> Prop.
  Hypothesis R_refl : forall m, R m m.
  Hypothesis R_trans : forall a b c, R a b -> R b c -> R a c.

  Lemma fold_pass_ind : forall l,
    (forall x w m, In x l -> rmw_link stores src x = Some w -> vv_le w m = true ->
       R m (vv_join m (st_mo x))) ->
    forall m c, R m (fst (fold_left (pass_step stores src) l (m, c))).
  Proof.
    induction l as [|a l IH]; intros Hrule m c; [apply R_refl|].
    assert (IH' : forall m c, R m (fst (fold_left (pass_step stores src) l (m, c)))).
    { apply IH. intros x w m' Hx. apply Hrule. right. exact Hx. }
    cbn [fold_left]. rewrite pass_step_eq.
    destruct (rmw_link stores src a) as [w|] eqn:Hl; [|apply IH'].
    destruct (vv_le w m && negb (vv_le (st_mo a) m)) eqn:Hc; [|apply IH'].
    apply andb_true_iff in Hc. destruct Hc as [Hw _].
    eapply R_trans; [apply (Hrule a w m (or_introl eq_refl) Hl Hw) | apply IH'].
  Qed.

  Lemma rmw_atomicity_ind :
    (forall x w m, In x stores -> rmw_link stores src x = Some w -> vv_le w m = true ->
       R m (vv_join m (st_mo x))) ->
    forall fuel m, R m (rmw_atomicity fuel stores src m).
  Proof.
    intros Hrule. induction fuel as [|f IH]; intros m; [apply R_refl|].
    cbn [rmw_atomicity].
    pose proof (fold_pass_ind stores Hrule m false) as Hp.
    rewrite <- rmw_atomicity_pass_fold in Hp.
    destruct (rmw_atomicity_pass stores src m) as [mo' changed]. cbn [fst] in Hp.
    destruct changed; [|exact Hp].
    eapply R_trans; [exact Hp | apply IH].
  Qed.
End PassInd.

Section Pass.
  Variable stores : list astore.
  Variable src : option (nat * nat).

  Lemma fold_pass_flag : forall l m,
    snd (fold_left (pass_step stores src) l (m, true)) = true.
  Proof.
    induction l as [|a l IH]; intros m; [reflexivity|].
    cbn [fold_left]. rewrite pass_step_eq.
    destruct (rmw_link stores src a) as [v|]; [|apply IH].
    destruct (vv_le v m && negb (vv_le (st_mo a) m)); apply IH.
  Qed.

  Lemma fold_pass_grows : forall l m c,
    vle m (fst (fold_left (pass_step stores src) l (m, c))).
  Proof.
    intros l. apply (fold_pass_ind stores src vle vle_refl vle_trans).
    intros x w m _ _ _. apply vle_join_l.
  Qed.

  Lemma fold_pass_stable : forall l m c,
    snd (fold_left (pass_step stores src) l (m, c)) = false ->
    forall x v, In x l -> rmw_link stores src x = Some v ->
      vv_le v m = true -> vv_le (st_mo x) m = true.
  Proof.
    induction l as [|a l IH]; intros m c Hs x v Hx Hl Hle; [contradiction|].
    cbn [fold_left] in Hs. rewrite pass_step_eq in Hs.
    destruct (rmw_link stores src a) as [va|] eqn:Hla.
    - destruct (vv_le va m && negb (vv_le (st_mo a) m)) eqn:Hfire.
      { rewrite fold_pass_flag in Hs. discriminate. }
      destruct Hx as [Heq|Hx]; [|apply (IH m c Hs x v Hx Hl Hle)].
      subst x. rewrite Hla in Hl. inversion Hl. subst va.
      rewrite Hle in Hfire. cbn [andb] in Hfire.
      destruct (vv_le (st_mo a) m); [reflexivity|discriminate].
    - destruct Hx as [Heq|Hx]; [|apply (IH m c Hs x v Hx Hl Hle)].
      subst x. rewrite Hla in Hl. discriminate.
  Qed.

  Lemma fold_pass_closed : forall l m c,
    (forall x v, In x l -> rmw_link stores src x = Some v ->
       vv_le v m = true -> vv_le (st_mo x) m = true) ->
    fold_left (pass_step stores src) l (m, c) = (m, c).
  Proof.
    induction l as [|a l IH]; intros m c Hall; [reflexivity|].
    cbn [fold_left]. rewrite pass_step_eq.
    assert (Hrec : fold_left (pass_step stores src) l (m, c) = (m, c)).
    { apply IH. intros x v Hx. apply Hall. right. exact Hx. }
    destruct (rmw_link stores src a) as [va|] eqn:Hla; [|exact Hrec].
    destruct (vv_le va m) eqn:Hle; cbn [andb]; [|exact Hrec].
    rewrite (Hall a va (or_introl eq_refl) Hla Hle). cbn [negb]. exact Hrec.
  Qed.

  (* a productive pass absorbs at least one linked RMW store that was not below m *)
  Lemma fold_pass_productive : forall l m,
    snd (fold_left (pass_step stores src) l (m, false)) = true ->
    exists x, In x l /\ rmw_link stores src x <> None /\
      vv_le (st_mo x) m = false /\
      vv_le (st_mo x) (fst (fold_left (pass_step stores src) l (m, false))) = true.
  Proof.
    induction l as [|a l IH]; intros m Hs.
    - cbn [fold_left snd] in Hs. discriminate.
    - cbn [fold_left] in *. rewrite pass_step_eq in *.
      destruct (rmw_link stores src a) as [va|] eqn:Hla; [|apply ex_In_cons, IH; exact Hs].
      destruct (vv_le va m && negb (vv_le (st_mo a) m)) eqn:Hfire; [|apply ex_In_cons, IH; exact Hs].
      apply andb_true_iff in Hfire. destruct Hfire as [_ Hna].
      exists a. split; [left; reflexivity|]. split; [rewrite Hla; discriminate|].
      split; [destruct (vv_le (st_mo a) m); [discriminate|reflexivity]|].
      apply vv_le_spec. eapply vle_trans; [apply vle_join_r | apply fold_pass_grows].
  Qed.
End Pass.

(* ---- rmw_atomicity only grows mo ---- *)
Theorem rmw_atomicity_grows : forall fuel stores src mo,
  vle mo (rmw_atomicity fuel stores src mo).
Proof.
  intros fuel stores src. apply (rmw_atomicity_ind stores src vle vle_refl vle_trans).
  intros x w m _ _ _. apply vle_join_l.
Qed.

Corollary rmw_atomicity_grows_b : forall fuel stores src mo,
  vv_le mo (rmw_atomicity fuel stores src mo) = true.
Proof. intros fuel stores src mo. apply vv_le_spec. apply rmw_atomicity_grows. Qed.

(* ---- a pass reports "unchanged" exactly on closed clocks ---- *)
Theorem rmw_pass_stable_iff : forall stores src mo,
  snd (rmw_atomicity_pass stores src mo) = false <-> rmw_closed stores src mo.
Proof.
  intros stores src mo. rewrite rmw_atomicity_pass_fold. split.
  - intros Hs. exact (fold_pass_stable _ _ _ _ _ Hs).
  - intros Hc. rewrite (fold_pass_closed stores src stores mo false Hc). reflexivity.
Qed.

Theorem rmw_pass_stable_id : forall stores src mo,
  snd (rmw_atomicity_pass stores src mo) = false ->
  rmw_atomicity_pass stores src mo = (mo, false).
Proof.
  intros stores src mo Hs. apply rmw_pass_stable_iff in Hs.
  rewrite rmw_atomicity_pass_fold. apply fold_pass_closed. exact Hs.
Qed.

(* ---- the fixpoint property, spelled out ---- *)
Theorem rmw_atomicity_fixpoint : forall fuel stores src mo,
  let mo' := rmw_atomicity fuel stores src mo in
  snd (rmw_atomicity_pass stores src mo') = false ->
  forall x slot sid,
    In x stores ->
    st_rmw_src x = Some (slot, sid) ->
    src_eqb (Some (slot, sid)) src = false ->
    st_id (nth slot stores store_default) = sid ->
    vv_le (st_mo (nth slot stores store_default)) mo' = true ->
    vv_le (st_mo x) mo' = true.
Proof.
  intros fuel stores src mo mo' Hs x slot sid Hx Hsrc Hne Hid Hle.
  apply rmw_pass_stable_iff in Hs.
  apply (Hs x (st_mo (nth slot stores store_default)) Hx); [|exact Hle].
  apply rmw_link_some. exists slot, sid. repeat split; assumption.
Qed.

(* ---- sufficient fuel ---- *)
(* linked RMW stores of the ring not yet below mo *)
Definition unabsorbed (stores : list astore) (src : option (nat * nat)) (mo : vv) (x : astore) : bool :=
  match rmw_link stores src x with
  | Some _ => negb (vv_le (st_mo x) mo)
  | None => false
  end.
Definition rmw_mu (stores : list astore) (src : option (nat * nat)) (mo : vv) : nat :=
  length (filter (unabsorbed stores src mo) stores).

Lemma unabsorbed_antitone : forall stores src m m' x,
  vle m m' -> unabsorbed stores src m' x = true -> unabsorbed stores src m x = true.
Proof.
  intros stores src m m' x Hle. unfold unabsorbed.
  destruct (rmw_link stores src x) as [v|]; [|discriminate].
  destruct (vv_le (st_mo x) m) eqn:Hx; [|reflexivity].
  rewrite (vv_le_trans_b _ _ _ Hx Hle). discriminate.
Qed.

Lemma rmw_mu_decreases : forall stores src mo,
  snd (rmw_atomicity_pass stores src mo) = true ->
  rmw_mu stores src (fst (rmw_atomicity_pass stores src mo)) < rmw_mu stores src mo.
Proof.
  intros stores src mo Hs. rewrite rmw_atomicity_pass_fold in *.
  destruct (fold_pass_productive _ _ _ _ Hs) as [x [Hx [Hl [Hbefore Hafter]]]].
  unfold rmw_mu. apply (filter_length_lt astore _ _ stores x).
  - intros y _. apply unabsorbed_antitone. apply fold_pass_grows.
  - exact Hx.
  - unfold unabsorbed. destruct (rmw_link stores src x); [|contradiction Hl; reflexivity].
    rewrite Hbefore. reflexivity.
  - unfold unabsorbed. destruct (rmw_link stores src x); [|reflexivity].
    rewrite Hafter. reflexivity.
Qed.

Lemma rmw_mu_0_closed : forall stores src mo,
  rmw_mu stores src mo = 0 -> rmw_closed stores src mo.
Proof.
  intros stores src mo H0 x v Hx Hl _.
  pose proof (filter_length_0 _ _ _ H0 x Hx) as Hu. unfold unabsorbed in Hu.
  rewrite Hl in Hu. destruct (vv_le (st_mo x) mo); [reflexivity|discriminate].
Qed.

Theorem rmw_atomicity_sufficient_mu : forall fuel stores src mo,
  rmw_mu stores src mo <= fuel ->
  snd (rmw_atomicity_pass stores src (rmw_atomicity fuel stores src mo)) = false.
Proof.
  induction fuel as [|f IH]; intros stores src mo Hmu.
  - cbn [rmw_atomicity]. apply rmw_pass_stable_iff. apply rmw_mu_0_closed. lia.
  - cbn [rmw_atomicity].
    destruct (rmw_atomicity_pass stores src mo) as [mo' changed] eqn:Hp.
    destruct changed.
    + apply IH.
      pose proof (rmw_mu_decreases stores src mo) as Hd. rewrite Hp in Hd.
      cbn [fst snd] in Hd. specialize (Hd eq_refl). lia.
    + assert (Hs : snd (rmw_atomicity_pass stores src mo) = false) by (rewrite Hp; reflexivity).
      pose proof (rmw_pass_stable_id _ _ _ Hs) as Hid. rewrite Hp in Hid.
      inversion Hid. subst mo'. exact Hs.
Qed.

Theorem rmw_atomicity_sufficient_fuel : forall fuel stores src mo,
  length stores <= fuel ->
  snd (rmw_atomicity_pass stores src (rmw_atomicity fuel stores src mo)) = false.
Proof.
  intros fuel stores src mo Hlen. apply rmw_atomicity_sufficient_mu.
  unfold rmw_mu. pose proof (filter_length_le (unabsorbed stores src mo) stores). lia.
Qed.

(* with enough fuel rmw_atomicity is idempotent *)
Corollary rmw_atomicity_idem : forall fuel fuel' stores src mo,
  length stores <= fuel ->
  rmw_atomicity fuel' stores src (rmw_atomicity fuel stores src mo) =
  rmw_atomicity fuel stores src mo.
Proof.
  intros fuel fuel' stores src mo Hlen. destruct fuel' as [|f']; [reflexivity|].
  cbn [rmw_atomicity].
  rewrite (rmw_pass_stable_id _ _ _ (rmw_atomicity_sufficient_fuel fuel stores src mo Hlen)).
  reflexivity.
Qed.

(* ---- the model's own call (State::store_from) ---- *)
(* the modification order atomic_store_from writes: AtomicFacts.store_mo is the
   first fold (happens-before joined with the mo of every store already seen) *)
Definition store_from_mo (s : atomic_state) (caus : vv) (src : option (nat * nat)) : vv :=
  rmw_atomicity (S MAX_ATOMIC_HISTORY) (at_stores s) src (store_mo s caus).

Theorem atomic_store_from_mo : forall s me caus released sync0 value o src,
  length (at_stores s) = MAX_ATOMIC_HISTORY ->
  st_mo (get_store (atomic_store_from s me caus released sync0 value o src)
                   (aindex (at_cnt s))) = store_from_mo s caus src.
Proof.
  intros s me caus released sync0 value o src Hlen. unfold atomic_store_from.
  rewrite get_store_set by (rewrite Hlen; apply aindex_lt).
  rewrite Nat.eqb_refl. reflexivity.
Qed.

Theorem store_from_mo_ge_caus : forall s caus src, vle caus (store_from_mo s caus src).
Proof.
  intros s caus src. unfold store_from_mo.
  eapply vle_trans; [apply store_mo_ge_caus | apply rmw_atomicity_grows].
Qed.

(* write-write coherence: the new store is mo-after every store its thread has seen *)
Theorem store_from_mo_ge_seen : forall s caus src x,
  In x (at_stores s) -> is_seen_by_current (st_seen x) caus = true ->
  vle (st_mo x) (store_from_mo s caus src).
Proof.
  intros s caus src x Hx Hseen. unfold store_from_mo.
  eapply vle_trans; [apply (store_mo_ge_seen _ _ _ Hx Hseen) | apply rmw_atomicity_grows].
Qed.

Theorem store_from_mo_closed : forall s caus src,
  length (at_stores s) <= S MAX_ATOMIC_HISTORY ->
  rmw_closed (at_stores s) src (store_from_mo s caus src).
Proof.
  intros s caus src Hlen. unfold store_from_mo. apply rmw_pass_stable_iff.
  apply rmw_atomicity_sufficient_fuel. exact Hlen.
Qed.

(* the postcondition of State::store_from on the slot it writes *)
Theorem atomic_store_from_rmw_atomic : forall s me caus released sync0 value o src,
  length (at_stores s) = MAX_ATOMIC_HISTORY ->
  let s' := atomic_store_from s me caus released sync0 value o src in
  let mo' := st_mo (get_store s' (aindex (at_cnt s))) in
  vle caus mo' /\
  (forall x, In x (at_stores s) -> is_seen_by_current (st_seen x) caus = true ->
     vle (st_mo x) mo') /\
  snd (rmw_atomicity_pass (at_stores s) src mo') = false /\
  (forall x slot sid,
     In x (at_stores s) ->
     st_rmw_src x = Some (slot, sid) ->
     src_eqb (Some (slot, sid)) src = false ->
     st_id (nth slot (at_stores s) store_default) = sid ->
     vv_le (st_mo (nth slot (at_stores s) store_default)) mo' = true ->
     vv_le (st_mo x) mo' = true).
Proof.
  intros s me caus released sync0 value o src Hlen s' mo'.
  assert (Hmo : mo' = store_from_mo s caus src).
  { unfold mo', s'. apply atomic_store_from_mo. exact Hlen. }
  assert (Hfuel : length (at_stores s) <= S MAX_ATOMIC_HISTORY) by (rewrite Hlen; lia).
  rewrite Hmo. split; [apply store_from_mo_ge_caus|].
  split; [intros x Hx Hseen; apply store_from_mo_ge_seen; assumption|].
  assert (Hs : snd (rmw_atomicity_pass (at_stores s) src (store_from_mo s caus src)) = false).
  { unfold store_from_mo. apply rmw_atomicity_sufficient_fuel. exact Hfuel. }
  split; [exact Hs|].
  intros x slot sid Hx Hsrc Hne Hid Hle.
  apply (rmw_atomicity_fixpoint (S MAX_ATOMIC_HISTORY) (at_stores s) src (store_mo s caus) Hs
           x slot sid Hx Hsrc Hne Hid Hle).
Qed.

(* ------------------------------------------------------------------ *)
(* non-vacuity: a concrete two-store state                             *)

(* thread 0 creates the cell (clock [1;0;0;0;0]) and stores 5 (clock [2;0;0;0;0]) *)
Definition ex_state : atomic_state :=
  match atomic_new 0 [1;0;0;0;0] vv_new 0%N with
  | inl s0 => atomic_store s0 0 [2;0;0;0;0] vv_new vv_new 5%N Relaxed
  | inr _ => mkAtomic vv_new vv_new vv_new vv_new false [] None [] 0
  end.

(* two live slots, slot 0 mo-before slot 1 *)
Example coherence_example_state :
  at_cnt ex_state = 2 /\
  st_mo (get_store ex_state 0) = [1;0;0;0;0] /\
  st_mo (get_store ex_state 1) = [2;0;0;0;0] /\
  vv_lt (st_mo (get_store ex_state 0)) (st_mo (get_store ex_state 1)) = true.
Proof. vm_compute. repeat split; reflexivity. Qed.

(* thread 1 has not synchronised with thread 0's second store: both are candidates *)
Example coherence_example_unseen :
  is_seen_by_current (st_seen (get_store ex_state 1)) [1;1;0;0;0] = false /\
  match_load_to_stores ex_state 1 [1;1;0;0;0] None Relaxed = Some [0; 1].
Proof. vm_compute. split; reflexivity. Qed.

(* thread 1 has seen the newer store (clock >= [2;...]): the older one is excluded *)
Example coherence_example_seen :
  is_seen_by_current (st_seen (get_store ex_state 1)) [2;1;0;0;0] = true /\
  match_load_to_stores ex_state 1 [2;1;0;0;0] None Relaxed = Some [1].
Proof. vm_compute. split; reflexivity. Qed.

(* an RMW reads only the mo-maximal store, seen or not *)
Example coherence_example_rmw : match_rmw_to_stores ex_state = Some [1].
Proof. vm_compute. reflexivity. Qed.

(* the None case is reachable for an arbitrary state: two live slots with equal mo *)
Example coherence_example_none :
  match_load_to_stores
    (mkAtomic vv_new vv_new vv_new vv_new false [] None
              (repeat store_default MAX_ATOMIC_HISTORY) 2) 0 vv_new None Relaxed = None.
Proof. vm_compute. reflexivity. Qed.

Print Assumptions mlts_inner_spec.
Print Assumptions mlts_inner_none.
Print Assumptions mlts_outer_spec.
Print Assumptions mlts_outer_In.
Print Assumptions mlts_outer_none.
Print Assumptions load_candidates_spec.
Print Assumptions load_candidates_NoDup.
Print Assumptions load_candidates_sorted.
Print Assumptions load_candidates_none.
Print Assumptions rmw_candidates_spec.
Print Assumptions rmw_candidates_NoDup.
Print Assumptions rmw_candidates_sorted.
Print Assumptions rmw_candidates_none.
Print Assumptions coherence_write_read.
Print Assumptions coherence_seen_before_yield.
Print Assumptions coherence_seq_cst.
Print Assumptions mo_maximal_is_candidate.
Print Assumptions mo_maximal_exists.
Print Assumptions candidates_nonempty.
Print Assumptions rmw_candidates_nonempty.
Print Assumptions rmw_candidates_are_load_candidates.
Print Assumptions rmw_atomicity_grows.
Print Assumptions rmw_pass_stable_iff.
Print Assumptions rmw_atomicity_fixpoint.
Print Assumptions rmw_atomicity_sufficient_mu.
Print Assumptions rmw_atomicity_sufficient_fuel.
Print Assumptions rmw_atomicity_idem.
Print Assumptions atomic_store_from_mo.
Print Assumptions store_from_mo_closed.
Print Assumptions atomic_store_from_rmw_atomic.
Print Assumptions coherence_example_unseen.
Print Assumptions coherence_example_seen.
