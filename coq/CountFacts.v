(* CountFacts: COUNTING INVARIANTS of the model, for every program and schedule.

   Index correspondence.  The i-th declared object is entry i of the runtime
   store e_objects AND entry i of the harness store e_h (init_exec builds both
   from p_decls; length (e_h e) never changes: run_h_length).  Objects appended
   later (the Notify of spawn, the Notify + Arc of block_on, the cell of a lazy
   static) live at indices >= length (e_h e) and have no harness object; the
   invariants speak about indices k < length (e_h e) = length (p_decls p).

   What is counted
     live e k  = count_true (ho_slots (get_h e k))       live handles of Arc k
     pend e k  = number of MArcDecPost k _ in the continuations of all threads
                 = drops IN FLIGHT: a drop is two micro-steps, MArcDrop empties
                 the slot (the std handle is gone) and pushes
                 [MBranch k ARefDec; MArcDecPost k]; the runtime decrement comes
                 after the branch point.  (A clone needs no such term: count and
                 slot are both updated by MArcIncPost.)

   The invariant
     arc_inv e  := forall k s, k < length (e_h e) -> get_arc e k = Some s ->
                     arc_cnt s = live e k + pend e k
     chan_inv e := forall h s, h < length (e_h e) -> get_chan e h = Some s ->
                     ch_cnt s = length (ch_recv_sync s) /\
                     (if ho_rx (get_h e h) then length (ho_q (get_h e h)) = ch_cnt s
                      else ho_q (get_h e h) = [] /\ ch_cnt s = 0)
     raw_inv e  := length (e_h e) <= length (e_objects e) /\ (the Arc indices
                   carried by the block_on micro-ops in continuations and by the
                   registered wakers are >= length (e_h e)) /\ (e_bodies contains
                   no MArcDecPost / block_on-internal micro-ops)
     base_inv e := chan_inv e /\ raw_inv e          count_inv e := arc_inv e /\ base_inv e

   Main theorems
     init_count_inv      : count_inv (init_exec p pa)
     step_base_inv       : base_inv e -> (me's continuation is m :: rest) ->
                           base_inv (res_exec (exec_micro (pop e me rest) me m))
                           -- every micro-op, also the state carried by MFail, no side condition
     step_count_inv      : the same for count_inv, under [disciplined e m = true]
     schedule_count_inv  : count_inv e -> count_inv (res_exec (fst (schedule e)))
     dsteps_count_inv, steps_base_inv (over SyncMono.steps)
     run_base_inv / run_chan_inv : forall fuel p pa, chan_inv (fst (run fuel (init_exec p pa)))
     run_count_inv       : forall fuel p pa, run_disc fuel (init_exec p pa) = true ->
                           count_inv (fst (run fuel (init_exec p pa)))     (all three iter_end cases)
     run_arc_count_is_live_handles, run_chan_count_is_queue_length: the same, spelled out
   A  strong_count_is_live_handles (+ _quiet), final_drop_iff_last_handle,
      no_double_release, try_unwrap_iff_unique
   B  send_appends_one, send_disconnected_keeps_queue, recv_removes_front,
      recv_never_empty_handed (+ _declared), recv_proceeds_queue_nonempty,
      run_model20_only_after_receiver_drop, run_model20_only_undeclared,
      chan_inv_queue_length, run_chan_count_is_queue_length_all,
      queue_step_shape, steps_queue_fifo
   D  demo_run, demo_count_inv (vm_compute)

   Proof structure (as in SyncMono): a frame relation [keeps N e e'] (harness
   queues / receiver flags / slots unchanged, Arc and channel counters of the
   objects below N unchanged or the object replaced by a non-counting one,
   drops in flight unchanged, bodies unchanged).  It reads the four components
   [proj4] of a state, so the helpers of Ops.v that leave those alone are
   framed by one lemma (keeps_proj4) and an equation proj4 (F e) = proj4 e
   each; the helpers that write a continuation, an object or a harness object
   have a framing lemma of their own, and so has schedule.  One tactic
   [keeps_tac] walks through all micro-ops that are neither Arc nor channel
   operations (exec_micro_keeps), and for the 7 others (MArcIncPost, MArcDrop,
   MArcDecPost, MArcGetMutPost, MSendPost, MRecvPost, MDropRx) there is a
   description of the result as a local update [upd_at] of one object, its
   harness object and one continuation, fed to arc_inv_update /
   chan_inv_update / raw_inv_update.

   DEVIATIONS

   D1  A is FALSE for arbitrary programs, and so is run_count_inv as requested.
       The model lets a program misuse handles in two ways that change counts:
       (a) MArcIncPost k j increments the count and sets slot j without looking
           at it: a clone stored into a slot that is already live (or into a
           slot index >= 8) gives count = live + 1.
           clone_into_live_slot_breaks_arc_inv: [DArc], main = [IArcClone 0 0 0]:
           final state count 2, one live handle.  The harness rejects such a
           program ("arc slot in use" / index panic): not a behaviour of loom.
       (b) MArcGetMut checks the slot, then there is a branch point, then
           MArcGetMutPost (try_unwrap, count = 1) empties the slot and schedules
           the decrement WITHOUT looking at the slot again.  If another thread
           drops THE SAME handle in between, the count reaches 0 while another
           handle is live.  try_unwrap_race_counterexample: [DArc],
             main = [IArcClone 0 0 1; ISpawn 1; IArcTryUnwrap 0 0; IJoin 1;
                     IArcCount 0 1; IArcDrop 0 1; IArcDrop 0 0],  t1 = [IArcDrop 0 0];
           second iteration of the model's own exploration (main preempted at the
           AInspect branch of try_unwrap, t1 runs its drop, main resumes): log
           ... LOp 1 0 RUnit; LDrop 0; LOp 0 2 (RBool true) ... and the later
           strong_count through slot 1 ends the run with PanicArcReleased; final
           state count 0, one live handle.  Safe Rust cannot write this program
           (try_unwrap consumes the handle another thread is dropping).  NOTE for
           the model/harness correspondence: the harness does [take()] on the
           slot BEFORE loom's branch point inside try_unwrap, the model empties
           the slot AFTER it; on this racy program the harness's t1 would find
           the slot empty ("x").  The two agree on race-free programs.
       Proved instead: the invariant is inductive for every micro-step that
       respects the HANDLE DISCIPLINE
         disciplined e (MArcIncPost k j)        := k < |e_h| -> slot j of k exists and is empty
         disciplined e (MArcGetMutPost k i true) := k < |e_h| -> slot i of k is still live
         disciplined e _                         := true
       (step_count_inv, dsteps_count_inv); run_count_inv has the hypothesis
       [run_disc fuel (init_exec p pa) = true], a boolean monitor that replays
       run and checks [disciplined] at every executed micro-op.  No assumption is
       needed about drops, strong_count, get_mut or about misuse that the model
       answers with RX (operation on an empty slot: nothing changes).
   D2  The channel half needs NO side condition (step_base_inv, run_chan_inv).
       A send to a channel whose receiver has been dropped hands the message
       back and undoes its bookkeeping (loom: Channel::undo_send, "a message
       handed back by send() is not held by the channel"): count and views are
       unchanged.  MDropRx clears the receiver flag only when the count is 0, so
       after the drop the count is 0 and the std queue is [] for ever; the
       equation length (ho_q) = ch_cnt = length (ch_recv_sync) holds always
       (chan_inv_queue_length, run_chan_count_is_queue_length_all).
   D3  recv_never_empty_handed "unreachable from init_exec" holds on declared
       channels (recv_never_empty_handed_declared, run_model20_only_undeclared);
       before the undo_send fix of the pinned tree it was false.  The program
       [DChan],
         main = [ISpawn 1; ISpawn 2; IRecv 0], t1 = [IDropRx 0], t2 = [ISend 0 5],
       first iteration: main blocks in recv on the empty channel, t1 drops the
       receiver, t2 sends (RDisc, count back to 0, but main woken), main's
       MRecvPost finds count 0: IterPanic PanicExpectMsg
       (recv_on_dropped_receiver_expect_msg; before the undo_send fix: count 1,
       empty std queue, PanicModel 20).  Not expressible in safe Rust
       (the Receiver would have to be used by two threads; in the harness it is a
       use-after-free).  Proved: the failure is impossible while the
       receiver is alive (recv_never_empty_handed: chan_inv e -> ho_rx = true ->
       exec_micro e me (MRecvPost h lg) <> MFail _ (PanicModel 20)), and at run
       level run_model20_only_after_receiver_drop: if a run from init_exec ends
       with PanicModel 20 then, in the final state, some channel has its
       receiver dropped (exec_micro_model20: no other micro-op produces that
       panic).  Sharper: recv_never_empty_handed_declared needs
       only h < length (e_h e), and run_model20_only_undeclared says the failing
       index is not a declared object at all.
   D4  strong_count logs live + drops in flight (a handle whose drop has passed
       the harness but not yet the runtime decrement still counts, as in std
       where the count is decremented inside drop);
       strong_count_is_live_handles_quiet is the requested equality when no drop
       is in flight.  final_drop_iff_last_handle: LDrop k is logged by exactly
       the decrement that finds no live handle and no OTHER drop in flight.
   D5  Arcs created by block_on (waker clones, MArcIncRaw / MArcDecRaw) are not
       harness objects and are outside the invariant; raw_inv only records that
       they never alias a declared object.
   D6  The step theorems are stated on [pop e me rest] (the state on which
       Check.run executes the micro-op) with the invariant assumed on the state
       BEFORE the pop: the popped MArcDecPost is one of the counted drops. *)
Require Import LV.Base LV.VV LV.Path LV.Prog LV.Objects LV.Exec LV.Atomic LV.Ops LV.Check
               LV.SyncFacts LV.ExecFacts LV.SyncMono.
From Coq Require Import List Arith Lia Bool.
Import ListNotations.

(* a case distinction on every innermost match of the goal *)
Ltac destr_all :=
  repeat match goal with
         | |- context [match ?x with _ => _ end] =>
             lazymatch x with
             | context [match _ with _ => _ end] => fail
             | _ => destruct x
             end
         end.

(* ================================================================== *)
(* 0. Lists                                                            *)
(* ================================================================== *)

Lemma list_upd_fix {A : Type} (l : list A) n f :
  (forall x, nth_error l n = Some x -> f x = x) -> list_upd l n f = l.
Proof.
  intros H. apply list_ext. intros i. destruct (Nat.eq_dec n i) as [<-|Hne].
  - rewrite nth_error_list_upd_same. destruct (nth_error l n) as [x|] eqn:Hx; [|reflexivity].
    cbn [option_map]. rewrite (H x eq_refl). reflexivity.
  - apply nth_error_list_upd_other, Hne.
Qed.

Lemma map_list_upd_id {A B : Type} (f : A -> B) (g : A -> A) (l : list A) n :
  (forall x, f (g x) = f x) -> map f (list_upd l n g) = map f l.
Proof. intros H. rewrite (map_list_upd _ _ f l n g (fun y => y) H). apply list_upd_id. Qed.

Lemma map_mapi_id {A B : Type} (f : A -> B) (g : nat -> A -> A) (l : list A) :
  (forall i x, f (g i x) = f x) -> map f (mapi g l) = map f l.
Proof.
  intros H. unfold mapi. generalize 0.
  induction l as [|h t IH]; intros k; cbn [mapi_from map]; [reflexivity|].
  rewrite H, IH. reflexivity.
Qed.

Fixpoint count_true (l : list bool) : nat :=
  match l with
  | [] => 0
  | b :: t => (if b then 1 else 0) + count_true t
  end.

Lemma count_true_set_true : forall l j,
  nth_error l j = Some false -> count_true (list_set l j true) = S (count_true l).
Proof.
  induction l as [|b t IH]; intros j H; [destruct j; discriminate H|].
  destruct j as [|j]; cbn [nth_error list_set count_true] in *.
  - injection H as ->. reflexivity.
  - rewrite IH by exact H. lia.
Qed.

Lemma count_true_set_false : forall l i,
  nth i l false = true -> S (count_true (list_set l i false)) = count_true l.
Proof.
  induction l as [|b t IH]; intros i H; [destruct i; discriminate H|].
  destruct i as [|i]; cbn [nth list_set count_true] in *.
  - subst b. reflexivity.
  - rewrite <- (IH i H). lia.
Qed.

Lemma count_true_set_same : forall l i b,
  nth_error l i = Some b -> count_true (list_set l i b) = count_true l.
Proof. intros l i b H. rewrite list_set_id by exact H. reflexivity. Qed.

Lemma count_true_set_true_le : forall l j, count_true (list_set l j true) <= S (count_true l).
Proof.
  induction l as [|b t IH]; intros j; [cbn; lia|].
  destruct j as [|j]; cbn [list_set count_true].
  - destruct b; lia.
  - specialize (IH j). lia.
Qed.

(* ================================================================== *)
(* 1. What is counted                                                  *)
(* ================================================================== *)

(* live handles of the harness-level Arc k *)
Definition live (e : exec) (k : nat) : nat := count_true (ho_slots (get_h e k)).

(* handles whose drop is in flight: the slot has been emptied (the std handle
   is gone) and the runtime decrement MArcDecPost k is still in the dropping
   thread's continuation (it comes after the branch point of the drop) *)
Definition is_dec (k : nat) (m : micro) : bool :=
  match m with MArcDecPost k' _ => Nat.eqb k' k | _ => false end.
Definition pend_cont (k : nat) (c : list micro) : nat := length (filter (is_dec k) c).
Fixpoint pendc (k : nat) (cs : list (list micro)) : nat :=
  match cs with
  | [] => 0
  | c :: t => pend_cont k c + pendc k t
  end.
Definition conts (e : exec) : list (list micro) := map t_cont (e_threads e).
Definition pend (e : exec) (k : nat) : nat := pendc k (conts e).

Lemma conts_upd_thread_keep e i f :
  (forall t, t_cont (f t) = t_cont t) -> conts (upd_thread e i f) = conts e.
Proof. intros Hf. unfold conts, upd_thread. cbn [e_threads ex_set_threads]. apply map_list_upd_id, Hf. Qed.

Lemma conts_map_others e me p f :
  (forall t, t_cont (f t) = t_cont t) -> conts (map_others e me p f) = conts e.
Proof.
  intros Hf. unfold conts, map_others. cbn [e_threads ex_set_threads]. apply map_mapi_id.
  intros i x. destruct (negb (Nat.eqb i me) && p x); [apply Hf|reflexivity].
Qed.

(* the Arc created by block_on (the waker) is not a harness object: the
   micro-operations that carry its index *)
Definition raw_ok (N : nat) (m : micro) : Prop :=
  match m with
  | MBoPoll _ _ _ _ k | MBoLoad _ _ _ _ k _ | MBoRegister _ _ _ _ k | MBoDone _ k
  | MArcIncRaw k | MArcDecRaw k
  | MBsPoll _ _ _ _ _ k _ | MBsLoad _ _ _ _ _ k _ | MSpawnW _ _ k
  | MWakeMineW _ k | MDropWakerW _ k => N <= k
  | _ => True
  end.
Definition no_dec (m : micro) : Prop :=
  match m with MArcDecPost _ _ => False | _ => True end.
Definition benign (N : nat) (m : micro) : Prop := raw_ok N m /\ no_dec m.

Definition is_static (m : micro) : bool :=
  match m with
  | MBoPoll _ _ _ _ _ | MBoLoad _ _ _ _ _ _ | MBoRegister _ _ _ _ _ | MBoDone _ _
  | MArcIncRaw _ | MArcDecRaw _ | MArcDecPost _ _
  | MBsPoll _ _ _ _ _ _ _ | MBsLoad _ _ _ _ _ _ _ | MSpawnW _ _ _
  | MWakeMineW _ _ | MDropWakerW _ _ => false
  | _ => true
  end.

Lemma static_benign N m : is_static m = true -> benign N m.
Proof. destruct m; cbn; intros H; try discriminate H; split; exact I. Qed.

Lemma benign_raw_ok N m : benign N m -> raw_ok N m.
Proof. intros [H _]. exact H. Qed.

Lemma pend_cont_app k a b : pend_cont k (a ++ b) = pend_cont k a + pend_cont k b.
Proof. unfold pend_cont. rewrite filter_app, app_length. reflexivity. Qed.

Lemma pend_cont_benign N k ms : Forall (benign N) ms -> pend_cont k ms = 0.
Proof.
  induction 1 as [|m ms [_ Hm] _ IH]; [reflexivity|].
  unfold pend_cont in *. cbn [filter]. destruct m; cbn [is_dec]; try exact IH. destruct Hm.
Qed.

Definition conts_ok (N : nat) (cs : list (list micro)) : Prop := Forall (Forall (raw_ok N)) cs.
Definition wakers_okl (N : nat) (hs : list hobj) : Prop :=
  forall w n k, ho_waker (nth w hs hobj_default) = Some (n, k) -> N <= k.
Definition wakers_ok (N : nat) (e : exec) : Prop := wakers_okl N (e_h e).
Definition bodies_ok (e : exec) : Prop :=
  forall b, Forall (fun m => is_static m = true) (nth b (e_bodies e) []).

(* ---- the invariant ---- *)

(* A: the runtime reference count of a declared Arc = live handles + drops in flight *)
Definition arc_inv (e : exec) : Prop :=
  forall k s, k < length (e_h e) -> get_arc e k = Some s ->
    arc_cnt s = live e k + pend e k.

(* B: the runtime message count of a declared channel = number of per-message
   views = length of the std queue; once the receiver is gone (MDropRx clears the
   flag only when the count is 0) the std queue is empty AND the count is 0, and
   both stay so: a send to a disconnected channel hands the message back and
   undoes its bookkeeping (Channel::undo_send) *)
Definition chan_inv (e : exec) : Prop :=
  forall h s, h < length (e_h e) -> get_chan e h = Some s ->
    ch_cnt s = length (ch_recv_sync s) /\
    (if ho_rx (get_h e h) then length (ho_q (get_h e h)) = ch_cnt s
     else ho_q (get_h e h) = [] /\ ch_cnt s = 0).

(* bookkeeping: the i-th harness object sits on the i-th runtime object; the
   Arcs of block_on live beyond the harness objects *)
Definition raw_inv (e : exec) : Prop :=
  length (e_h e) <= length (e_objects e) /\
  conts_ok (length (e_h e)) (conts e) /\ bodies_ok e /\ wakers_ok (length (e_h e)) e.

Definition base_inv (e : exec) : Prop := chan_inv e /\ raw_inv e.
Definition count_inv (e : exec) : Prop := arc_inv e /\ base_inv e.

(* ---- sums over the thread table ---- *)
Lemma pendc_upd k : forall cs me c g, nth_error cs me = Some c ->
  exists p, pendc k cs = p + pend_cont k c /\ pendc k (list_upd cs me g) = p + pend_cont k (g c).
Proof.
  induction cs as [|c0 cs IH]; intros me c g H; [destruct me; discriminate H|].
  destruct me as [|me]; cbn [nth_error] in H.
  - injection H as ->. exists (pendc k cs).
    unfold list_upd. cbn [nth_error list_set pendc]. lia.
  - destruct (IH me c g H) as (p & H1 & H2). exists (pend_cont k c0 + p).
    unfold list_upd in *. cbn [nth_error]. rewrite H in *. cbn [list_set pendc].
    rewrite H1, H2. lia.
Qed.

Lemma pendc_app k cs cs' : pendc k (cs ++ cs') = pendc k cs + pendc k cs'.
Proof. induction cs as [|c cs IH]; cbn [app pendc]; [reflexivity|]. rewrite IH. lia. Qed.

(* ================================================================== *)
(* 2. The frame relation: what a micro-operation that is neither an    *)
(*    Arc nor a channel operation keeps                                 *)
(* ================================================================== *)

Inductive ocount := CArc (c : nat) | CChan (c l : nat) | COther.
Definition ocnt (o : object) : ocount :=
  match o with
  | OArc s => CArc (arc_cnt s)
  | OChannel s => CChan (ch_cnt s) (length (ch_recv_sync s))
  | _ => COther
  end.

Definition hv (h : hobj) := (ho_q h, ho_rx h, ho_slots h).

Definition okeep (N : nat) (os os' : list object) : Prop :=
  length os <= length os' /\
  forall i o, i < N -> nth_error os i = Some o ->
    exists o', nth_error os' i = Some o' /\ (ocnt o' = ocnt o \/ ocnt o' = COther).

Definition hkeep (N : nat) (hs hs' : list hobj) : Prop :=
  length hs' = length hs /\
  (forall k, hv (nth k hs' hobj_default) = hv (nth k hs hobj_default)) /\
  (wakers_okl N hs -> wakers_okl N hs').

Definition tkeep (N : nat) (cs cs' : list (list micro)) : Prop :=
  (forall k, pendc k cs' = pendc k cs) /\ (conts_ok N cs -> conts_ok N cs').

Definition keeps (N : nat) (e e' : exec) : Prop :=
  hkeep N (e_h e) (e_h e') /\ okeep N (e_objects e) (e_objects e') /\
  tkeep N (conts e) (conts e') /\ e_bodies e' = e_bodies e.

Lemma okeep_refl N os : okeep N os os.
Proof. split; [apply Nat.le_refl|]. intros i o _ H. exists o. auto. Qed.

Lemma okeep_trans N a b c : okeep N a b -> okeep N b c -> okeep N a c.
Proof.
  intros [L1 H1] [L2 H2]. split; [lia|]. intros i o Hi Ho.
  destruct (H1 i o Hi Ho) as (o' & Ho' & Hr1). destruct (H2 i o' Hi Ho') as (o'' & Ho'' & Hr2).
  exists o''. split; [exact Ho''|]. destruct Hr2 as [Hr2|Hr2]; [|right; exact Hr2].
  destruct Hr1 as [Hr1|Hr1]; [left|right]; congruence.
Qed.

Lemma hkeep_refl N hs : hkeep N hs hs.
Proof. split; [reflexivity|]. split; auto. Qed.

Lemma hkeep_trans N a b c : hkeep N a b -> hkeep N b c -> hkeep N a c.
Proof.
  intros (L1 & H1 & W1) (L2 & H2 & W2). split; [congruence|]. split; [|auto].
  intros k. rewrite H2. apply H1.
Qed.

Lemma tkeep_refl N cs : tkeep N cs cs.
Proof. split; auto. Qed.

Lemma tkeep_trans N a b c : tkeep N a b -> tkeep N b c -> tkeep N a c.
Proof. intros [P1 C1] [P2 C2]. split; [|auto]. intros k. rewrite P2. apply P1. Qed.

Lemma keeps_trans N e1 e2 e3 : keeps N e1 e2 -> keeps N e2 e3 -> keeps N e1 e3.
Proof.
  intros (H1 & O1 & T1 & B1) (H2 & O2 & T2 & B2).
  split; [eapply hkeep_trans; eassumption|]. split; [eapply okeep_trans; eassumption|].
  split; [eapply tkeep_trans; eassumption|congruence].
Qed.

Lemma keeps_k N e0 e e' : keeps N e e' -> keeps N e0 e -> keeps N e0 e'.
Proof. intros H1 H0. eapply keeps_trans; eassumption. Qed.

(* keeps reads four components of the state: a change that leaves them alone
   is kept *)
Definition proj4 (e : exec) := (e_objects e, e_h e, conts e, e_bodies e).

Lemma keeps_proj4 N e e' : proj4 e' = proj4 e -> keeps N e e'.
Proof.
  unfold proj4. intros H. injection H as Ho Hh Hc Hb. unfold keeps. rewrite Ho, Hh, Hc.
  split; [apply hkeep_refl|]. split; [apply okeep_refl|]. split; [apply tkeep_refl|exact Hb].
Qed.

Lemma keeps_proj4_k N e0 e e' : proj4 e' = proj4 e -> keeps N e0 e -> keeps N e0 e'.
Proof. intros H. apply keeps_k, keeps_proj4, H. Qed.

Lemma keeps_refl N e : keeps N e e.
Proof. apply keeps_proj4. reflexivity. Qed.

Ltac tcont_tac :=
  intros;
  unfold thread_unpark, thread_notified, set_unparked, set_runnable, set_blocked, set_yield;
  repeat match goal with
         | |- context [if ?x then _ else _] => destruct x
         | |- context [match ?x with _ => _ end] => destruct x
         end; reflexivity.

Lemma proj4_set_path e x : proj4 (ex_set_path e x) = proj4 e.
Proof. reflexivity. Qed.
Lemma proj4_set_active e x : proj4 (ex_set_active e x) = proj4 e.
Proof. reflexivity. Qed.
Lemma proj4_set_seqcst e x : proj4 (ex_set_seqcst e x) = proj4 e.
Proof. reflexivity. Qed.
Lemma proj4_set_spawned e x : proj4 (ex_set_spawned e x) = proj4 e.
Proof. reflexivity. Qed.
Lemma proj4_set_joined e x : proj4 (ex_set_joined e x) = proj4 e.
Proof. reflexivity. Qed.
Lemma proj4_set_lazy e x : proj4 (ex_set_lazy e x) = proj4 e.
Proof. reflexivity. Qed.
Lemma proj4_set_log e l : proj4 (ex_set_log e l) = proj4 e.
Proof. reflexivity. Qed.
Lemma proj4_log_op e me r : proj4 (log_op e me r) = proj4 e.
Proof. unfold log_op. destruct (get_thread e me); reflexivity. Qed.
Lemma proj4_log_poll e me : proj4 (log_poll e me) = proj4 e.
Proof. unfold log_poll. destruct (get_thread e me); reflexivity. Qed.

Lemma proj4_upd_thread_keep e i f : (forall t, t_cont (f t) = t_cont t) ->
  proj4 (upd_thread e i f) = proj4 e.
Proof. intros Hf. unfold proj4. rewrite conts_upd_thread_keep by exact Hf. reflexivity. Qed.
Lemma proj4_set_caus e me v : proj4 (set_caus e me v) = proj4 e.
Proof. apply proj4_upd_thread_keep. reflexivity. Qed.
Lemma proj4_map_others e me p f : (forall t, t_cont (f t) = t_cont t) ->
  proj4 (map_others e me p f) = proj4 e.
Proof. intros Hf. unfold proj4. rewrite conts_map_others by exact Hf. reflexivity. Qed.
Lemma proj4_threads_unpark e me id : proj4 (threads_unpark e me id) = proj4 e.
Proof. unfold threads_unpark. destruct (Nat.eqb id me); apply proj4_upd_thread_keep; tcont_tac. Qed.
Lemma proj4_fold_unpark me l : forall e,
  proj4 (fold_left (fun e t => threads_unpark e me t) l e) = proj4 e.
Proof.
  induction l as [|w l IH]; intros e; cbn [fold_left]; [reflexivity|].
  rewrite IH. apply proj4_threads_unpark.
Qed.

Lemma proj4_causality_inc e me : proj4 (causality_inc e me) = proj4 e.
Proof. apply proj4_upd_thread_keep. reflexivity. Qed.
Lemma proj4_push_guard e me k m : proj4 (push_guard e me k m) = proj4 e.
Proof. apply proj4_upd_thread_keep. reflexivity. Qed.
Lemma proj4_drop_guard e me k m : proj4 (drop_guard e me k m) = proj4 e.
Proof. apply proj4_upd_thread_keep. tcont_tac. Qed.

(* proves [proj4 (F e ..) = proj4 ?e] for these helpers F *)
Ltac proj4_same :=
  first [ simple apply proj4_log_op | simple apply proj4_set_caus
        | simple apply proj4_upd_thread_keep; tcont_tac | simple apply proj4_map_others; tcont_tac
        | simple apply proj4_causality_inc | simple apply proj4_push_guard | simple apply proj4_drop_guard
        | simple apply proj4_set_path | simple apply proj4_set_active | simple apply proj4_set_seqcst
        | simple apply proj4_set_spawned | simple apply proj4_set_joined | simple apply proj4_set_lazy
        | simple apply proj4_set_log | simple apply proj4_log_poll
        | simple apply proj4_threads_unpark | simple apply proj4_fold_unpark ].

(* ---- threads ---- *)
Lemma conts_ok_upd N cs me c g :
  conts_ok N cs -> nth_error cs me = Some c ->
  (Forall (raw_ok N) c -> Forall (raw_ok N) (g c)) -> conts_ok N (list_upd cs me g).
Proof.
  unfold conts_ok. intros Hall Hc Hr. apply Forall_forall. intros c' Hin.
  pose proof (proj1 (Forall_forall _ _) Hall) as Hall'.
  apply In_nth_error in Hin. destruct Hin as [j Hj].
  destruct (Nat.eq_dec me j) as [->|Hne].
  - rewrite nth_error_list_upd_same, Hc in Hj. cbn [option_map] in Hj. injection Hj as <-.
    apply Hr. apply Hall'. eapply nth_error_In; eassumption.
  - rewrite nth_error_list_upd_other in Hj by exact Hne.
    apply Hall'. eapply nth_error_In; eassumption.
Qed.

Lemma tkeep_upd N cs i g :
  (forall c, nth_error cs i = Some c ->
     (forall k, pend_cont k (g c) = pend_cont k c) /\
     (Forall (raw_ok N) c -> Forall (raw_ok N) (g c))) ->
  tkeep N cs (list_upd cs i g).
Proof.
  intros H. destruct (nth_error cs i) as [c|] eqn:Hc.
  - destruct (H c eq_refl) as [Hp Hr]. split.
    + intros k. destruct (pendc_upd k cs i c g Hc) as (p & H1 & H2). rewrite H1, H2, Hp. reflexivity.
    + intros Hall. eapply conts_ok_upd; eassumption.
  - unfold list_upd. rewrite Hc. apply tkeep_refl.
Qed.

Lemma conts_push_cont e me ms : conts (push_cont e me ms) = list_upd (conts e) me (app ms).
Proof.
  unfold conts, push_cont, upd_thread. cbn [e_threads ex_set_threads].
  apply map_list_upd. reflexivity.
Qed.

Lemma keeps_push_cont N e me ms : Forall (benign N) ms -> keeps N e (push_cont e me ms).
Proof.
  intros Hb. split; [apply hkeep_refl|]. split; [apply okeep_refl|]. split; [|reflexivity].
  rewrite conts_push_cont. apply tkeep_upd. intros c _. split.
  - intros k. rewrite pend_cont_app, (pend_cont_benign N k ms Hb). reflexivity.
  - intros Hc. apply Forall_app. split; [|exact Hc].
    eapply Forall_impl; [|exact Hb]. intros m. apply benign_raw_ok.
Qed.

Lemma keeps_append_threads N e nt :
  Forall (benign N) (t_cont nt) -> keeps N e (ex_set_threads e (e_threads e ++ [nt])).
Proof.
  intros Hb. split; [apply hkeep_refl|]. split; [apply okeep_refl|]. split; [|reflexivity].
  unfold conts. cbn [e_threads ex_set_threads]. rewrite map_app. cbn [map]. fold (conts e). split.
  - intros k. rewrite pendc_app. cbn [pendc].
    rewrite (pend_cont_benign N k _ Hb). lia.
  - intros Hc. apply Forall_app. split; [exact Hc|]. constructor; [|constructor].
    eapply Forall_impl; [|exact Hb]. intros m. apply benign_raw_ok.
Qed.

(* ---- objects ---- *)
Lemma keeps_objects N e os' : okeep N (e_objects e) os' -> keeps N e (ex_set_objects e os').
Proof.
  intros H. split; [apply hkeep_refl|]. split; [exact H|]. split; [apply tkeep_refl|reflexivity].
Qed.

Lemma keeps_upd_object N e i f :
  (forall o, ocnt (f o) = ocnt o \/ ocnt (f o) = COther) -> keeps N e (upd_object e i f).
Proof.
  intros Hf. apply keeps_objects. split; [rewrite list_upd_length; apply Nat.le_refl|].
  intros j o _ Hj. destruct (Nat.eq_dec i j) as [->|Hne].
  - rewrite nth_error_list_upd_same, Hj. cbn [option_map]. eauto.
  - rewrite nth_error_list_upd_other by exact Hne. eauto.
Qed.

Lemma keeps_upd_object_hi N e i f : N <= i -> keeps N e (upd_object e i f).
Proof.
  intros Hi. apply keeps_objects. split; [rewrite list_upd_length; apply Nat.le_refl|].
  intros j o Hlt Hj. rewrite nth_error_list_upd_other by lia. eauto.
Qed.

Lemma keeps_append_objects N e l : keeps N e (ex_set_objects e (e_objects e ++ l)).
Proof.
  apply keeps_objects. split; [rewrite app_length; lia|].
  intros i o _ Hi. exists o. split; [|auto].
  rewrite nth_error_app1; [exact Hi|]. apply nth_error_Some. congruence.
Qed.

(* ---- harness objects ---- *)
Lemma keeps_upd_hobj N e i f :
  (forall h, hv (f h) = hv h) ->
  (forall h n k, ho_waker (f h) = Some (n, k) -> N <= k \/ ho_waker h = Some (n, k)) ->
  keeps N e (upd_hobj e i f).
Proof.
  intros Hv Hw. split; [|split; [apply okeep_refl|split; [apply tkeep_refl|reflexivity]]].
  change (hkeep N (e_h e) (list_upd (e_h e) i f)). split; [apply list_upd_length|]. split.
  - intros k. apply nth_list_upd_proj. exact Hv.
  - intros Hok w n k Hk.
    destruct (nth_list_upd_same_or _ (e_h e) i f hobj_default w) as [Heq|[_ Heq]]; rewrite Heq in Hk.
    + eapply Hok; exact Hk.
    + destruct (Hw _ _ _ Hk) as [Hle|Hk']; [exact Hle|eapply Hok; exact Hk'].
Qed.

Lemma release_lock_keeps N e me m : keeps N e (release_lock e me m).
Proof.
  assert (Ho : forall e1 o', ocnt o' = COther -> keeps N e1 (upd_object e1 m (fun _ => o')))
    by (intros e1 o' Ho'; apply keeps_upd_object; intros o; right; exact Ho').
  unfold release_lock. destruct (get_mutex e m) as [s|]; [|apply keeps_refl]. cbv zeta.
  destruct (e_active _); [|apply Ho; reflexivity].
  eapply keeps_k; [apply keeps_proj4, proj4_map_others; tcont_tac|].
  eapply keeps_k; apply Ho; reflexivity.
Qed.

(* ================================================================== *)
(* 3. Framing in continuation style                                    *)
(* ================================================================== *)

Ltac benign_tac :=
  cbn [app];
  repeat (apply Forall_cons; [split; cbn [raw_ok no_dec]; first [exact I | assumption | lia | idtac]|]);
  try apply Forall_nil.

Ltac side_wk :=
  let h := fresh "h" in let n := fresh "n" in let k := fresh "k" in let Hw := fresh "Hw" in
  intros h n k Hw; cbn in Hw;
  first [ right; exact Hw | discriminate Hw
        | injection Hw as <- <-; left; first [assumption | lia] ].

(* [keeps N ?e (F e ..)] for the helpers F of Ops.v that write a continuation,
   an object or a harness object *)
Ltac kone :=
  lazymatch goal with
  | |- keeps _ _ (push_cont _ _ _) => apply keeps_push_cont; benign_tac
  | |- keeps _ _ (ex_set_objects ?e (e_objects ?e ++ _)) => apply keeps_append_objects
  | |- keeps _ _ (ex_set_threads ?e (e_threads ?e ++ [_])) => apply keeps_append_threads
  | |- keeps _ _ (upd_object _ _ (fun _ => _)) =>
      first [ apply keeps_upd_object; intros ?; right; reflexivity
            | apply keeps_upd_object_hi; first [assumption|lia] ]
  | |- keeps _ _ (upd_hobj _ _ _) => apply keeps_upd_hobj; [intros; reflexivity|side_wk]
  | |- keeps _ _ (release_lock _ _ _) => apply release_lock_keeps
  end.

(* [keeps N e0 (F1 (F2 .. e))] from [keeps N e0 e], helper by helper: the
   helpers that leave proj4 alone by keeps_proj4_k and their equation *)
Ltac kclose_step :=
  match goal with
  | |- keeps _ ?e ?e => apply keeps_refl
  | H : keeps ?N ?E ?x |- keeps ?N _ ?x => apply (keeps_trans N _ E x); [|exact H]
  | |- keeps _ _ _ => first [ eapply keeps_proj4_k; [proj4_same|] | eapply keeps_k; [kone|] ]
  end.

Ltac kclose := cbn [res_exec lp_exec]; repeat kclose_step.

Lemma ocnt_set_last_access o act tid pid v : ocnt (set_last_access o act tid pid v) = ocnt o.
Proof. destruct o; try reflexivity; cbn [set_last_access]; destruct act; reflexivity. Qed.

Lemma schedule_keeps N e : keeps N e (res_exec (fst (schedule e))).
Proof.
  destruct (schedule_shape e) as (Ht & [Hol Ho] & Hh & _ & _ & _ & _ & _ & Hb & _).
  split; [rewrite Hh; apply hkeep_refl|]. split; [|split; [|exact Hb]].
  - split; [rewrite Hol; apply Nat.le_refl|]. intros i o _ Hi.
    destruct (Ho i o Hi) as (o' & Hi' & Hr). exists o'. split; [exact Hi'|left].
    destruct Hr as [->|(act & tid & pid & v & ->)]; [reflexivity|apply ocnt_set_last_access].
  - replace (conts (res_exec (fst (schedule e)))) with (conts e); [apply tkeep_refl|].
    symmetry. apply (pointwise_map _ t_cont _ _ Ht).
    intros t t' (t1 & [->|[d ->]] & [->|[_ ->]]); reflexivity.
Qed.

Lemma schedule_keeps_k N e0 e : keeps N e0 e -> keeps N e0 (res_exec (fst (schedule e))).
Proof. apply keeps_k, schedule_keeps. Qed.

Lemma do_branch_keeps_k N e0 e me obj act blk :
  keeps N e0 e -> keeps N e0 (res_exec (do_branch e me obj act blk)).
Proof. intros H. unfold do_branch. apply schedule_keeps_k. kclose. Qed.

Lemma do_park_keeps_k N e0 e me : keeps N e0 e -> keeps N e0 (res_exec (do_park e me)).
Proof.
  intros H. unfold do_park. destruct (get_thread e me) as [t|]; [|exact H].
  destruct (t_token t); cbn [res_exec]; [|apply schedule_keeps_k]; kclose.
Qed.

Lemma do_yield_keeps_k N e0 e me : keeps N e0 e -> keeps N e0 (res_exec (do_yield e me)).
Proof. intros H. unfold do_yield. apply schedule_keeps_k. kclose. Qed.

Lemma post_acquire_keeps N e me m : keeps N e (fst (post_acquire e me m)).
Proof.
  unfold post_acquire. destruct (get_mutex e m) as [s|]; [|apply keeps_refl].
  destruct (is_some (mx_lock s)); cbn [fst]; kclose.
Qed.

Lemma post_acquire_read_keeps N e me r : keeps N e (fst (post_acquire_read e me r)).
Proof.
  unfold post_acquire_read. destruct (get_rw e r) as [s|]; [|apply keeps_refl].
  destruct (rw_lock s) as [[rs|w]|]; cbn [fst]; kclose.
Qed.

Lemma post_acquire_write_keeps N e me r : keeps N e (fst (post_acquire_write e me r)).
Proof.
  unfold post_acquire_write. destruct (get_rw e r) as [s|]; [|apply keeps_refl].
  destruct (rw_lock s) as [lk|]; cbn [fst]; kclose.
Qed.

Lemma release_read_keeps N e me r : keeps N e (res_exec (release_read e me r)).
Proof.
  unfold release_read. destruct (get_rw e r) as [s|]; [|apply keeps_refl]. cbv zeta.
  destruct (rw_lock s) as [[rs|w]|]; cbn [res_exec]; try apply keeps_refl.
  destruct (set_remove me rs); kclose.
Qed.

Lemma release_write_keeps N e me r : keeps N e (res_exec (release_write e me r)).
Proof. unfold release_write. destruct (get_rw e r) as [s|]; kclose. Qed.

Lemma choose_store_keeps N e seed : keeps N e (fst (choose_store e seed)).
Proof. unfold choose_store. destr_all; cbn [fst]; kclose. Qed.

(* ================================================================== *)
(* 4. The micro-operations that are neither Arc nor channel operations *)
(* ================================================================== *)

(* the call t of a helper is replaced by a variable; its frame lemma L becomes
   the hypothesis Hfr *)
Ltac frame_call L t :=
  let H := fresh "Hfr" in pose proof L as H; destruct t; cbn [fst res_exec] in H.

(* one step through the body of a micro-operation: the calls that end in
   schedule by their framing lemma, the helpers that return a pair by
   frame_call, and otherwise a case distinction on the innermost match
   (remembering the case only where a registered waker is read:
   exec_micro_keeps needs it there) *)
Ltac kstep :=
  match goal with
  | |- keeps _ _ (res_exec (fst (schedule _))) => apply schedule_keeps_k
  | |- keeps _ _ (res_exec (do_branch _ _ _ _ _)) => apply do_branch_keeps_k
  | |- keeps _ _ (res_exec (do_park _ _)) => apply do_park_keeps_k
  | |- keeps _ _ (res_exec (do_yield _ _)) => apply do_yield_keeps_k
  | |- keeps ?N _ ?G =>
      match G with
      | context [post_acquire ?e ?me ?m] => frame_call (post_acquire_keeps N e me m) (post_acquire e me m)
      | context [post_acquire_read ?e ?me ?m] =>
          frame_call (post_acquire_read_keeps N e me m) (post_acquire_read e me m)
      | context [post_acquire_write ?e ?me ?m] =>
          frame_call (post_acquire_write_keeps N e me m) (post_acquire_write e me m)
      | context [release_read ?e ?me ?m] => frame_call (release_read_keeps N e me m) (release_read e me m)
      | context [release_write ?e ?me ?m] => frame_call (release_write_keeps N e me m) (release_write e me m)
      | context [choose_store ?e ?s] => frame_call (choose_store_keeps N e s) (choose_store e s)
      end
  | |- context [match ?x with _ => _ end] =>
      lazymatch x with
      | context [match _ with _ => _ end] => fail
      | context [ho_waker] => destruct x eqn:?
      | _ => destruct x
      end
  end; cbv beta iota.

Lemma load_post_keeps N e me a o : keeps N e (lp_exec (load_post e me a o)).
Proof. unfold load_post. repeat kstep. all: kclose. Qed.

Ltac kstep' :=
  first [ match goal with
          | |- context [load_post ?e ?me ?a ?o] =>
              let H := fresh "Hfr" in
              match goal with |- keeps ?N _ _ => pose proof (load_post_keeps N e me a o) as H end;
              destruct (load_post e me a o) as [[? ?]|[? ?]]; cbn [lp_exec] in H; cbv beta iota
          end
        | kstep ].

Ltac keeps_tac :=
  cbn [exec_micro]; unfold lift_path, mbind; cbv beta iota;
  repeat kstep'; kclose.

Definition generic (m : micro) : bool :=
  match m with
  | MArcIncPost _ _ | MArcDrop _ _ | MArcDecPost _ _ | MArcGetMutPost _ _ _
  | MSendPost _ _ | MRecvPost _ _ | MDropRx _ => false
  | _ => true
  end.

Lemma wakers_keeps N e e1 w n k :
  wakers_ok N e -> keeps N e e1 -> ho_waker (get_h e1 w) = Some (n, k) -> N <= k.
Proof. intros Hw ((_ & _ & Hk) & _) H. eapply Hk; [exact Hw|exact H]. Qed.

Lemma subst_waker_benign N n k : N <= k -> forall c used,
  Forall (fun m => is_static m = true) c -> Forall (benign N) (subst_waker n k used c).
Proof.
  intros Hk. induction c as [|m c IH]; intros used Hc; cbn [subst_waker]; [constructor|].
  pose proof (Forall_inv Hc) as Hm. pose proof (Forall_inv_tail Hc) as Ht.
  destruct m; try (constructor; [apply static_benign; exact Hm|apply IH; exact Ht]).
  - destruct used; (constructor; [|apply IH; exact Ht]); split; cbn [raw_ok no_dec]; auto.
  - constructor; [|apply IH; exact Ht]. destruct used; split; cbn [raw_ok no_dec]; auto.
Qed.

Lemma exec_micro_keeps N e me m :
  generic m = true -> raw_ok N m -> N <= length (e_objects e) -> wakers_ok N e -> bodies_ok e ->
  keeps N e (res_exec (exec_micro e me m)).
Proof.
  intros Hg Hm Hlen Hwk Hbod. destruct m; try discriminate Hg; cbn [raw_ok] in Hm; clear Hg.
  all: keeps_tac.
  1-2: cbn [t_cont th_set_dpor th_set_caus thread_new e_bodies ex_set_objects];
    (eapply Forall_impl; [|apply Hbod]); intros m0 Hm0; apply static_benign; exact Hm0.
  1-3: eapply wakers_keeps; eassumption.
  all: cbn [t_cont th_set_dpor th_set_caus thread_new e_bodies ex_set_objects];
    apply subst_waker_benign; [exact Hm|apply Hbod].
Qed.

(* ================================================================== *)
(* 5. The frame relation preserves the invariants                      *)
(* ================================================================== *)

Lemma hv_eq_inv h h' : hv h' = hv h -> ho_q h' = ho_q h /\ ho_rx h' = ho_rx h /\ ho_slots h' = ho_slots h.
Proof. unfold hv. intros H. injection H as H1 H2 H3. auto. Qed.

Lemma get_arc_ocnt e k s : get_arc e k = Some s ->
  exists o, nth_error (e_objects e) k = Some o /\ ocnt o = CArc (arc_cnt s).
Proof. intros H. apply get_arc_nth in H. eexists. split; [exact H|reflexivity]. Qed.

Lemma ocnt_arc_inv o c : ocnt o = CArc c -> exists s, o = OArc s /\ arc_cnt s = c.
Proof. destruct o; cbn [ocnt]; intros H; try discriminate H. injection H as <-. eauto. Qed.

Lemma ocnt_chan_inv o c l : ocnt o = CChan c l ->
  exists s, o = OChannel s /\ ch_cnt s = c /\ length (ch_recv_sync s) = l.
Proof. destruct o; cbn [ocnt]; intros H; try discriminate H. injection H as <- <-. eauto. Qed.

Lemma get_arc_of_nth e k s : nth_error (e_objects e) k = Some (OArc s) -> get_arc e k = Some s.
Proof. intros H. unfold get_arc. rewrite H. reflexivity. Qed.
Lemma get_chan_of_nth e k s : nth_error (e_objects e) k = Some (OChannel s) -> get_chan e k = Some s.
Proof. intros H. unfold get_chan. rewrite H. reflexivity. Qed.

Lemma keeps_arc_inv e e' :
  keeps (length (e_h e)) e e' -> length (e_h e) <= length (e_objects e) -> arc_inv e -> arc_inv e'.
Proof.
  intros ((Hl & Hv & _) & (_ & Ho) & (Hp & _) & _) Hlen Ha k s' Hk Hg.
  rewrite Hl in Hk. apply get_arc_nth in Hg.
  destruct (nth_error (e_objects e) k) as [o|] eqn:Hn;
    [|apply nth_error_None in Hn; lia].
  destruct (Ho k o Hk Hn) as (o' & Hn' & Hr). rewrite Hg in Hn'. injection Hn' as <-.
  cbn [ocnt] in Hr. destruct Hr as [Hr|Hr]; [|discriminate Hr].
  symmetry in Hr. destruct (ocnt_arc_inv _ _ Hr) as (s & -> & Hc).
  rewrite <- Hc. rewrite (Ha k s Hk (get_arc_of_nth _ _ _ Hn)).
  unfold live, pend, get_h. destruct (hv_eq_inv _ _ (Hv k)) as (_ & _ & ->). rewrite Hp. reflexivity.
Qed.

Lemma keeps_base_inv e e' : keeps (length (e_h e)) e e' -> base_inv e -> base_inv e'.
Proof.
  intros ((Hl & Hv & Hw) & (Hol & Ho) & (Hp & Hc) & Hb) (Hch & Hlen & Hco & Hbo & Hwk). split.
  - intros h s' Hh Hg. rewrite Hl in Hh. apply get_chan_nth in Hg.
    destruct (nth_error (e_objects e) h) as [o|] eqn:Hn;
      [|apply nth_error_None in Hn; lia].
    destruct (Ho h o Hh Hn) as (o' & Hn' & Hr). rewrite Hg in Hn'. injection Hn' as <-.
    cbn [ocnt] in Hr. destruct Hr as [Hr|Hr]; [|discriminate Hr].
    symmetry in Hr. destruct (ocnt_chan_inv _ _ _ Hr) as (s & -> & Hc1 & Hc2).
    destruct (Hch h s Hh (get_chan_of_nth _ _ _ Hn)) as [H1 H2].
    unfold get_h in *. destruct (hv_eq_inv _ _ (Hv h)) as (-> & -> & _).
    rewrite <- Hc1, <- Hc2. split; [exact H1|exact H2].
  - unfold raw_inv. rewrite Hl. split; [lia|]. split; [auto|]. split; [|apply Hw, Hwk].
    unfold bodies_ok. rewrite Hb. exact Hbo.
Qed.

(* ================================================================== *)
(* 6. Local updates: one object, its harness object, one continuation  *)
(* ================================================================== *)

Definition on_o (F : list object -> list object)
  (p : list object * list hobj * list (list micro) * list (list micro)) :=
  let '(o, h, c, b) := p in (F o, h, c, b).
Definition on_h (F : list hobj -> list hobj)
  (p : list object * list hobj * list (list micro) * list (list micro)) :=
  let '(o, h, c, b) := p in (o, F h, c, b).
Definition on_c (F : list (list micro) -> list (list micro))
  (p : list object * list hobj * list (list micro) * list (list micro)) :=
  let '(o, h, c, b) := p in (o, h, F c, b).

Lemma proj4_map_others_blocked e me p : proj4 (map_others e me p set_blocked) = proj4 e.
Proof. apply proj4_map_others. reflexivity. Qed.
Lemma proj4_map_others_runnable e me p : proj4 (map_others e me p set_runnable) = proj4 e.
Proof. apply proj4_map_others. reflexivity. Qed.
Lemma proj4_push_cont e me ms :
  proj4 (push_cont e me ms) = on_c (fun c => list_upd c me (app ms)) (proj4 e).
Proof. unfold proj4, on_c. rewrite conts_push_cont. reflexivity. Qed.
Lemma conts_pop e me rest :
  conts (upd_thread e me (fun t => th_set_cont t rest)) = list_upd (conts e) me (fun _ => rest).
Proof.
  unfold conts, upd_thread. cbn [e_threads ex_set_threads]. apply map_list_upd. reflexivity.
Qed.
Lemma proj4_pop e me rest :
  proj4 (upd_thread e me (fun t => th_set_cont t rest)) =
  on_c (fun c => list_upd c me (fun _ => rest)) (proj4 e).
Proof. unfold proj4, on_c. rewrite conts_pop. reflexivity. Qed.
Lemma proj4_upd_object e i f : proj4 (upd_object e i f) = on_o (fun o => list_upd o i f) (proj4 e).
Proof. reflexivity. Qed.
Lemma proj4_upd_hobj e i f : proj4 (upd_hobj e i f) = on_h (fun h => list_upd h i f) (proj4 e).
Proof. reflexivity. Qed.
Lemma proj4_set_slot e k i b :
  proj4 (set_slot e k i b) =
  on_h (fun h => list_upd h k (fun h => ho_set_slots h (list_set (ho_slots h) i b))) (proj4 e).
Proof. reflexivity. Qed.

Global Hint Rewrite proj4_log_op proj4_set_log proj4_set_caus proj4_map_others_blocked
  proj4_map_others_runnable proj4_push_cont proj4_pop proj4_upd_object proj4_upd_hobj
  proj4_set_slot : proj4.

Definition upd_at (e e' : exec) (k : nat) (fo : object -> object) (fh : hobj -> hobj)
                  (me : nat) (g : list micro -> list micro) : Prop :=
  proj4 e' = (list_upd (e_objects e) k fo, list_upd (e_h e) k fh, list_upd (conts e) me g, e_bodies e).

Definition local_arc (p : nat) (o : object) (h : hobj) : Prop :=
  forall s, o = OArc s -> arc_cnt s = count_true (ho_slots h) + p.
Definition local_chan (o : object) (h : hobj) : Prop :=
  forall s, o = OChannel s ->
    ch_cnt s = length (ch_recv_sync s) /\
    (if ho_rx h then length (ho_q h) = ch_cnt s else ho_q h = [] /\ ch_cnt s = 0).

Lemma get_h_nth_error e k h : nth_error (e_h e) k = Some h -> get_h e k = h.
Proof. intros H. unfold get_h. apply nth_error_nth. exact H. Qed.

Lemma nth_error_get_h e k : k < length (e_h e) -> nth_error (e_h e) k = Some (get_h e k).
Proof. intros H. unfold get_h. apply nth_error_nth'. exact H. Qed.

Lemma upd_at_get_h_same e e' k fo fh me g :
  upd_at e e' k fo fh me g -> k < length (e_h e) -> get_h e' k = fh (get_h e k).
Proof.
  intros Hu Hk. unfold upd_at, proj4 in Hu. injection Hu as _ Hh _ _. unfold get_h. rewrite Hh.
  apply nth_error_nth. rewrite nth_error_list_upd_same, (nth_error_get_h e k Hk). reflexivity.
Qed.

Lemma upd_at_get_h_cases e e' k fo fh me g h :
  upd_at e e' k fo fh me g ->
  get_h e' h = get_h e h \/ (h = k /\ get_h e' h = fh (get_h e h)).
Proof.
  intros Hu. unfold upd_at, proj4 in Hu. injection Hu as _ Hh _ _. unfold get_h. rewrite Hh.
  apply nth_list_upd_same_or.
Qed.

Lemma upd_at_get_chan_same e e' k s s' fh me g :
  upd_at e e' k (fun _ => OChannel s') fh me g -> get_chan e k = Some s -> get_chan e' k = Some s'.
Proof.
  intros Hu Hg. unfold upd_at, proj4 in Hu. injection Hu as Ho _ _ _. apply get_chan_of_nth.
  rewrite Ho, nth_error_list_upd_same, (get_chan_nth _ _ _ Hg). reflexivity.
Qed.

Lemma obj_update (L L' : nat -> object -> hobj -> Prop) e e' k fo fh me g :
  upd_at e e' k fo fh me g ->
  (forall k' o, k' < length (e_h e) -> nth_error (e_objects e) k' = Some o -> L k' o (get_h e k')) ->
  (forall k' o h, k' <> k -> L k' o h -> L' k' o h) ->
  (forall o h, nth_error (e_objects e) k = Some o -> nth_error (e_h e) k = Some h ->
     L k o h -> L' k (fo o) (fh h)) ->
  forall k' o', k' < length (e_h e') -> nth_error (e_objects e') k' = Some o' -> L' k' o' (get_h e' k').
Proof.
  intros Hu HL Hoth Hloc k' o' Hk' Hg.
  pose proof Hu as Hu'. unfold upd_at, proj4 in Hu'. injection Hu' as Ho Hh _ _.
  rewrite Hh, list_upd_length in Hk'. rewrite Ho in Hg.
  destruct (Nat.eq_dec k k') as [->|Hne].
  - rewrite nth_error_list_upd_same in Hg.
    destruct (nth_error (e_objects e) k') as [o|] eqn:Hno; [|discriminate Hg].
    cbn [option_map] in Hg. injection Hg as <-. rewrite (upd_at_get_h_same _ _ _ _ _ _ _ Hu Hk').
    apply Hloc; [reflexivity|apply nth_error_get_h, Hk'|]. apply HL; [exact Hk'|exact Hno].
  - rewrite nth_error_list_upd_other in Hg by exact Hne.
    destruct (upd_at_get_h_cases _ _ _ _ _ _ _ k' Hu) as [->|[-> _]]; [|destruct Hne; reflexivity].
    apply Hoth; [congruence|]. apply HL; [exact Hk'|exact Hg].
Qed.

Lemma arc_inv_update e e' k fo fh me c g :
  arc_inv e -> upd_at e e' k fo fh me g -> nth_error (conts e) me = Some c ->
  (forall k', k' <> k -> pend_cont k' (g c) = pend_cont k' c) ->
  (forall o h p, nth_error (e_objects e) k = Some o -> nth_error (e_h e) k = Some h ->
     local_arc (p + pend_cont k c) o h -> local_arc (p + pend_cont k (g c)) (fo o) (fh h)) ->
  arc_inv e'.
Proof.
  intros Ha Hu Hc Hoth Hloc k' s' Hk' Hg. apply get_arc_nth in Hg.
  assert (Hp : forall j, exists p, pend e j = p + pend_cont j c /\ pend e' j = p + pend_cont j (g c)).
  { intros j. unfold pend. unfold upd_at, proj4 in Hu. injection Hu as _ _ -> _.
    apply pendc_upd, Hc. }
  refine (obj_update (fun j o h => local_arc (pend e j) o h) (fun j o h => local_arc (pend e' j) o h)
            e e' k fo fh me g Hu _ _ _ k' _ Hk' Hg s' eq_refl).
  - intros j o Hj Ho s ->. apply Ha; [exact Hj|apply get_arc_of_nth, Ho].
  - intros j o h Hne Hl. destruct (Hp j) as (p & H1 & H2). rewrite H2, (Hoth j Hne), <- H1. exact Hl.
  - intros o h Ho Hh Hl. destruct (Hp k) as (p & H1 & H2). rewrite H2. apply Hloc; [exact Ho|exact Hh|].
    rewrite <- H1. exact Hl.
Qed.

Lemma arc_inv_update_chan e e' k s' fh me c :
  arc_inv e -> upd_at e e' k (fun _ => OChannel s') fh me (fun c => c) ->
  nth_error (conts e) me = Some c -> arc_inv e'.
Proof.
  intros Ha Hu Hc. eapply arc_inv_update; [exact Ha|exact Hu|exact Hc|auto|].
  intros o ho p _ _ _ s0 Hs0. discriminate Hs0.
Qed.

Lemma chan_inv_update e e' k fo fh me g :
  chan_inv e -> upd_at e e' k fo fh me g ->
  (forall o h, nth_error (e_objects e) k = Some o -> nth_error (e_h e) k = Some h ->
     local_chan o h -> local_chan (fo o) (fh h)) ->
  chan_inv e'.
Proof.
  intros Ha Hu Hloc k' s' Hk' Hg. apply get_chan_nth in Hg.
  refine (obj_update (fun _ => local_chan) (fun _ => local_chan) e e' k fo fh me g Hu _ _ Hloc
            k' _ Hk' Hg s' eq_refl).
  - intros j o Hj Ho s ->. apply Ha; [exact Hj|apply get_chan_of_nth, Ho].
  - intros j o h _ Hl. exact Hl.
Qed.

Lemma raw_inv_update e e' k fo fh me c g :
  raw_inv e -> upd_at e e' k fo fh me g -> nth_error (conts e) me = Some c ->
  (forall h, ho_waker (fh h) = ho_waker h) ->
  (Forall (raw_ok (length (e_h e))) c -> Forall (raw_ok (length (e_h e))) (g c)) ->
  raw_inv e'.
Proof.
  intros (Hlen & Hco & Hbo & Hwk) Hu Hc Hw Hg.
  unfold upd_at, proj4 in Hu. injection Hu as Ho Hh Hcs Hb.
  unfold raw_inv, bodies_ok, wakers_ok. rewrite Ho, Hh, Hcs, Hb, !list_upd_length.
  split; [exact Hlen|]. split; [|split; [exact Hbo|]].
  - eapply conts_ok_upd; eassumption.
  - intros w n k0 H. rewrite (nth_list_upd_proj _ _ ho_waker (e_h e) k fh hobj_default Hw w) in H.
    eapply Hwk; exact H.
Qed.

Lemma proj4_eq_arc_inv e e' : proj4 e' = proj4 e -> arc_inv e -> arc_inv e'.
Proof.
  unfold proj4. intros H. injection H as Ho Hh Hc Hb. intros Ha k s.
  unfold arc_inv, get_arc, live, pend, get_h in *. rewrite Ho, Hh, Hc. apply Ha.
Qed.

Lemma proj4_eq_base_inv e e' : proj4 e' = proj4 e -> base_inv e -> base_inv e'.
Proof.
  unfold proj4. intros H. injection H as Ho Hh Hc Hb.
  unfold base_inv, chan_inv, raw_inv, bodies_ok, wakers_ok, get_chan, get_h.
  rewrite Ho, Hh, Hc, Hb. auto.
Qed.

Lemma base_inv_update e e' k fo fh me c g :
  base_inv e -> upd_at e e' k fo fh me g -> nth_error (conts e) me = Some c ->
  (forall h, ho_waker (fh h) = ho_waker h) ->
  (Forall (raw_ok (length (e_h e))) c -> Forall (raw_ok (length (e_h e))) (g c)) ->
  (forall o h, nth_error (e_objects e) k = Some o -> nth_error (e_h e) k = Some h ->
     local_chan o h -> local_chan (fo o) (fh h)) ->
  base_inv e'.
Proof.
  intros [Hch Hraw] Hu Hc Hw Hg Hl. split.
  - eapply chan_inv_update; eassumption.
  - eapply raw_inv_update; eassumption.
Qed.

(* ================================================================== *)
(* 7. Popping the active thread's next micro-operation                 *)
(* ================================================================== *)

Definition pop (e : exec) (me : nat) (rest : list micro) : exec :=
  upd_thread e me (fun t => th_set_cont t rest).

Lemma pop_upd_at e me rest k :
  upd_at e (pop e me rest) k (fun o => o) (fun h => h) me (fun _ => rest).
Proof. unfold upd_at, pop. rewrite proj4_pop. unfold proj4, on_c. rewrite !list_upd_id. reflexivity. Qed.

Lemma conts_nth e me t : nth_error (e_threads e) me = Some t -> nth_error (conts e) me = Some (t_cont t).
Proof. intros H. unfold conts. apply map_nth_error. exact H. Qed.

Lemma conts_pop_nth e me t rest :
  nth_error (e_threads e) me = Some t -> nth_error (conts (pop e me rest)) me = Some rest.
Proof.
  intros H. unfold pop. rewrite conts_pop, nth_error_list_upd_same, (conts_nth e me t H). reflexivity.
Qed.

Lemma pop_base_inv e me t m rest :
  base_inv e -> nth_error (e_threads e) me = Some t -> t_cont t = m :: rest ->
  base_inv (pop e me rest).
Proof.
  intros Hb Ht Hc. eapply base_inv_update; [exact Hb|apply (pop_upd_at e me rest 0)|apply conts_nth, Ht|auto| |auto].
  rewrite Hc. intros H. apply Forall_inv_tail in H. exact H.
Qed.

Lemma pend_cont_cons_no_dec k m rest : no_dec m -> pend_cont k (m :: rest) = pend_cont k rest.
Proof. intros H. unfold pend_cont. cbn [filter]. destruct m; cbn [is_dec]; try reflexivity. destruct H. Qed.

Lemma pop_arc_inv e me t m rest :
  arc_inv e -> nth_error (e_threads e) me = Some t -> t_cont t = m :: rest -> no_dec m ->
  arc_inv (pop e me rest).
Proof.
  intros Ha Ht Hc Hm. eapply arc_inv_update; [exact Ha|apply (pop_upd_at e me rest 0)|apply conts_nth, Ht| |].
  - intros k' _. rewrite Hc. symmetry. apply pend_cont_cons_no_dec, Hm.
  - intros o h p _ _. rewrite Hc, pend_cont_cons_no_dec by exact Hm. auto.
Qed.

Lemma e_h_pop e me rest : e_h (pop e me rest) = e_h e.
Proof. reflexivity. Qed.

(* ================================================================== *)
(* 8. The Arc and channel micro-operations                             *)
(* ================================================================== *)

(* handle discipline (what the harness enforces by rejecting the program or
   what Rust's ownership rules out): a clone is stored into an empty slot that
   exists; try_unwrap is applied to a handle that is still there when the
   inspection is made *)
Definition disciplined (e : exec) (m : micro) : bool :=
  match m with
  | MArcIncPost k j =>
      negb (Nat.ltb k (length (e_h e))) ||
      match nth_error (ho_slots (get_h e k)) j with Some false => true | _ => false end
  | MArcGetMutPost k i true => negb (Nat.ltb k (length (e_h e))) || slot_present e k i
  | _ => true
  end.

Ltac upd_at_tac :=
  unfold upd_at; autorewrite with proj4; unfold proj4; cbn [on_o on_h on_c];
  rewrite ?list_upd_id; reflexivity.

Lemma nth_error_h_lt e k h : nth_error (e_h e) k = Some h -> k < length (e_h e).
Proof. intros H. apply nth_error_Some. congruence. Qed.

(* ---- clone: MArcIncPost ---- *)
Lemma inc_post_upd e me k j s : get_arc e k = Some s ->
  upd_at e (res_exec (exec_micro e me (MArcIncPost k j))) k
    (fun _ => OArc (arc_set s (S (arc_cnt s)) (arc_sync s)))
    (fun h => ho_set_slots h (list_set (ho_slots h) j true)) me (fun c => c).
Proof. intros Hg. cbn [exec_micro]. rewrite Hg. cbn [res_exec]. upd_at_tac. Qed.

Lemma inc_post_base e me c k j :
  base_inv e -> nth_error (conts e) me = Some c ->
  base_inv (res_exec (exec_micro e me (MArcIncPost k j))).
Proof.
  intros Hb Hc. destruct (get_arc e k) as [s|] eqn:Hg.
  - eapply base_inv_update; [exact Hb|apply inc_post_upd, Hg|exact Hc|auto|auto|].
    intros o h _ _ _ s' Hs'. discriminate Hs'.
  - cbn [exec_micro]. rewrite Hg. exact Hb.
Qed.

Lemma inc_post_arc e me c k j :
  arc_inv e -> nth_error (conts e) me = Some c -> disciplined e (MArcIncPost k j) = true ->
  arc_inv (res_exec (exec_micro e me (MArcIncPost k j))).
Proof.
  intros Ha Hc Hd. destruct (get_arc e k) as [s|] eqn:Hg.
  - eapply arc_inv_update; [exact Ha|apply inc_post_upd, Hg|exact Hc|auto|].
    intros o h p Ho Hh Hl s' Hs'. injection Hs' as <-.
    apply get_arc_nth in Hg. rewrite Hg in Ho. injection Ho as <-.
    cbn [arc_set arc_cnt ho_set_slots ho_slots]. rewrite (Hl s eq_refl).
    cbn [disciplined] in Hd. pose proof (nth_error_h_lt e k h Hh) as Hlt.
    apply Nat.ltb_lt in Hlt. rewrite Hlt in Hd. cbn [negb orb] in Hd.
    rewrite (get_h_nth_error e k h Hh) in Hd.
    destruct (nth_error (ho_slots h) j) as [[|]|] eqn:Hj; try discriminate Hd.
    rewrite (count_true_set_true _ _ Hj). lia.
  - cbn [exec_micro]. rewrite Hg. exact Ha.
Qed.

(* ---- taking a handle out of its slot and scheduling the decrement:
        MArcDrop and the successful MArcGetMutPost (try_unwrap) ---- *)
Definition drop_ms (k : nat) (u : bool) : list micro := [MBranch k ARefDec BNever; MArcDecPost k u].

Lemma pend_cont_drop_ms k' k u c :
  pend_cont k' (drop_ms k u ++ c) = (if Nat.eqb k k' then 1 else 0) + pend_cont k' c.
Proof.
  rewrite pend_cont_app. unfold pend_cont, drop_ms. cbn [filter is_dec].
  destruct (Nat.eqb k k'); reflexivity.
Qed.

Lemma take_base e e' me c k i u :
  base_inv e ->
  upd_at e e' k (fun o => o) (fun h => ho_set_slots h (list_set (ho_slots h) i false)) me
         (app (drop_ms k u)) ->
  nth_error (conts e) me = Some c -> base_inv e'.
Proof.
  intros Hb Hu Hc. eapply base_inv_update; [exact Hb|exact Hu|exact Hc|auto| |].
  - intros H. apply Forall_app. split; [|exact H]. repeat constructor.
  - intros o h _ _ Hl. exact Hl.
Qed.

Lemma take_arc e e' me c k i u :
  arc_inv e ->
  upd_at e e' k (fun o => o) (fun h => ho_set_slots h (list_set (ho_slots h) i false)) me
         (app (drop_ms k u)) ->
  nth_error (conts e) me = Some c ->
  (k < length (e_h e) -> slot_present e k i = true) -> arc_inv e'.
Proof.
  intros Ha Hu Hc Hp. eapply arc_inv_update; [exact Ha|exact Hu|exact Hc| |].
  - intros k' Hne. rewrite pend_cont_drop_ms.
    destruct (Nat.eqb k k') eqn:E; [apply Nat.eqb_eq in E; congruence|reflexivity].
  - intros o h p _ Hh Hl s ->. rewrite pend_cont_drop_ms, Nat.eqb_refl.
    cbn [ho_set_slots ho_slots]. rewrite (Hl s eq_refl).
    specialize (Hp (nth_error_h_lt e k h Hh)). unfold slot_present in Hp.
    rewrite (get_h_nth_error e k h Hh) in Hp.
    rewrite <- (count_true_set_false _ _ Hp). lia.
Qed.

Lemma drop_upd e me k i : slot_present e k i = true ->
  upd_at e (res_exec (exec_micro e me (MArcDrop k i))) k (fun o => o)
    (fun h => ho_set_slots h (list_set (ho_slots h) i false)) me (app (drop_ms k false)).
Proof. intros Hp. cbn [exec_micro]. rewrite Hp. cbn [res_exec]. upd_at_tac. Qed.

Lemma drop_absent e me k i : slot_present e k i = false ->
  proj4 (res_exec (exec_micro e me (MArcDrop k i))) = proj4 e.
Proof. intros Hp. cbn [exec_micro]. rewrite Hp. cbn [res_exec]. apply proj4_log_op. Qed.

Lemma drop_base e me c k i :
  base_inv e -> nth_error (conts e) me = Some c ->
  base_inv (res_exec (exec_micro e me (MArcDrop k i))).
Proof.
  intros Hb Hc. destruct (slot_present e k i) eqn:Hp.
  - eapply take_base; [exact Hb|apply drop_upd, Hp|exact Hc].
  - eapply proj4_eq_base_inv; [apply drop_absent, Hp|exact Hb].
Qed.

Lemma drop_arc e me c k i :
  arc_inv e -> nth_error (conts e) me = Some c ->
  arc_inv (res_exec (exec_micro e me (MArcDrop k i))).
Proof.
  intros Ha Hc. destruct (slot_present e k i) eqn:Hp.
  - eapply take_arc; [exact Ha|apply drop_upd, Hp|exact Hc|auto].
  - eapply proj4_eq_arc_inv; [apply drop_absent, Hp|exact Ha].
Qed.

(* ---- MArcGetMutPost ---- *)
Lemma get_mut_post_cases e me k i u :
  proj4 (res_exec (exec_micro e me (MArcGetMutPost k i u))) = proj4 e \/
  (u = true /\ (exists s, get_arc e k = Some s /\ arc_cnt s = 1) /\
   upd_at e (res_exec (exec_micro e me (MArcGetMutPost k i u))) k (fun o => o)
     (fun h => ho_set_slots h (list_set (ho_slots h) i false)) me (app (drop_ms k true))).
Proof.
  cbn [exec_micro]. destruct (get_arc e k) as [s|] eqn:Hg; [|left; reflexivity].
  destruct (Nat.eqb (arc_cnt s) 0); [left; reflexivity|]. cbv zeta.
  destruct u.
  - destruct (Nat.eqb (arc_cnt s) 1) eqn:E1; cbn [res_exec].
    + right. split; [reflexivity|]. split; [exists s; split; [reflexivity|apply Nat.eqb_eq, E1]|].
      upd_at_tac.
    + left. autorewrite with proj4. reflexivity.
  - left. cbn [res_exec]. autorewrite with proj4. reflexivity.
Qed.

Lemma get_mut_post_base e me c k i u :
  base_inv e -> nth_error (conts e) me = Some c ->
  base_inv (res_exec (exec_micro e me (MArcGetMutPost k i u))).
Proof.
  intros Hb Hc. destruct (get_mut_post_cases e me k i u) as [Hp|(_ & _ & Hu)].
  - eapply proj4_eq_base_inv; eassumption.
  - eapply take_base; eassumption.
Qed.

Lemma get_mut_post_arc e me c k i u :
  arc_inv e -> nth_error (conts e) me = Some c -> disciplined e (MArcGetMutPost k i u) = true ->
  arc_inv (res_exec (exec_micro e me (MArcGetMutPost k i u))).
Proof.
  intros Ha Hc Hd. destruct (get_mut_post_cases e me k i u) as [Hp|(-> & _ & Hu)].
  - eapply proj4_eq_arc_inv; eassumption.
  - eapply take_arc; [exact Ha|exact Hu|exact Hc|].
    intros Hlt. cbn [disciplined] in Hd. apply Nat.ltb_lt in Hlt. rewrite Hlt in Hd. exact Hd.
Qed.

Lemma dec_post_upd e me k u :
  res_exec (exec_micro e me (MArcDecPost k u)) = e /\
    (get_arc e k = None \/ exists s, get_arc e k = Some s /\ arc_cnt s = 0) \/
  exists s s', get_arc e k = Some s /\ arc_cnt s = S (arc_cnt s') /\
    upd_at e (res_exec (exec_micro e me (MArcDecPost k u))) k
           (fun _ => OArc s') (fun h => h) me (fun c => c).
Proof.
  cbn [exec_micro].
  destruct (get_arc e k) as [s|] eqn:Hg; [|left; split; [reflexivity|left; reflexivity]].
  destruct (arc_cnt s) as [|cnt] eqn:Hcnt; [left; split; [reflexivity|right; eauto]|].
  right. exists s. eexists (arc_set s cnt _). split; [reflexivity|]. split; [exact Hcnt|]. cbv zeta.
  destruct (Nat.eqb cnt 0); cbn [res_exec]; upd_at_tac.
Qed.

Lemma upd_at_pop e me rest e' k fo fh :
  upd_at (pop e me rest) e' k fo fh me (fun c => c) -> upd_at e e' k fo fh me (fun _ => rest).
Proof.
  unfold upd_at, pop. intros ->. rewrite conts_pop, list_upd_id. reflexivity.
Qed.

Lemma pend_cont_dec_same k u rest : pend_cont k (MArcDecPost k u :: rest) = S (pend_cont k rest).
Proof. unfold pend_cont. cbn [filter is_dec]. rewrite Nat.eqb_refl. reflexivity. Qed.
Lemma pend_cont_dec_other k k' u rest : k' <> k -> pend_cont k' (MArcDecPost k u :: rest) = pend_cont k' rest.
Proof.
  intros H. unfold pend_cont. cbn [filter is_dec].
  destruct (Nat.eqb k k') eqn:E; [apply Nat.eqb_eq in E; congruence|reflexivity].
Qed.

(* stated from the state BEFORE the pop, because the popped micro-operation is
   one of the counted drops in flight *)
Lemma dec_post_arc e me t rest k u :
  arc_inv e -> nth_error (e_threads e) me = Some t -> t_cont t = MArcDecPost k u :: rest ->
  arc_inv (res_exec (exec_micro (pop e me rest) me (MArcDecPost k u))).
Proof.
  intros Ha Ht Hc. pose proof (conts_nth e me t Ht) as Hcn. rewrite Hc in Hcn.
  destruct (dec_post_upd (pop e me rest) me k u) as [[-> Hbad]|(s & s' & Hg & Hcnt & Hu)];
    change (get_arc (pop e me rest) k) with (get_arc e k) in *.
  - eapply arc_inv_update; [exact Ha|apply (pop_upd_at e me rest k)|exact Hcn| |].
    + intros k' Hne. symmetry. apply pend_cont_dec_other, Hne.
    + intros o h p Ho _ Hl s ->. exfalso. apply get_arc_of_nth in Ho.
      destruct Hbad as [Hn|(s0 & Hs0 & H0)]; [congruence|].
      rewrite Ho in Hs0. injection Hs0 as <-.
      specialize (Hl s eq_refl). rewrite pend_cont_dec_same in Hl. lia.
  - eapply arc_inv_update; [exact Ha|apply upd_at_pop, Hu|exact Hcn| |].
    + intros k' Hne. symmetry. apply pend_cont_dec_other, Hne.
    + intros o h p Ho _ Hl s0 Hs0. injection Hs0 as <-.
      apply get_arc_nth in Hg. rewrite Hg in Ho. injection Ho as <-.
      specialize (Hl s eq_refl). rewrite pend_cont_dec_same in Hl. lia.
Qed.

Lemma dec_post_base e me c k u :
  base_inv e -> nth_error (conts e) me = Some c ->
  base_inv (res_exec (exec_micro e me (MArcDecPost k u))).
Proof.
  intros Hb Hc. destruct (dec_post_upd e me k u) as [[-> _]|(s & s' & _ & _ & Hu)]; [exact Hb|].
  eapply base_inv_update; [exact Hb|exact Hu|exact Hc|auto|auto|].
  intros o h _ _ _ s0 Hs0. discriminate Hs0.
Qed.

(* ---- MSendPost ---- *)
(* receiver alive: count and views grow by one, the value is queued;
   receiver gone: count and views are the old ones (only ch_sender_sync moved) *)
Lemma send_post_upd e me h v s : get_chan e h = Some s ->
  exists s',
    (if ho_rx (get_h e h)
     then ch_cnt s' = S (ch_cnt s) /\ length (ch_recv_sync s') = S (length (ch_recv_sync s))
     else ch_cnt s' = ch_cnt s /\ ch_recv_sync s' = ch_recv_sync s) /\
    upd_at e (res_exec (exec_micro e me (MSendPost h v))) h (fun _ => OChannel s')
      (fun ho => if ho_rx (get_h e h) then ho_set_q ho (ho_q ho ++ [v]) else ho) me (fun c => c).
Proof.
  intros Hg. cbn [exec_micro]. rewrite Hg. cbv zeta.
  match goal with |- context [ho_rx (get_h ?E h)] =>
    tryif constr_eq E e then fail else
    (assert (Hh : get_h E h = get_h e h) by (destruct (Nat.eqb (S (ch_cnt s)) 1); reflexivity)) end.
  rewrite Hh. destruct (ho_rx (get_h e h)); cbv iota.
  - exists (mkChan (S (ch_cnt s)) (ch_last_send s) (ch_last_recv s)
              (sync_store (ch_sender_sync s) (caus_of e me) (rel_of e me) Release)
              (ch_recv_sync s ++ [sync_store (ch_sender_sync s) (caus_of e me) (rel_of e me) Release])
              (ch_last_try_recv s)).
    split; [split; [reflexivity|cbn [ch_recv_sync]; rewrite app_length; cbn [length]; lia]|].
    cbn [res_exec]. destruct (Nat.eqb (S (ch_cnt s)) 1); upd_at_tac.
  - exists (mkChan (ch_cnt s) (ch_last_send s) (ch_last_recv s)
              (sync_store (ch_sender_sync s) (caus_of e me) (rel_of e me) Release)
              (ch_recv_sync s) (ch_last_try_recv s)).
    split; [split; reflexivity|].
    cbn [res_exec]. destruct (Nat.eqb (S (ch_cnt s)) 1);
      unfold upd_at; autorewrite with proj4; unfold proj4; cbn [on_o on_h on_c];
      rewrite ?list_upd_id, list_upd_upd_const; reflexivity.
Qed.

Lemma send_post_base e me c h v :
  base_inv e -> nth_error (conts e) me = Some c ->
  base_inv (res_exec (exec_micro e me (MSendPost h v))).
Proof.
  intros Hb Hc. destruct (get_chan e h) as [s|] eqn:Hg.
  - destruct (send_post_upd e me h v s Hg) as (s' & H1 & Hu).
    eapply base_inv_update; [exact Hb|exact Hu|exact Hc| |auto|].
    + intros ho. destruct (ho_rx (get_h e h)); reflexivity.
    + intros o ho Ho Hh Hl s0 Hs0. injection Hs0 as <-.
      apply get_chan_nth in Hg. rewrite Hg in Ho. injection Ho as <-.
      destruct (Hl s eq_refl) as [L1 L2]. rewrite (get_h_nth_error e h ho Hh) in *.
      destruct (ho_rx ho) eqn:Hrx.
      * destruct H1 as [H1 H2]. split; [lia|].
        cbn [ho_set_q ho_rx ho_q]. rewrite Hrx, app_length. cbn [length]. lia.
      * destruct H1 as [H1 H2]. rewrite Hrx. rewrite H1, H2. split; [exact L1|exact L2].
  - cbn [exec_micro]. rewrite Hg. exact Hb.
Qed.

Lemma send_post_arc e me c h v :
  arc_inv e -> nth_error (conts e) me = Some c ->
  arc_inv (res_exec (exec_micro e me (MSendPost h v))).
Proof.
  intros Ha Hc. destruct (get_chan e h) as [s|] eqn:Hg.
  - destruct (send_post_upd e me h v s Hg) as (s' & H1 & Hu).
    eapply arc_inv_update_chan; eassumption.
  - cbn [exec_micro]. rewrite Hg. exact Ha.
Qed.

(* ---- MRecvPost ---- *)
(* a receive either fails at once, or the channel holds a message: then E is the
   state after the runtime half (count and views shortened, the receiver's clock
   joined, the senders blocked on a now empty channel), and the std half pops
   the queue *)
Lemma recv_post_spec e me h lg :
  (exists p, exec_micro e me (MRecvPost h lg) = MFail e p /\ p <> PanicModel 20) \/
  exists s cnt sy rest E,
    get_chan e h = Some s /\ ch_cnt s = S cnt /\ ch_recv_sync s = sy :: rest /\
    upd_at e E h
      (fun _ => OChannel (mkChan cnt (ch_last_send s) (ch_last_recv s) (ch_sender_sync s) rest
                                 (ch_last_try_recv s)))
      (fun ho => ho) me (fun c => c) /\
    e_log E = e_log e /\
    (forall t, get_thread e me = Some t ->
       exists t', get_thread E me = Some t' /\ t_body t' = t_body t /\ t_pc t' = t_pc t) /\
    exec_micro e me (MRecvPost h lg) =
      match ho_q (get_h e h) with
      | v :: q => MOk (if lg then log_op (upd_hobj E h (fun ho => ho_set_q ho q)) me (RVal v)
                       else upd_hobj E h (fun ho => ho_set_q ho q))
      | [] => MFail E (PanicModel 20)
      end.
Proof.
  cbn [exec_micro].
  destruct (get_chan e h) as [s|] eqn:Hg; [|left; eexists; split; [reflexivity|discriminate]].
  destruct (ch_cnt s) as [|cnt] eqn:Hc; [left; eexists; split; [reflexivity|discriminate]|].
  destruct (ch_recv_sync s) as [|sy rest] eqn:Hr; [left; eexists; split; [reflexivity|discriminate]|].
  right. exists s, cnt, sy, rest. cbv zeta.
  match goal with |- context [ho_q (get_h ?E0 h)] => exists E0 end.
  split; [reflexivity|]. split; [exact Hc|]. split; [exact Hr|].
  split; [destruct (Nat.eqb cnt 0); upd_at_tac|].
  split; [destruct (Nat.eqb cnt 0); reflexivity|]. split.
  - intros t Ht. destruct (Nat.eqb cnt 0).
    + rewrite get_thread_map_others. unfold set_caus.
      rewrite get_thread_upd_thread_same, get_thread_upd_object, Ht. cbn [option_map].
      rewrite Nat.eqb_refl. cbn [negb andb]. eexists. split; [reflexivity|]. split; reflexivity.
    + unfold set_caus. rewrite get_thread_upd_thread_same, get_thread_upd_object, Ht.
      cbn [option_map]. eexists. split; [reflexivity|]. split; reflexivity.
  - match goal with |- context [ho_q (get_h ?E0 h)] =>
      replace (get_h E0 h) with (get_h e h) by (destruct (Nat.eqb cnt 0); reflexivity) end.
    reflexivity.
Qed.

Lemma recv_post_cases e me h lg :
  res_exec (exec_micro e me (MRecvPost h lg)) = e \/
  exists s s' sy, get_chan e h = Some s /\ ch_cnt s = S (ch_cnt s') /\
    ch_recv_sync s = sy :: ch_recv_sync s' /\
    upd_at e (res_exec (exec_micro e me (MRecvPost h lg))) h (fun _ => OChannel s')
           (fun ho => ho_set_q ho (tl (ho_q (get_h e h)))) me (fun c => c).
Proof.
  destruct (recv_post_spec e me h lg)
    as [(p & -> & _)|(s & cnt & sy & rest & E & Hg & Hcnt & Hrs & Hu & _ & _ & ->)]; [left; reflexivity|].
  right. exists s. eexists (mkChan cnt _ _ _ rest _). exists sy.
  split; [exact Hg|]. split; [exact Hcnt|]. split; [exact Hrs|].
  unfold upd_at in *. destruct (ho_q (get_h e h)) as [|v q] eqn:Hq; cbn [res_exec tl].
  - assert (Hfix : list_upd (e_h e) h (fun ho => ho_set_q ho []) = list_upd (e_h e) h (fun ho => ho)).
    { rewrite list_upd_id. apply list_upd_fix. intros x Hx. apply get_h_nth_error in Hx.
      rewrite Hx in Hq. destruct x. cbn in Hq. subst. reflexivity. }
    rewrite Hfix. exact Hu.
  - destruct lg; autorewrite with proj4; rewrite Hu; cbn [on_h]; rewrite !list_upd_id; reflexivity.
Qed.

Lemma recv_post_base e me c h lg :
  base_inv e -> nth_error (conts e) me = Some c ->
  base_inv (res_exec (exec_micro e me (MRecvPost h lg))).
Proof.
  intros Hb Hc.
  destruct (recv_post_cases e me h lg) as [->|(s & s' & sy & Hg & H1 & H2 & Hu)]; [exact Hb|].
  eapply base_inv_update; [exact Hb|exact Hu|exact Hc|auto|auto|].
  intros o ho Ho Hh Hl s0 Hs0. injection Hs0 as <-.
  apply get_chan_nth in Hg. rewrite Hg in Ho. injection Ho as <-.
  destruct (Hl s eq_refl) as [L1 L2]. rewrite (get_h_nth_error e h ho Hh).
  rewrite H2 in L1. cbn [length] in L1. split; [lia|].
  cbn [ho_set_q ho_rx ho_q]. destruct (ho_rx ho).
  - destruct (ho_q ho); cbn [length tl] in *; lia.
  - destruct L2 as [_ L2]. lia.
Qed.

Lemma recv_post_arc e me c h lg :
  arc_inv e -> nth_error (conts e) me = Some c ->
  arc_inv (res_exec (exec_micro e me (MRecvPost h lg))).
Proof.
  intros Ha Hc.
  destruct (recv_post_cases e me h lg) as [->|(s & s' & sy & Hg & H1 & H2 & Hu)]; [exact Ha|].
  eapply arc_inv_update_chan; eassumption.
Qed.

(* ---- MDropRx ---- *)
Lemma drop_rx_cases e me h :
  keeps (length (e_h e)) e (res_exec (exec_micro e me (MDropRx h))) \/
  ((exists s, get_chan e h = Some s /\ ch_cnt s = 0 /\ ho_rx (get_h e h) = true) /\
   upd_at e (res_exec (exec_micro e me (MDropRx h))) h (fun o => o)
          (fun ho => ho_set_q (ho_set_rx ho false) []) me (fun c => c)).
Proof.
  cbn [exec_micro]. destruct (ho_rx (get_h e h)) eqn:Hrx; cbn [negb]; [|left; kclose].
  destruct (get_chan e h) as [s|]; [|left; kclose].
  destruct (Nat.eqb (ch_cnt s) 0) eqn:E; [right|left; kclose].
  split; [exists s; split; [reflexivity|split; [apply Nat.eqb_eq, E|reflexivity]]|].
  cbn [res_exec]; upd_at_tac.
Qed.

Lemma drop_rx_base e me c h :
  base_inv e -> nth_error (conts e) me = Some c ->
  base_inv (res_exec (exec_micro e me (MDropRx h))).
Proof.
  intros Hb Hc. destruct (drop_rx_cases e me h) as [Hk|[(s0 & Hg0 & Hz & _) Hu]].
  - eapply keeps_base_inv; eassumption.
  - eapply base_inv_update; [exact Hb|exact Hu|exact Hc|auto|auto|].
    intros o ho Ho _ Hl s Hs. destruct (Hl s Hs) as [L1 _]. split; [exact L1|].
    cbn [ho_set_q ho_set_rx ho_rx ho_q]. split; [reflexivity|].
    apply get_chan_nth in Hg0. rewrite Hg0 in Ho. injection Ho as Ho. rewrite <- Ho in Hs.
    injection Hs as <-. exact Hz.
Qed.

Lemma drop_rx_arc e me c h :
  arc_inv e -> base_inv e -> nth_error (conts e) me = Some c ->
  arc_inv (res_exec (exec_micro e me (MDropRx h))).
Proof.
  intros Ha Hb Hc. destruct (drop_rx_cases e me h) as [Hk|[_ Hu]].
  - eapply keeps_arc_inv; [exact Hk|apply Hb|exact Ha].
  - eapply arc_inv_update; [exact Ha|exact Hu|exact Hc|auto|].
    intros o ho p _ _ Hl s Hs. exact (Hl s Hs).
Qed.

(* ================================================================== *)
(* 9. Every micro-step                                                 *)
(* ================================================================== *)

Lemma generic_no_dec m : generic m = true -> no_dec m.
Proof. destruct m; cbn; intros H; try discriminate H; exact I. Qed.

Lemma raw_ok_head e me t m rest :
  raw_inv e -> nth_error (e_threads e) me = Some t -> t_cont t = m :: rest ->
  raw_ok (length (e_h e)) m.
Proof.
  intros (_ & Hco & _) Ht Hc. apply conts_nth in Ht. rewrite Hc in Ht.
  unfold conts_ok in Hco. rewrite Forall_forall in Hco.
  specialize (Hco _ (nth_error_In _ _ Ht)). apply Forall_inv in Hco. exact Hco.
Qed.

(* the state carried by the result, successful or panicking *)
Theorem step_base_inv e me t m rest :
  base_inv e -> nth_error (e_threads e) me = Some t -> t_cont t = m :: rest ->
  base_inv (res_exec (exec_micro (pop e me rest) me m)).
Proof.
  intros Hb Ht Hc.
  pose proof (pop_base_inv e me t m rest Hb Ht Hc) as Hb1.
  pose proof (conts_pop_nth e me t rest Ht) as Hc1.
  destruct (generic m) eqn:Hg.
  - eapply keeps_base_inv; [|exact Hb1].
    destruct Hb1 as (_ & Hl1 & _ & Hbo1 & Hw1).
    apply exec_micro_keeps; try assumption.
    rewrite e_h_pop. eapply raw_ok_head; [apply Hb|eassumption|eassumption].
  - destruct m; try discriminate Hg.
    + eapply send_post_base; eassumption.
    + eapply recv_post_base; eassumption.
    + eapply drop_rx_base; eassumption.
    + eapply inc_post_base; eassumption.
    + eapply drop_base; eassumption.
    + eapply dec_post_base; eassumption.
    + eapply get_mut_post_base; eassumption.
Qed.

Theorem step_arc_inv e me t m rest :
  count_inv e -> nth_error (e_threads e) me = Some t -> t_cont t = m :: rest ->
  disciplined e m = true ->
  arc_inv (res_exec (exec_micro (pop e me rest) me m)).
Proof.
  intros [Ha Hb] Ht Hc Hd.
  pose proof (pop_base_inv e me t m rest Hb Ht Hc) as Hb1.
  pose proof (conts_pop_nth e me t rest Ht) as Hc1.
  destruct (generic m) eqn:Hg.
  - pose proof (pop_arc_inv e me t m rest Ha Ht Hc (generic_no_dec m Hg)) as Ha1.
    eapply keeps_arc_inv; [|apply Hb1|exact Ha1].
    destruct Hb1 as (_ & Hl1 & _ & Hbo1 & Hw1).
    apply exec_micro_keeps; try assumption.
    rewrite e_h_pop. eapply raw_ok_head; [apply Hb|eassumption|eassumption].
  - destruct m; try discriminate Hg;
      try (pose proof (pop_arc_inv e me t _ rest Ha Ht Hc I) as Ha1).
    + eapply send_post_arc; eassumption.
    + eapply recv_post_arc; eassumption.
    + eapply drop_rx_arc; eassumption.
    + eapply inc_post_arc; [exact Ha1|exact Hc1|exact Hd].
    + eapply drop_arc; eassumption.
    + eapply dec_post_arc; eassumption.
    + eapply get_mut_post_arc; [exact Ha1|exact Hc1|exact Hd].
Qed.

Theorem step_count_inv e me t m rest :
  count_inv e -> nth_error (e_threads e) me = Some t -> t_cont t = m :: rest ->
  disciplined e m = true ->
  count_inv (res_exec (exec_micro (pop e me rest) me m)).
Proof.
  intros Hi Ht Hc Hd. split.
  - eapply step_arc_inv; eassumption.
  - eapply step_base_inv; [apply Hi|eassumption|eassumption].
Qed.

(* Execution::schedule on its own *)
Theorem schedule_count_inv e : count_inv e -> count_inv (res_exec (fst (schedule e))).
Proof.
  intros [Ha Hb]. pose proof (schedule_keeps (length (e_h e)) e) as Hk. split.
  - eapply keeps_arc_inv; [exact Hk|apply Hb|exact Ha].
  - eapply keeps_base_inv; eassumption.
Qed.

(* ================================================================== *)
(* 10. The initial state                                               *)
(* ================================================================== *)

Lemma expand_static body pc i : Forall (fun m => is_static m = true) (expand body pc i).
Proof.
  destruct i; cbn [expand];
    try match goal with |- context [Nat.eqb ?k 2] => destruct (Nat.eqb k 2) end;
    repeat constructor.
Qed.

Lemma expand_body_static body : forall l pc,
  Forall (fun m => is_static m = true) (expand_body_from body pc l).
Proof.
  induction l as [|i l IH]; intros pc; cbn [expand_body_from]; [constructor|].
  constructor; [reflexivity|]. apply Forall_app. split; [apply expand_static|apply IH].
Qed.

Lemma exit_seq_static b : Forall (fun m => is_static m = true) (exit_seq b).
Proof. destruct b; cbn [exit_seq]; repeat constructor. Qed.

Lemma expand_prog_static p b : Forall (fun m => is_static m = true) (nth b (expand_prog p) []).
Proof.
  destruct (nth_error (expand_prog p) b) as [l|] eqn:Hn.
  - rewrite (nth_error_nth _ _ [] Hn). unfold expand_prog in Hn. rewrite nth_error_mapi in Hn.
    destruct (nth_error (p_bodies p) b) as [body|]; [|discriminate Hn].
    cbn [option_map] in Hn. injection Hn as <-.
    apply Forall_app. split; [apply expand_body_static|apply exit_seq_static].
  - apply nth_error_None in Hn. rewrite nth_overflow by exact Hn. constructor.
Qed.

Lemma create_object_local d :
  exists o, create_object d vv_new vv_new = inl o /\
            local_arc 0 o (hobj_of_decl d) /\ local_chan o (hobj_of_decl d).
Proof.
  destruct d; cbn [create_object hobj_of_decl];
    (eexists; split; [reflexivity|]; split; intros s Hs; try discriminate Hs).
  - injection Hs as <-. split; reflexivity.
  - injection Hs as <-. reflexivity.
Qed.

Lemma create_objects_local ds :
  exists os, create_objects ds vv_new vv_new = inl os /\ length os = length ds /\
    forall k o h, nth_error os k = Some o -> nth_error (map hobj_of_decl ds) k = Some h ->
      local_arc 0 o h /\ local_chan o h.
Proof.
  induction ds as [|d ds IH].
  - exists []. repeat split; destruct k; discriminate.
  - destruct (create_object_local d) as (o & Ho & Hl). destruct IH as (os & Hos & Hlen & Hk).
    exists (o :: os). cbn [create_objects]. rewrite Ho, Hos. split; [reflexivity|].
    split; [cbn [length]; congruence|].
    intros [|k] o' h Hn Hh; cbn [map nth_error] in Hn, Hh.
    + injection Hn as <-. injection Hh as <-. exact Hl.
    + eauto.
Qed.

Lemma hobj_of_decl_waker d : ho_waker (hobj_of_decl d) = None.
Proof. destruct d; reflexivity. Qed.

Theorem init_count_inv p pa : count_inv (init_exec p pa).
Proof.
  destruct (create_objects_local (p_decls p)) as (os & Hos & Hlen & Hk).
  assert (Hpend : forall k, pend (init_exec p pa) k = 0).
  { intros k. unfold pend, conts, init_exec. cbn [e_threads map t_cont thread_new pendc].
    rewrite (pend_cont_benign 0 k); [reflexivity|].
    eapply Forall_impl; [|apply expand_prog_static]. intros m. apply static_benign. }
  split; [|split; [|split; [|split; [|split]]]].
  - intros k s Hlt Hg. rewrite Hpend. apply get_arc_nth in Hg.
    unfold init_exec in Hg, Hlt. cbn [e_objects e_h] in Hg, Hlt. rewrite Hos in Hg.
    pose proof (nth_error_get_h (init_exec p pa) k Hlt) as Hh.
    destruct (Hk k _ _ Hg Hh) as [Hl _]. rewrite (Hl s eq_refl). reflexivity.
  - intros h s Hlt Hg. apply get_chan_nth in Hg.
    unfold init_exec in Hg, Hlt. cbn [e_objects e_h] in Hg, Hlt. rewrite Hos in Hg.
    pose proof (nth_error_get_h (init_exec p pa) h Hlt) as Hh.
    destruct (Hk h _ _ Hg Hh) as [_ Hl]. exact (Hl s eq_refl).
  - unfold init_exec. cbn [e_objects e_h]. rewrite Hos, map_length, Hlen. apply Nat.le_refl.
  - unfold conts, init_exec. cbn [e_threads map t_cont thread_new e_h]. constructor; [|constructor].
    eapply Forall_impl; [|apply expand_prog_static]. intros m Hm. apply (static_benign _ m Hm).
  - intros b. unfold init_exec. cbn [e_bodies]. apply expand_prog_static.
  - intros w n k H. unfold init_exec in H. cbn [e_h] in H.
    destruct (nth_error (map hobj_of_decl (p_decls p)) w) as [h|] eqn:Hn.
    + rewrite (nth_error_nth _ _ hobj_default Hn) in H. rewrite nth_error_map in Hn.
      destruct (nth_error (p_decls p) w) as [d|]; [|discriminate Hn]. injection Hn as <-.
      rewrite hobj_of_decl_waker in H. discriminate H.
    + apply nth_error_None in Hn. rewrite nth_overflow in H by exact Hn. discriminate H.
Qed.

(* ================================================================== *)
(* 11. Executions                                                      *)
(* ================================================================== *)

(* steps in which the handle discipline is respected *)
Inductive dsteps : exec -> exec -> Prop :=
  | dsteps_refl e : dsteps e e
  | dsteps_step e me t m rest e1 e2 :
      e_active e = Some me -> nth_error (e_threads e) me = Some t -> t_cont t = m :: rest ->
      disciplined e m = true ->
      exec_micro (pop e me rest) me m = MOk e1 -> dsteps e1 e2 -> dsteps e e2.

Lemma dsteps_steps e e' : dsteps e e' -> steps e e'.
Proof.
  induction 1 as [e|e me t m rest e1 e2 Ha Ht Hc Hd Hx Hs IH]; [apply steps_refl|].
  eapply steps_step; [exact Ha|exact Ht|exact Hc|exact Hx|exact IH].
Qed.

Theorem dsteps_count_inv e e' : dsteps e e' -> count_inv e -> count_inv e'.
Proof.
  induction 1 as [e|e me t m rest e1 e2 Ha Ht Hc Hd Hx Hs IH]; intros Hi; [exact Hi|].
  apply IH. pose proof (step_count_inv e me t m rest Hi Ht Hc Hd) as H. rewrite Hx in H. exact H.
Qed.

(* the channel half needs no discipline *)
Theorem steps_base_inv e e' : steps e e' -> base_inv e -> base_inv e'.
Proof.
  apply steps_invariant. intros e0 me t m rest e1 Hi _ Ht Hc Hx.
  pose proof (step_base_inv e0 me t m rest Hi Ht Hc) as H. unfold pop in H. rewrite Hx in H. exact H.
Qed.

(* Scheduler::run with a monitor: every executed micro-operation respects the
   handle discipline *)
Fixpoint run_disc (fuel : nat) (e : exec) : bool :=
  match fuel with
  | 0 => true
  | S fuel' =>
      match e_active e with
      | None => true
      | Some me =>
          match nth_error (e_threads e) me with
          | None => true
          | Some t =>
              match t_cont t with
              | [] => true
              | m :: rest =>
                  disciplined e m &&
                  match exec_micro (pop e me rest) me m with
                  | MOk e2 => run_disc fuel' e2
                  | MFail _ _ => true
                  end
              end
          end
      end
  end.

Theorem run_base_inv : forall fuel e, base_inv e -> base_inv (fst (run fuel e)).
Proof. apply run_invariant. intros e me t m rest Hi _ Ht Hc. exact (step_base_inv e me t m rest Hi Ht Hc). Qed.

Theorem run_count_inv_from : forall fuel e,
  count_inv e -> run_disc fuel e = true -> count_inv (fst (run fuel e)).
Proof.
  induction fuel as [|fuel IH]; intros e Hi Hd; cbn [run run_disc] in *; [exact Hi|].
  destruct (e_active e) as [me|]; [|exact Hi].
  destruct (nth_error (e_threads e) me) as [t|] eqn:Ht; [|exact Hi].
  destruct (t_cont t) as [|m rest] eqn:Hc; [exact Hi|].
  apply andb_prop in Hd. destruct Hd as [Hd1 Hd2].
  pose proof (step_count_inv e me t m rest Hi Ht Hc Hd1) as H. unfold pop in *.
  destruct (exec_micro _ me m) as [e2|e2 pn]; cbn [res_exec fst] in *; [apply IH; assumption|exact H].
Qed.

(* C *)
Theorem run_count_inv : forall fuel p pa,
  run_disc fuel (init_exec p pa) = true -> count_inv (fst (run fuel (init_exec p pa))).
Proof. intros fuel p pa. apply run_count_inv_from, init_count_inv. Qed.

Theorem run_chan_inv : forall fuel p pa, chan_inv (fst (run fuel (init_exec p pa))).
Proof. intros fuel p pa. apply (run_base_inv fuel (init_exec p pa)), init_count_inv. Qed.

(* the declared objects: e_h never changes its length *)
Lemma run_h_length fuel p pa :
  length (e_h (fst (run fuel (init_exec p pa)))) = length (p_decls p).
Proof.
  destruct (run_mono fuel (init_exec p pa)) as (_ & _ & [Hl _] & _). rewrite Hl.
  unfold init_exec. cbn [e_h]. apply map_length.
Qed.

(* the two halves of the invariant, spelled out for the runs of the model *)
Theorem run_arc_count_is_live_handles fuel p pa k s :
  run_disc fuel (init_exec p pa) = true -> k < length (p_decls p) ->
  get_arc (fst (run fuel (init_exec p pa))) k = Some s ->
  arc_cnt s = live (fst (run fuel (init_exec p pa))) k + pend (fst (run fuel (init_exec p pa))) k.
Proof.
  intros Hd Hk Hg. destruct (run_count_inv fuel p pa Hd) as [Ha _].
  apply Ha; [rewrite run_h_length; exact Hk|exact Hg].
Qed.

Theorem run_chan_count_is_queue_length fuel p pa h s :
  h < length (p_decls p) -> get_chan (fst (run fuel (init_exec p pa))) h = Some s ->
  ch_cnt s = length (ch_recv_sync s) /\
  (if ho_rx (get_h (fst (run fuel (init_exec p pa))) h)
   then length (ho_q (get_h (fst (run fuel (init_exec p pa))) h)) = ch_cnt s
   else ho_q (get_h (fst (run fuel (init_exec p pa))) h) = [] /\ ch_cnt s = 0).
Proof.
  intros Hh Hg. apply (run_chan_inv fuel p pa); [rewrite run_h_length; exact Hh|exact Hg].
Qed.

(* without the case distinction: the three counters always agree, and a channel
   whose receiver is gone holds no message *)
Lemma chan_inv_queue_length e h s :
  chan_inv e -> h < length (e_h e) -> get_chan e h = Some s ->
  ch_cnt s = length (ch_recv_sync s) /\ length (ho_q (get_h e h)) = ch_cnt s /\
  (ho_rx (get_h e h) = false -> ch_cnt s = 0).
Proof.
  intros Hi Hh Hg. destruct (Hi h s Hh Hg) as [L1 L2]. split; [exact L1|].
  destruct (ho_rx (get_h e h)).
  - split; [exact L2|]. intros Hf. discriminate Hf.
  - destruct L2 as [Hq Hz]. rewrite Hq, Hz. split; [reflexivity|]. intros _. reflexivity.
Qed.

Theorem run_chan_count_is_queue_length_all fuel p pa h s :
  h < length (p_decls p) -> get_chan (fst (run fuel (init_exec p pa))) h = Some s ->
  ch_cnt s = length (ch_recv_sync s) /\
  length (ho_q (get_h (fst (run fuel (init_exec p pa))) h)) = ch_cnt s /\
  (ho_rx (get_h (fst (run fuel (init_exec p pa))) h) = false -> ch_cnt s = 0).
Proof.
  intros Hh Hg. apply chan_inv_queue_length; [apply run_chan_inv|rewrite run_h_length; exact Hh|exact Hg].
Qed.

Lemma run_dsteps : forall fuel e e' r, run fuel e = (e', r) -> run_disc fuel e = true ->
  r = IterDone \/ r = IterFuel -> dsteps e e'.
Proof.
  induction fuel as [|fuel IH]; intros e e' r H Hd Hr; cbn [run run_disc] in H, Hd.
  - injection H as <- _. apply dsteps_refl.
  - destruct (e_active e) as [me|] eqn:Ha; [|injection H as <- _; apply dsteps_refl].
    destruct (nth_error (e_threads e) me) as [t|] eqn:Ht;
      [|injection H as _ <-; destruct Hr; discriminate].
    destruct (t_cont t) as [|m rest] eqn:Hc; [injection H as _ <-; destruct Hr; discriminate|].
    apply andb_prop in Hd. destruct Hd as [Hd1 Hd2]. unfold pop in *.
    destruct (exec_micro _ me m) as [e2|e2 pn] eqn:Hx;
      [|injection H as _ <-; destruct Hr; discriminate].
    eapply dsteps_step; eauto.
Qed.

(* ================================================================== *)
(* 12. A: loom::sync::Arc counts like std::sync::Arc                   *)
(* ================================================================== *)

Lemma log_op_log e me t r :
  get_thread e me = Some t -> e_log (log_op e me r) = LOp (t_body t) (t_pc t) r :: e_log e.
Proof. intros H. unfold log_op. rewrite H. reflexivity. Qed.

(* Arc::strong_count logs the number of live handles plus the drops in flight *)
Theorem strong_count_is_live_handles e me t k e' :
  arc_inv e -> k < length (e_h e) -> get_thread e me = Some t ->
  exec_micro e me (MArcCountPost k) = MOk e' ->
  e_log e' = LOp (t_body t) (t_pc t) (RVal (N.of_nat (live e k + pend e k))) :: e_log e.
Proof.
  intros Ha Hk Ht H. cbn [exec_micro] in H. destruct (get_arc e k) as [s|] eqn:Hg; [|discriminate H].
  destruct (Nat.eqb (arc_cnt s) 0); [discriminate H|]. injection H as <-.
  rewrite <- (Ha k s Hk Hg).
  match goal with |- context [log_op (set_caus e me ?v) me _] =>
    assert (Hgt : get_thread (set_caus e me v) me = Some (th_set_caus t v))
      by (unfold set_caus; rewrite get_thread_upd_thread_same, Ht; reflexivity) end.
  rewrite (log_op_log _ _ _ _ Hgt). reflexivity.
Qed.

Corollary strong_count_is_live_handles_quiet e me t k e' :
  arc_inv e -> k < length (e_h e) -> get_thread e me = Some t -> pend e k = 0 ->
  exec_micro e me (MArcCountPost k) = MOk e' ->
  e_log e' = LOp (t_body t) (t_pc t) (RVal (N.of_nat (live e k))) :: e_log e.
Proof.
  intros Ha Hk Ht Hp H. rewrite (strong_count_is_live_handles e me t k e' Ha Hk Ht H), Hp, Nat.add_0_r.
  reflexivity.
Qed.

Lemma pend_ge_own e me t k : nth_error (e_threads e) me = Some t ->
  pend_cont k (t_cont t) <= pend e k.
Proof.
  intros Ht. destruct (pendc_upd k (conts e) me (t_cont t) (fun c => c) (conts_nth e me t Ht))
    as (p & Hp & _). unfold pend. lia.
Qed.

(* the decrement that belongs to a dropped handle never finds the count at 0 *)
Theorem no_double_release e me t k u rest :
  arc_inv e -> k < length (e_h e) ->
  nth_error (e_threads e) me = Some t -> t_cont t = MArcDecPost k u :: rest ->
  forall e2, exec_micro (pop e me rest) me (MArcDecPost k u) <> MFail e2 PanicArcReleased.
Proof.
  intros Ha Hk Ht Hc e2 H. cbn [exec_micro] in H.
  change (get_arc (pop e me rest) k) with (get_arc e k) in H.
  destruct (get_arc e k) as [s|] eqn:Hg; [|discriminate H].
  pose proof (Ha k s Hk Hg) as Hcnt. pose proof (pend_ge_own e me t k Ht) as Hge.
  rewrite Hc, pend_cont_dec_same in Hge.
  destruct (arc_cnt s) as [|cnt]; [lia|]. discriminate H.
Qed.

(* the payload is destroyed (LDrop k is logged) by exactly that decrement
   after which no handle is live and no other drop is in flight *)
Definition destroys (e e' : exec) (k : nat) : Prop := exists l, e_log e' = l ++ LDrop k :: e_log e.

Theorem final_drop_iff_last_handle e me t k u rest e' :
  arc_inv e -> k < length (e_h e) ->
  nth_error (e_threads e) me = Some t -> t_cont t = MArcDecPost k u :: rest ->
  exec_micro (pop e me rest) me (MArcDecPost k u) = MOk e' ->
  (destroys e e' k <-> live e k = 0 /\ pend e k = 1).
Proof.
  intros Ha Hk Ht Hc H. cbn [exec_micro] in H.
  change (get_arc (pop e me rest) k) with (get_arc e k) in H.
  destruct (get_arc e k) as [s|] eqn:Hg; [|discriminate H].
  pose proof (Ha k s Hk Hg) as Hcnt. pose proof (pend_ge_own e me t k Ht) as Hge.
  rewrite Hc, pend_cont_dec_same in Hge.
  destruct (arc_cnt s) as [|cnt]; [discriminate H|]. cbv zeta in H. injection H as <-.
  assert (Ht1 : get_thread (pop e me rest) me = Some (th_set_cont t rest)).
  { unfold pop. rewrite get_thread_upd_thread_same. unfold get_thread. rewrite Ht. reflexivity. }
  unfold destroys. destruct (Nat.eqb cnt 0) eqn:E.
  - apply Nat.eqb_eq in E. subst cnt. split; [intros _; lia|intros _].
    unfold log_op.
    match goal with |- context [get_thread ?E me] =>
      assert (Hx : exists t2, get_thread E me = Some t2) end.
    { eexists. change (get_thread (ex_set_log ?X ?l) me) with (get_thread X me).
      unfold set_caus. rewrite get_thread_upd_thread_same, get_thread_upd_object, Ht1. reflexivity. }
    destruct Hx as (t2 & ->). eexists [_]. reflexivity.
  - apply Nat.eqb_neq in E. split; [|intros; lia]. intros (l & Hl). exfalso.
    unfold log_op in Hl. rewrite get_thread_upd_object, Ht1 in Hl.
    cbn [e_log ex_set_log upd_object ex_set_objects pop upd_thread ex_set_threads] in Hl.
    assert (Hlen : length l = 0).
    { apply (f_equal (@length logline)) in Hl. rewrite app_length in Hl. cbn [length] in Hl. lia. }
    destruct l; [|discriminate Hlen]. discriminate Hl.
Qed.

(* try_unwrap hands out the payload iff the handle is the only one *)
Theorem try_unwrap_iff_unique e k i s :
  arc_inv e -> k < length (e_h e) -> get_arc e k = Some s -> slot_present e k i = true ->
  (Nat.eqb (arc_cnt s) 1 = true <-> live e k = 1 /\ pend e k = 0).
Proof.
  intros Ha Hk Hg Hp. rewrite (Ha k s Hk Hg), Nat.eqb_eq.
  assert (1 <= live e k).
  { unfold live. unfold slot_present in Hp. rewrite <- (count_true_set_false _ _ Hp). lia. }
  lia.
Qed.

(* ================================================================== *)
(* 13. B: the channel delivers every message once, in order            *)
(* ================================================================== *)

Lemma get_h_default_ge e h : length (e_h e) <= h -> get_h e h = hobj_default.
Proof. intros H. unfold get_h. apply nth_overflow. exact H. Qed.

Lemma rx_in_range e h : ho_rx (get_h e h) = true -> h < length (e_h e).
Proof.
  intros H. destruct (Nat.lt_ge_cases h (length (e_h e))) as [Hlt|Hge]; [exact Hlt|].
  rewrite get_h_default_ge in H by exact Hge. discriminate H.
Qed.

Lemma q_in_range e h v q : ho_q (get_h e h) = v :: q -> h < length (e_h e).
Proof.
  intros H. destruct (Nat.lt_ge_cases h (length (e_h e))) as [Hlt|Hge]; [exact Hlt|].
  rewrite get_h_default_ge in H by exact Hge. discriminate H.
Qed.

Lemma proj4_eq_get_h e e' h : proj4 e' = proj4 e -> get_h e' h = get_h e h.
Proof. unfold proj4. intros H. injection H as _ Hh _ _. unfold get_h. rewrite Hh. reflexivity. Qed.

(* a send appends exactly its value at the back of the std queue, and the
   runtime counts one more message *)
Theorem send_appends_one e me h v e' :
  exec_micro e me (MSendPost h v) = MOk e' -> ho_rx (get_h e h) = true ->
  ho_q (get_h e' h) = ho_q (get_h e h) ++ [v] /\
  exists s s', get_chan e h = Some s /\ get_chan e' h = Some s' /\ ch_cnt s' = S (ch_cnt s).
Proof.
  intros H Hrx. destruct (get_chan e h) as [s|] eqn:Hg;
    [|cbn [exec_micro] in H; rewrite Hg in H; discriminate H].
  destruct (send_post_upd e me h v s Hg) as (s' & H1 & Hu). rewrite H in Hu. cbn [res_exec] in Hu.
  rewrite Hrx in H1. destruct H1 as [H1 _].
  rewrite (upd_at_get_h_same _ _ _ _ _ _ _ Hu (rx_in_range e h Hrx)), Hrx. split; [reflexivity|].
  exists s, s'. split; [reflexivity|]. split; [|exact H1].
  eapply upd_at_get_chan_same; [exact Hu|exact Hg].
Qed.

(* a send to a channel whose receiver is gone leaves the (empty) queue alone,
   and the runtime count and the per-message views as well: the message is
   handed back to the sender, the channel does not hold it *)
Theorem send_disconnected_keeps_queue e me h v e' :
  exec_micro e me (MSendPost h v) = MOk e' -> ho_rx (get_h e h) = false ->
  ho_q (get_h e' h) = ho_q (get_h e h) /\
  exists s s', get_chan e h = Some s /\ get_chan e' h = Some s' /\
               ch_cnt s' = ch_cnt s /\ ch_recv_sync s' = ch_recv_sync s.
Proof.
  intros H Hrx. destruct (get_chan e h) as [s|] eqn:Hg;
    [|cbn [exec_micro] in H; rewrite Hg in H; discriminate H].
  destruct (send_post_upd e me h v s Hg) as (s' & H1 & Hu). rewrite H in Hu. cbn [res_exec] in Hu.
  rewrite Hrx in H1. destruct H1 as [H1 H2]. split.
  - destruct (upd_at_get_h_cases _ _ _ _ _ _ _ h Hu) as [->|[_ ->]]; [reflexivity|].
    rewrite Hrx. reflexivity.
  - exists s, s'. split; [reflexivity|]. split; [|split; [exact H1|exact H2]].
    eapply upd_at_get_chan_same; [exact Hu|exact Hg].
Qed.

(* the internal failure of MRecvPost ("the runtime let the receive proceed but
   the std queue is empty"): with Channel::undo_send the three counters agree
   also after the receiver is gone, so the failure is impossible on every
   DECLARED channel, receiver alive or not *)
Theorem recv_never_empty_handed_declared e me h lg :
  chan_inv e -> h < length (e_h e) ->
  forall e2, exec_micro e me (MRecvPost h lg) <> MFail e2 (PanicModel 20).
Proof.
  intros Hch Hlt e2 H.
  destruct (recv_post_spec e me h lg)
    as [(p & Hx & Hp)|(s & cnt & sy & rest & E & Hg & Hcnt & _ & _ & _ & _ & Hx)]; rewrite Hx in H.
  - injection H as _ ->. apply Hp. reflexivity.
  - destruct (chan_inv_queue_length e h s Hch Hlt Hg) as (_ & Hq & _). rewrite Hcnt in Hq.
    destruct (ho_q (get_h e h)); [discriminate Hq|discriminate H].
Qed.

Theorem recv_never_empty_handed e me h lg :
  chan_inv e -> ho_rx (get_h e h) = true ->
  forall e2, exec_micro e me (MRecvPost h lg) <> MFail e2 (PanicModel 20).
Proof. intros Hch Hrx. apply recv_never_empty_handed_declared; [exact Hch|apply rx_in_range, Hrx]. Qed.

Corollary recv_proceeds_queue_nonempty e h s :
  chan_inv e -> ho_rx (get_h e h) = true -> get_chan e h = Some s -> ch_cnt s <> 0 ->
  ho_q (get_h e h) <> [].
Proof.
  intros Hch Hrx Hg Hc Hq. destruct (Hch h s (rx_in_range e h Hrx) Hg) as [_ H].
  rewrite Hrx, Hq in H. cbn [length] in H. congruence.
Qed.

(* a successful receive (recv, or try_recv that found a message) removes exactly
   the front element of the std queue and logs its value *)
Theorem recv_removes_front e me t h e' :
  get_thread e me = Some t -> exec_micro e me (MRecvPost h true) = MOk e' ->
  exists v q, ho_q (get_h e h) = v :: q /\ ho_q (get_h e' h) = q /\
              e_log e' = LOp (t_body t) (t_pc t) (RVal v) :: e_log e.
Proof.
  intros Ht H.
  destruct (recv_post_spec e me h true)
    as [(p & Hx & _)|(s & cnt & sy & rest & E & _ & _ & _ & Hu & Hlog & Hth & Hx)]; rewrite Hx in H;
    [discriminate H|].
  destruct (ho_q (get_h e h)) as [|v q] eqn:Hq; [discriminate H|]. injection H as <-.
  exists v, q. split; [reflexivity|]. destruct (Hth t Ht) as (t' & Ht' & Hb & Hp). split.
  - assert (Hu' : upd_at e (log_op (upd_hobj E h (fun ho => ho_set_q ho q)) me (RVal v)) h
                    (fun _ => OChannel (mkChan cnt (ch_last_send s) (ch_last_recv s) (ch_sender_sync s)
                                               rest (ch_last_try_recv s)))
                    (fun ho => ho_set_q ho q) me (fun c => c)).
    { unfold upd_at in *. autorewrite with proj4. rewrite Hu. cbn [on_h]. rewrite !list_upd_id. reflexivity. }
    rewrite (upd_at_get_h_same _ _ _ _ _ _ _ Hu' (q_in_range e h v q Hq)). reflexivity.
  - rewrite (log_op_log (upd_hobj E h _) me t' _ Ht'), Hb, Hp. cbn [e_log upd_hobj ex_set_h].
    rewrite Hlog. reflexivity.
Qed.

(* the shape of one step on a std queue *)
Definition qshape (q q' : list N) : Prop :=
  q' = q \/ (exists v, q' = q ++ [v]) \/ (exists v, q = v :: q').

Lemma keeps_q N e e' h : keeps N e e' -> ho_q (get_h e' h) = ho_q (get_h e h).
Proof. intros ((_ & Hv & _) & _). destruct (hv_eq_inv _ _ (Hv h)) as (H & _). exact H. Qed.

Lemma upd_at_qshape e e' k fo fh me g h :
  upd_at e e' k fo fh me g -> qshape (ho_q (get_h e k)) (ho_q (fh (get_h e k))) ->
  qshape (ho_q (get_h e h)) (ho_q (get_h e' h)).
Proof.
  intros Hu Hk. destruct (upd_at_get_h_cases _ _ _ _ _ _ _ h Hu) as [->|[-> ->]]; [left; reflexivity|exact Hk].
Qed.

Theorem queue_step_shape e me t m rest h :
  base_inv e -> nth_error (e_threads e) me = Some t -> t_cont t = m :: rest ->
  qshape (ho_q (get_h e h)) (ho_q (get_h (res_exec (exec_micro (pop e me rest) me m)) h)).
Proof.
  intros Hb Ht Hc.
  pose proof (pop_base_inv e me t m rest Hb Ht Hc) as Hb1.
  pose proof (raw_ok_head e me t m rest (proj2 Hb) Ht Hc) as Hraw.
  change (get_h e h) with (get_h (pop e me rest) h).
  change (length (e_h e)) with (length (e_h (pop e me rest))) in Hraw.
  generalize dependent (pop e me rest). intros e1 Hb1 Hraw.
  destruct (generic m) eqn:Hg.
  - left. apply (keeps_q (length (e_h e1))).
    destruct Hb1 as (_ & Hl1 & Hco1 & Hbo1 & Hw1). apply exec_micro_keeps; assumption.
  - destruct m; try discriminate Hg.
    + (* MSendPost *)
      destruct (get_chan e1 h0) as [s|] eqn:Hgc;
        [|cbn [exec_micro]; rewrite Hgc; left; reflexivity].
      destruct (send_post_upd e1 me h0 v s Hgc) as (s' & _ & Hu).
      eapply upd_at_qshape; [exact Hu|].
      destruct (ho_rx (get_h e1 h0)); [right; left; exists v; reflexivity|left; reflexivity].
    + (* MRecvPost *)
      destruct (recv_post_cases e1 me h0 log) as [->|(s & s' & sy & _ & _ & _ & Hu)]; [left; reflexivity|].
      eapply upd_at_qshape; [exact Hu|]. cbn [ho_set_q ho_q].
      destruct (ho_q (get_h e1 h0)) as [|v q]; [left; reflexivity|right; right; exists v; reflexivity].
    + (* MDropRx *)
      destruct (drop_rx_cases e1 me h0) as [Hk|[(s & Hgc & H0 & Hrx) Hu]];
        [left; eapply keeps_q; exact Hk|].
      eapply upd_at_qshape; [exact Hu|]. left. cbn [ho_set_q ho_q]. destruct Hb1 as [Hch _].
      destruct (Hch h0 s (rx_in_range e1 h0 Hrx) Hgc) as [_ Hq]. rewrite Hrx, H0 in Hq.
      destruct (ho_q (get_h e1 h0)); [reflexivity|discriminate Hq].
    + (* MArcIncPost *)
      destruct (get_arc e1 k) as [s|] eqn:Hga;
        [|cbn [exec_micro]; rewrite Hga; left; reflexivity].
      eapply upd_at_qshape; [apply inc_post_upd, Hga|left; reflexivity].
    + (* MArcDrop *)
      destruct (slot_present e1 k i) eqn:Hp.
      * eapply upd_at_qshape; [apply drop_upd, Hp|left; reflexivity].
      * left. rewrite (proj4_eq_get_h _ _ h (drop_absent e1 me k i Hp)). reflexivity.
    + (* MArcDecPost *)
      destruct (dec_post_upd e1 me k unwrap) as [[-> _]|(s & s' & _ & _ & Hu)]; [left; reflexivity|].
      eapply upd_at_qshape; [exact Hu|left; reflexivity].
    + (* MArcGetMutPost *)
      destruct (get_mut_post_cases e1 me k i unwrap) as [Hp|(_ & _ & Hu)].
      * left. rewrite (proj4_eq_get_h _ _ h Hp). reflexivity.
      * eapply upd_at_qshape; [exact Hu|left; reflexivity].
Qed.

(* FIFO over any number of steps: what is left of the old queue is one of its
   suffixes, followed by the values sent since, in the order of the sends *)
Lemma qshape_suffix q q1 q' n l :
  qshape q q1 -> q' = skipn n q1 ++ l -> exists n' l', q' = skipn n' q ++ l'.
Proof.
  intros [->|[(v & ->)|(v & ->)]] ->.
  - eauto.
  - rewrite skipn_app, <- app_assoc. eauto.
  - exists (S n), l. reflexivity.
Qed.

Theorem steps_queue_fifo e e' h :
  steps e e' -> base_inv e ->
  exists n l, ho_q (get_h e' h) = skipn n (ho_q (get_h e h)) ++ l.
Proof.
  induction 1 as [e|e me t m rest e1 e2 Ha Ht Hc Hx Hs IH]; intros Hb.
  - exists 0, []. cbn [skipn]. rewrite app_nil_r. reflexivity.
  - pose proof (step_base_inv e me t m rest Hb Ht Hc) as Hb1.
    pose proof (queue_step_shape e me t m rest h Hb Ht Hc) as Hq.
    unfold pop in Hb1, Hq. rewrite Hx in Hb1, Hq. cbn [res_exec] in Hb1, Hq.
    destruct (IH Hb1) as (n & l & Hn). eapply qshape_suffix; eassumption.
Qed.


(* ---- the internal failure PanicModel 20 of the whole model comes from
        MRecvPost only, and only after the receiver has been dropped ---- *)
(* where a panic can come from, apart from the case distinctions of exec_micro
   itself: the tracking of atomics and cells, choose_store and the release of
   an rwlock raise *)
Definition helper_panic (p : panic) : Prop :=
  match p with
  | PanicCausality _ | PanicMutating | PanicPath _ | PanicMoEq | PanicRwInvalid | PanicModel 11 => True
  | _ => False
  end.
Definition sched_panic (p : panic) : Prop :=
  match p with
  | PanicDeadlock _ | PanicPath _ | PanicModel 1 | PanicModel 2 | PanicModel 3 => True
  | _ => False
  end.

Ltac panic_leaves :=
  destr_all; intros H; try discriminate H; first [injection H as _ <- | injection H as <-]; exact I.

Lemma schedule_panic e e2 p : fst (schedule e) = MFail e2 p -> sched_panic p.
Proof.
  rewrite schedule_unfold. unfold sched_post. destr_all; cbn [fst]; panic_leaves.
Qed.
Lemma track_load_panic s c p : track_load s c = inr p -> helper_panic p.
Proof. unfold track_load. panic_leaves. Qed.
Lemma track_unsync_load_panic s c p : track_unsync_load s c = inr p -> helper_panic p.
Proof. unfold track_unsync_load. panic_leaves. Qed.
Lemma track_store_panic s c p : track_store s c = inr p -> helper_panic p.
Proof. unfold track_store. panic_leaves. Qed.
Lemma track_unsync_mut_panic s c p : track_unsync_mut s c = inr p -> helper_panic p.
Proof. unfold track_unsync_mut. panic_leaves. Qed.
Lemma cell_track_read_panic s c p : cell_track_read s c = inr p -> helper_panic p.
Proof. unfold cell_track_read. panic_leaves. Qed.
Lemma cell_track_write_panic s c p : cell_track_write s c = inr p -> helper_panic p.
Proof. unfold cell_track_write. panic_leaves. Qed.
Lemma atomic_load_panic s me c i o p : atomic_load s me c i o = inr p -> helper_panic p.
Proof.
  unfold atomic_load. destruct (track_load s c) eqn:E; [discriminate|].
  intros H. injection H as <-. exact (track_load_panic _ _ _ E).
Qed.
Lemma atomic_rmw_panic s me c r i so fo f p : atomic_rmw s me c r i so fo f = inr p -> helper_panic p.
Proof.
  rewrite atomic_rmw_eq. destruct (track_load s c) eqn:E.
  - cbv zeta. destruct (f _); [|discriminate]. destruct (track_store _ _) eqn:E2; [discriminate|].
    intros H. injection H as <-. exact (track_store_panic _ _ _ E2).
  - intros H. injection H as <-. exact (track_load_panic _ _ _ E).
Qed.
Lemma choose_store_panic e sd e' p : choose_store e sd = (e', inr p) -> helper_panic p.
Proof. unfold choose_store. panic_leaves. Qed.
Lemma release_read_panic e me r e2 p : release_read e me r = MFail e2 p -> helper_panic p.
Proof. unfold release_read. panic_leaves. Qed.
Lemma release_write_panic e me r e2 p : release_write e me r = MFail e2 p -> helper_panic p.
Proof. unfold release_write. panic_leaves. Qed.

Create HintDb helper_panic discriminated.
Global Hint Resolve track_load_panic track_unsync_load_panic track_store_panic track_unsync_mut_panic
  cell_track_read_panic cell_track_write_panic atomic_load_panic atomic_rmw_panic
  choose_store_panic release_read_panic release_write_panic : helper_panic.

(* one step through [H : exec_micro .. = MFail _ p] for a panic p that schedule
   does not raise *)
Ltac panic_step H :=
  match type of H with
  | fst (schedule _) = _ => exfalso; exact (schedule_panic _ _ _ H)
  | context [match ?x with _ => _ end] =>
      lazymatch x with
      | context [match _ with _ => _ end] => fail
      | _ => destruct x eqn:?
      end
  end.

Lemma exec_micro_model20 e me m e2 :
  exec_micro e me m = MFail e2 (PanicModel 20) -> exists h lg, m = MRecvPost h lg.
Proof.
  intros H. destruct m; try (eexists; eexists; reflexivity); exfalso;
    cbn [exec_micro] in H; unfold lift_path, mbind, do_branch, do_park, do_yield, load_post in H;
    repeat panic_step H; try discriminate H.
  all: injection H as _ ->; change (helper_panic (PanicModel 20)); eauto with helper_panic nocore.
Qed.

Lemma recv_post_fail20 e me h lg e2 :
  exec_micro e me (MRecvPost h lg) = MFail e2 (PanicModel 20) ->
  get_h e2 h = get_h e h /\ exists s', get_chan e2 h = Some s'.
Proof.
  intros H.
  destruct (recv_post_spec e me h lg)
    as [(p & Hx & Hp)|(s & cnt & sy & rest & E & Hg & _ & _ & Hu & _ & _ & Hx)]; rewrite Hx in H.
  - injection H as _ ->. exfalso. apply Hp. reflexivity.
  - destruct (ho_q (get_h e h)); [|discriminate H]. injection H as <-. split.
    + destruct (upd_at_get_h_cases _ _ _ _ _ _ _ h Hu) as [Hh|[_ Hh]]; exact Hh.
    + eexists. eapply upd_at_get_chan_same; [exact Hu|exact Hg].
Qed.

(* since the undo_send fix: the failure can only come from a receive on an index
   that is not a declared object (no harness object; the model has no such
   channel: objects appended at run time are Notify / Arc / cell) *)
Theorem run_model20_only_undeclared_from : forall fuel e e',
  base_inv e -> run fuel e = (e', IterPanic (PanicModel 20)) ->
  exists h s, get_chan e' h = Some s /\ length (e_h e') <= h.
Proof.
  induction fuel as [|fuel IH]; intros e e' Hi H; cbn [run] in H; [discriminate H|].
  destruct (e_active e) as [me|]; [|discriminate H].
  destruct (nth_error (e_threads e) me) as [t|] eqn:Ht; [|discriminate H].
  destruct (t_cont t) as [|m rest] eqn:Hc; [discriminate H|].
  pose proof (step_base_inv e me t m rest Hi Ht Hc) as Hb.
  pose proof (pop_base_inv e me t m rest Hi Ht Hc) as Hb1. unfold pop in *.
  destruct (exec_micro _ me m) as [e2|e2 pn] eqn:Hx; cbn [res_exec] in Hb; [exact (IH e2 e' Hb H)|].
  injection H as <- ->. destruct (exec_micro_model20 _ _ _ _ Hx) as (h & lg & ->).
  destruct (recv_post_fail20 _ _ _ _ _ Hx) as (Hh & s' & Hs'). exists h, s'. split; [exact Hs'|].
  match type of Hx with exec_micro ?E _ _ = _ =>
    pose proof (exec_micro_mono E me (MRecvPost h lg)) as Hm;
    destruct (Nat.lt_ge_cases h (length (e_h E))) as [Hlt|Hge] end.
  - exfalso. eapply recv_never_empty_handed_declared; [apply Hb1|exact Hlt|exact Hx].
  - rewrite Hx in Hm. cbn [res_exec] in Hm.
    destruct Hm as (_ & _ & [Hl _] & _). rewrite Hl. exact Hge.
Qed.

Theorem run_model20_only_undeclared : forall fuel p pa e',
  run fuel (init_exec p pa) = (e', IterPanic (PanicModel 20)) ->
  exists h s, get_chan e' h = Some s /\ length (p_decls p) <= h.
Proof.
  intros fuel p pa e' H.
  destruct (run_model20_only_undeclared_from fuel _ e' (proj2 (init_count_inv p pa)) H)
    as (h & s & Hg & Hl).
  exists h, s. split; [exact Hg|].
  pose proof (run_h_length fuel p pa) as Hlen. rewrite H in Hlen. cbn [fst] in Hlen.
  rewrite <- Hlen. exact Hl.
Qed.

(* run-level form of recv_never_empty_handed: from init_exec the failure is
   reachable only in a state where the receiver of that channel has been dropped
   (kept for its name; run_model20_only_undeclared above is the sharp form) *)
Theorem run_model20_only_after_receiver_drop : forall fuel p pa e',
  run fuel (init_exec p pa) = (e', IterPanic (PanicModel 20)) ->
  exists h s, get_chan e' h = Some s /\ ho_rx (get_h e' h) = false.
Proof.
  intros fuel p pa e' H. destruct (run_model20_only_undeclared fuel p pa e' H) as (h & s & Hg & Hl).
  exists h, s. split; [exact Hg|]. rewrite get_h_default_ge; [reflexivity|].
  pose proof (run_h_length fuel p pa) as Hlen. rewrite H in Hlen. cbn [fst] in Hlen.
  rewrite Hlen. exact Hl.
Qed.

(* ================================================================== *)
(* 14. D: a concrete run (non-vacuity) and the counterexamples         *)
(* ================================================================== *)

Definition cfgD : config := mkConfig 5 1000 None None None false.

(* an Arc cloned for a second thread, a channel with two sends *)
Definition p_demo : prog := mkProg cfgD [DArc; DChan]
  [[IArcClone 0 0 1; IArcCount 0 0; ISpawn 1; ISend 1 7; ISend 1 8; IRecv 1; ITryRecv 1;
    IArcDrop 0 0; IJoin 1];
   [IArcCount 0 1; IArcDrop 0 1]].

Definition demo_state (n : nat) : exec := fst (run n (init_exec p_demo (initial_path cfgD))).

(* (runtime count, live handles, drops in flight, (msg count, views), std queue) *)
Definition summary (e : exec) (k h : nat) :=
  (match get_arc e k with Some s => Some (arc_cnt s) | None => None end, live e k, pend e k,
   match get_chan e h with Some s => Some (ch_cnt s, length (ch_recv_sync s)) | None => None end,
   ho_q (get_h e h)).

Example demo_run :
  snd (run 1000 (init_exec p_demo (initial_path cfgD))) = IterDone /\
  run_disc 1000 (init_exec p_demo (initial_path cfgD)) = true /\
  (* after both sends: two handles, two queued messages *)
  summary (demo_state 18) 0 1 = (Some 2, 2, 0, Some (2, 2), [7%N; 8%N]) /\
  (* after the first receive *)
  summary (demo_state 22) 0 1 = (Some 2, 2, 0, Some (1, 1), [8%N]) /\
  (* main's drop is in flight: the slot is empty, the count not yet decremented *)
  summary (demo_state 27) 0 1 = (Some 2, 1, 1, Some (0, 0), []) /\
  (* the end *)
  summary (demo_state 1000) 0 1 = (Some 0, 0, 0, Some (0, 0), []) /\
  (* strong_count saw 2, then 1; the messages arrive in order; the payload dies with the last handle *)
  rev (e_log (demo_state 1000)) =
    [LOp 0 0 RUnit; LOp 0 1 (RVal 2); LOp 0 2 RUnit; LOp 0 3 RUnit; LOp 0 4 RUnit;
     LOp 0 5 (RVal 7); LOp 0 6 (RVal 8); LOp 0 7 RUnit; LOp 1 0 (RVal 1); LDrop 0;
     LOp 1 1 (RVal 1); LOp 0 8 RUnit].
Proof. vm_compute. repeat split; reflexivity. Qed.

Example demo_count_inv : count_inv (demo_state 27).
Proof. apply run_count_inv. vm_compute. reflexivity. Qed.

(* ---- counterexample 1 (A without the handle discipline): a clone stored into
   a slot that already holds a handle.  The model increments the count and
   overwrites the flag: count 2, one live handle.  The harness rejects this
   program ("arc slot in use"), real code would drop the old handle. ---- *)
Definition p_reuse : prog := mkProg cfgD [DArc] [[IArcClone 0 0 0]].

Lemma clone_into_live_slot_breaks_arc_inv :
  let e := fst (run 1000 (init_exec p_reuse (initial_path cfgD))) in
  run_disc 1000 (init_exec p_reuse (initial_path cfgD)) = false /\
  summary e 0 0 = (Some 2, 1, 0, None, []) /\ ~ arc_inv e.
Proof.
  cbv zeta. split; [vm_compute; reflexivity|]. split; [vm_compute; reflexivity|].
  intros H.
  assert (Hg : exists s, get_arc (fst (run 1000 (init_exec p_reuse (initial_path cfgD)))) 0 = Some s /\
                         arc_cnt s = 2)
    by (vm_compute; eexists; split; reflexivity).
  destruct Hg as (s & Hg & Hc).
  assert (Hl : 0 < length (e_h (fst (run 1000 (init_exec p_reuse (initial_path cfgD))))))
    by (apply Nat.ltb_lt; vm_compute; reflexivity).
  specialize (H 0 s Hl Hg). rewrite Hc in H. vm_compute in H. discriminate H.
Qed.

(* ---- counterexample 2 (A): try_unwrap racing with a drop of THE SAME handle
   by another thread (impossible in safe Rust: try_unwrap consumes the handle).
   main passes the presence check of try_unwrap and is preempted at its branch
   point; thread 1 drops slot 0 (count 2 -> 1); main sees count 1, "unwraps" and
   decrements to 0 although slot 1 is still live: LDrop with a live handle, and
   the later strong_count through slot 1 panics with PanicArcReleased.  Found by
   the model's own exploration in its second iteration. ---- *)
Definition p_unwrap_race : prog := mkProg cfgD [DArc]
  [[IArcClone 0 0 1; ISpawn 1; IArcTryUnwrap 0 0; IJoin 1; IArcCount 0 1; IArcDrop 0 1; IArcDrop 0 0];
   [IArcDrop 0 0]].

Definition second_path (p : prog) : path :=
  match nth_error (fst (fst (check 100 1000 p))) 1 with
  | Some r => ir_begin r
  | None => initial_path (p_cfg p)
  end.

Lemma try_unwrap_race_counterexample :
  let pa := second_path p_unwrap_race in
  let r := run 1000 (init_exec p_unwrap_race pa) in
  snd r = IterPanic PanicArcReleased /\
  run_disc 1000 (init_exec p_unwrap_race pa) = false /\
  summary (fst r) 0 0 = (Some 0, 1, 0, None, []) /\
  rev (e_log (fst r)) =
    [LOp 0 0 RUnit; LOp 0 1 RUnit; LOp 1 0 RUnit; LDrop 0; LOp 0 2 (RBool true); LOp 0 3 RUnit].
Proof. vm_compute. repeat split; reflexivity. Qed.

(* ---- witness 3 (B): the receiver is dropped by one thread while another
   thread is blocked in recv on it (impossible in safe Rust: Receiver is
   neither Sync nor Clone).  main blocks in recv on the empty channel; thread 1
   drops the receiver (std queue gone); thread 2 sends: the std send fails
   (RDisc) and the bookkeeping is undone (count back to 0), but main has been
   woken; main's MRecvPost finds count 0: PanicExpectMsg ("expected a message").
   BEFORE the undo_send fix the count stayed 1 and this run ended with the
   internal failure PanicModel 20 (count 1, empty std queue); that failure is
   now unreachable on declared channels (recv_never_empty_handed_declared). ---- *)
Definition p_rx_race : prog := mkProg cfgD [DChan]
  [[ISpawn 1; ISpawn 2; IRecv 0]; [IDropRx 0]; [ISend 0 5]].

Lemma recv_on_dropped_receiver_expect_msg :
  let r := run 1000 (init_exec p_rx_race (initial_path cfgD)) in
  snd r = IterPanic PanicExpectMsg /\
  ho_rx (get_h (fst r) 0) = false /\
  summary (fst r) 0 0 = (None, 0, 0, Some (0, 0), []) /\
  rev (e_log (fst r)) = [LOp 0 0 RUnit; LOp 0 1 RUnit; LOp 1 0 RUnit; LOp 2 0 RDisc].
Proof. vm_compute. repeat split; reflexivity. Qed.

(* the channel half of the invariant holds there all the same *)
Example rx_race_chan_inv : chan_inv (fst (run 1000 (init_exec p_rx_race (initial_path cfgD)))).
Proof. apply run_chan_inv. Qed.

Print Assumptions init_count_inv.
Print Assumptions step_count_inv.
Print Assumptions step_base_inv.
Print Assumptions schedule_count_inv.
Print Assumptions dsteps_count_inv.
Print Assumptions steps_base_inv.
Print Assumptions run_count_inv.
Print Assumptions run_count_inv_from.
Print Assumptions run_base_inv.
Print Assumptions run_chan_inv.
Print Assumptions run_dsteps.
Print Assumptions run_arc_count_is_live_handles.
Print Assumptions run_chan_count_is_queue_length.
Print Assumptions strong_count_is_live_handles.
Print Assumptions strong_count_is_live_handles_quiet.
Print Assumptions final_drop_iff_last_handle.
Print Assumptions no_double_release.
Print Assumptions try_unwrap_iff_unique.
Print Assumptions send_appends_one.
Print Assumptions send_disconnected_keeps_queue.
Print Assumptions recv_removes_front.
Print Assumptions recv_never_empty_handed.
Print Assumptions recv_proceeds_queue_nonempty.
Print Assumptions run_model20_only_after_receiver_drop.
Print Assumptions queue_step_shape.
Print Assumptions steps_queue_fifo.
Print Assumptions demo_run.
Print Assumptions demo_count_inv.
Print Assumptions clone_into_live_slot_breaks_arc_inv.
Print Assumptions try_unwrap_race_counterexample.
Print Assumptions recv_on_dropped_receiver_expect_msg.
Print Assumptions recv_never_empty_handed_declared.
Print Assumptions run_model20_only_undeclared.
Print Assumptions run_chan_count_is_queue_length_all.
