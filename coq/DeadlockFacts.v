(* DeadlockFacts: "Deadlocks are reported exactly", at the level of whole runs.

   Contents
     1. PanicDeadlock is raised by Execution::schedule and by nothing else:
        exec_micro_deadlock_only_from_schedule (all micro-operations, the
        pattern of CountFacts.exec_micro_model20), with the state on which
        schedule was called (it differs from the state before the micro-op
        only in the calling thread's entry of the thread table).
     2. e_active is written by schedule only: exec_micro_active (from
        ExecFacts.exec_micro_shape).
     3. is_traversed (pos = length of the decision stack: the iteration is
        past the replayed prefix) is kept by every micro-operation
        (ExecFacts.exec_micro_trv): run_traversed.
     4. the run-level theorems
          run_deadlock_sound          (requested, B1; unconditional part)
          run_deadlock_no_runnable    (B1, "no thread is runnable or yielded";
                                       needs the path to be traversed, see D1)
          iteration_deadlock_exact    (both, for the first iteration of check)
          run_done_all_terminated     (B2)
          blocked_forever_is_reported (B3) and stuck_never_ok
     5. counterexample deadlock_replayed_blindly (D1) and a positive example.

   DEVIATIONS

   D1  "if run returns PanicDeadlock sts then no thread is runnable or yielded"
       is FALSE for arbitrary paths.  While the decision stack is being
       REPLAYED (pos < length branches) Path::branch_thread does not look at
       the seed: it returns the active thread recorded in the stored Schedule
       entry.  A stored entry without an active thread makes schedule report a
       deadlock whatever the thread states are.  deadlock_replayed_blindly:
       program [[IYield]], path with the single entry "5 threads, all
       Disabled", pos 0: the main thread is Yielded, the run ends with
       PanicDeadlock [Yielded].  This is not a behaviour of loom::model: the
       stack replayed by iteration n+1 is the one built by iteration n, and
       Path::step never keeps an entry without an active thread (it can be
       produced only by loading a foreign checkpoint file).
       Proved instead:
       - unconditionally (run_deadlock_sound): the panic comes from a call of
         schedule; the reported list is exactly the list of thread states of
         the returned state; at least one thread is not Terminated; no thread
         is active any more;
       - run_deadlock_no_runnable: if the run starts on a traversed path (the
         first iteration: initial_path has no entries; in later iterations:
         from the end of the replayed prefix on, run_traversed) every thread
         of the returned state is Blocked or Terminated.
   D2  run_done_all_terminated needs [e_active e <> None] for the start state
       (run returns IterDone at once, whatever the threads are, if no thread
       is active); init_exec has Some 0 (iteration_done_all_terminated).
   D3  blocked_forever_is_reported: schedule has other failures that come
       first (no active thread / bad index: PanicModel; the branch limit or a
       DPOR backtrack failure: PanicPath).  The theorem says: in a stuck state
       the result is one of those failures or the deadlock panic with exactly
       the list of thread states; never MOk.  On a replayed path nothing can be
       said (D1, the other direction: a stored entry WITH an active thread
       makes schedule resume a blocked thread). *)
Require Import LV.Base LV.VV LV.Path LV.PathSpec LV.PathApi LV.Prog LV.Objects LV.Exec LV.Atomic
               LV.Ops LV.Check LV.SyncFacts LV.ExecFacts LV.ExecPreempt LV.SyncMono LV.CountFacts.
From Coq Require Import List Arith Lia Bool.
Import ListNotations.

(* ================================================================== *)
(* 1. PanicDeadlock comes from schedule only                           *)
(* ================================================================== *)

(* the panics that no helper called from the body of a micro-operation raises:
   they come from schedule (the deadlock) or from the scan after the run (leaks) *)
Definition global_panic (p : panic) : bool :=
  match p with PanicDeadlock _ | PanicLeak _ _ => true | _ => false end.

Lemma global_not_helper p : global_panic p = true -> helper_panic p -> False.
Proof. destruct p; cbn; auto; discriminate. Qed.

(* the state on which schedule is called differs from the state of the
   micro-operation in the thread table only *)
Definition sched_call (e e1 : exec) : Prop :=
  e_path e1 = e_path e /\ e_active e1 = e_active e /\ e_objects e1 = e_objects e /\
  e_h e1 = e_h e /\ length (e_threads e1) = length (e_threads e).

Lemma sched_call_upd_thread e i f : sched_call e (upd_thread e i f).
Proof. repeat split. cbn [upd_thread ex_set_threads e_threads]. apply list_upd_length. Qed.

Ltac nd_step H :=
  match type of H with
  | fst (schedule _) = _ => fail 1
  | context [match ?x with _ => _ end] =>
      lazymatch x with
      | context [match _ with _ => _ end] => fail
      | _ => destruct x eqn:?
      end
  end.

Lemma exec_micro_global_panic e me m e2 p :
  exec_micro e me m = MFail e2 p -> global_panic p = true ->
  exists e1, sched_call e e1 /\ fst (schedule e1) = MFail e2 p.
Proof.
  intros H Hp. destruct m;
    cbn [exec_micro] in H; unfold lift_path, mbind, do_branch, do_park, do_yield, load_post in H;
    repeat nd_step H; try discriminate H.
  all: try (eexists; split; [|exact H]; apply sched_call_upd_thread).
  all: exfalso; injection H as _ <-; try discriminate Hp;
    apply (global_not_helper _ Hp); eauto with helper_panic nocore.
Qed.

Lemma exec_micro_deadlock_only_from_schedule e me m e2 st :
  exec_micro e me m = MFail e2 (PanicDeadlock st) ->
  exists e1, sched_call e e1 /\ fst (schedule e1) = MFail e2 (PanicDeadlock st).
Proof. intros H. exact (exec_micro_global_panic _ _ _ _ _ H eq_refl). Qed.

(* ================================================================== *)
(* 2. e_active is written by schedule only                             *)
(* ================================================================== *)

Lemma exec_micro_active e me m e' :
  exec_micro e me m = MOk e' ->
  e_active e' = e_active e \/ exists e1, sched_call e e1 /\ fst (schedule e1) = MOk e'.
Proof.
  intros H. destruct (exec_micro_shape e me m) as [(i & f & Hs)|(Ha & _)].
  - right. exists (upd_thread e i f). split; [apply sched_call_upd_thread|]. rewrite <- Hs. exact H.
  - left. rewrite H in Ha. exact Ha.
Qed.

(* ================================================================== *)
(* 3. Past the replayed prefix: is_traversed is kept                   *)
(* ================================================================== *)

(* every state of a run that starts on a traversed path is on a traversed path *)
Lemma run_traversed fuel e :
  is_traversed (e_path e) = true -> is_traversed (e_path (fst (run fuel e))) = true.
Proof. apply run_trv. Qed.

(* ================================================================== *)
(* 4. Whole runs                                                       *)
(* ================================================================== *)

(* a thread that cannot be resumed *)
Definition stuck_thread (t : thread) : Prop := t_state t = Blocked \/ t_state t = Terminated.

Lemma not_runnable_not_yield_stuck t :
  is_runnable t = false /\ is_yield t = false -> stuck_thread t.
Proof.
  unfold is_runnable, is_yield, stuck_thread. intros [H1 H2].
  destruct (t_state t); try discriminate; auto.
Qed.

Lemma run_panic_from_micro (P : exec -> Prop) :
  (forall e me t m rest,
     P e -> e_active e = Some me -> nth_error (e_threads e) me = Some t -> t_cont t = m :: rest ->
     P (res_exec (exec_micro (upd_thread e me (fun t => th_set_cont t rest)) me m))) ->
  forall fuel e e' pn, P e -> run fuel e = (e', IterPanic pn) ->
  (exists c, pn = PanicModel c) \/
  exists e0 me rest m, P e0 /\
    exec_micro (upd_thread e0 me (fun t => th_set_cont t rest)) me m = MFail e' pn.
Proof.
  intros Hstep. induction fuel as [|fuel IH]; intros e e' pn He H; cbn [run] in H; [discriminate H|].
  destruct (e_active e) as [me|] eqn:Ha; [|discriminate H].
  destruct (nth_error (e_threads e) me) as [t|] eqn:Ht; [|injection H as _ <-; eauto].
  destruct (t_cont t) as [|m rest] eqn:Hc; [injection H as _ <-; eauto|].
  pose proof (Hstep e me t m rest He Ha Ht Hc) as Hm.
  destruct (exec_micro _ me m) as [e2|e2 p2] eqn:Hx.
  - exact (IH _ _ _ Hm H).
  - injection H as <- <-. right. exists e, me, rest, m. split; [exact He|exact Hx].
Qed.

(* the deadlock panic of a run is the deadlock panic of one call of schedule,
   made on a path that is traversed if the start of the run was *)
Lemma run_deadlock_from_schedule : forall fuel e e' sts,
  run fuel e = (e', IterPanic (PanicDeadlock sts)) ->
  exists e1, fst (schedule e1) = MFail e' (PanicDeadlock sts) /\
             (is_traversed (e_path e) = true -> is_traversed (e_path e1) = true).
Proof.
  intros fuel e e' sts H.
  assert (Hstep : forall e0 me t m rest,
            trv (e_path e) (e_path e0) -> e_active e0 = Some me ->
            nth_error (e_threads e0) me = Some t -> t_cont t = m :: rest ->
            trv (e_path e)
              (e_path (res_exec (exec_micro (upd_thread e0 me (fun t => th_set_cont t rest)) me m)))).
  { intros e0 me t m rest He _ _ _. eapply trv_trans; [exact He|].
    exact (exec_micro_trv (upd_thread e0 me (fun t => th_set_cont t rest)) me m). }
  destruct (run_panic_from_micro _ Hstep fuel e e' _ (trv_refl _) H)
    as [(c & Hc)|(e0 & me & rest & m & He & Hx)]; [discriminate Hc|].
  destruct (exec_micro_deadlock_only_from_schedule _ _ _ _ _ Hx) as (e1 & Hc & Hs).
  exists e1. split; [exact Hs|]. destruct Hc as (Hp & _). rewrite Hp. exact He.
Qed.

(* B1, the unconditional part *)
Theorem run_deadlock_sound fuel e e' sts :
  run fuel e = (e', IterPanic (PanicDeadlock sts)) ->
  sts = map t_state (e_threads e') /\
  (exists t, In t (e_threads e') /\ is_terminated t = false) /\
  e_active e' = None /\
  exists e1, fst (schedule e1) = MFail e' (PanicDeadlock sts) /\ e_threads e1 = e_threads e'.
Proof.
  intros H. destruct (run_deadlock_from_schedule _ _ _ _ H) as (e1 & Hs & _).
  destruct (schedule_deadlock_iff _ _ _ Hs) as (Hex & Hact & Hst).
  split; [exact Hst|]. split; [exact Hex|]. split; [exact Hact|].
  exists e1. split; [exact Hs|].
  destruct (schedule_deadlock_inv _ _ _ Hs) as (curr & cur_th & p1 & p2 & _ & -> & _ & _).
  reflexivity.
Qed.

(* B1, the verdict: past the replayed prefix a reported deadlock is a state in
   which every thread is Blocked or Terminated (and one is not Terminated) *)
Theorem run_deadlock_no_runnable fuel e e' sts :
  run fuel e = (e', IterPanic (PanicDeadlock sts)) ->
  is_traversed (e_path e) = true ->
  Forall stuck_thread (e_threads e') /\
  (exists t, In t (e_threads e') /\ t_state t = Blocked) /\
  sts = map t_state (e_threads e').
Proof.
  intros H Htr. destruct (run_deadlock_from_schedule _ _ _ _ H) as (e1 & Hs & Ht).
  destruct (schedule_no_runnable _ _ _ Hs (Ht Htr)) as (Heq & Hall).
  destruct (schedule_deadlock_iff _ _ _ Hs) as ((t & Hin & Hnt) & _ & Hst).
  assert (Hstuck : Forall stuck_thread (e_threads e')).
  { rewrite Heq. eapply Forall_impl; [|exact Hall]. intros a. apply not_runnable_not_yield_stuck. }
  split; [exact Hstuck|]. split; [|exact Hst].
  exists t. split; [exact Hin|].
  rewrite Forall_forall in Hstuck. destruct (Hstuck t Hin) as [Hb|Hb]; [exact Hb|].
  unfold is_terminated in Hnt. rewrite Hb in Hnt. discriminate Hnt.
Qed.

Theorem iteration_deadlock_exact fuel p pa e' sts :
  iteration fuel p pa = (e', IterPanic (PanicDeadlock sts)) ->
  is_traversed pa = true ->
  Forall stuck_thread (e_threads e') /\
  (exists t, In t (e_threads e') /\ t_state t = Blocked) /\
  sts = map t_state (e_threads e').
Proof.
  unfold iteration. intros H Htr.
  destruct (run fuel (init_exec p pa)) as [e r] eqn:Hr.
  destruct r as [|pn|].
  - destruct (check_for_leaks (e_objects e)) as [pn|] eqn:Hl; [|discriminate H].
    injection H as <- ->. apply check_for_leaks_first in Hl.
    destruct Hl as (i & o & k & Hpn & _). discriminate Hpn.
  - injection H as <- ->. eapply run_deadlock_no_runnable; [exact Hr|exact Htr].
  - discriminate H.
Qed.

Corollary first_iteration_deadlock_exact fuel p e' sts :
  iteration fuel p (initial_path (p_cfg p)) = (e', IterPanic (PanicDeadlock sts)) ->
  Forall stuck_thread (e_threads e') /\
  (exists t, In t (e_threads e') /\ t_state t = Blocked) /\
  sts = map t_state (e_threads e').
Proof. intros H. eapply iteration_deadlock_exact; [exact H|apply initial_path_traversed]. Qed.

(* B2: a finished iteration is a full execution *)
Theorem run_done_all_terminated : forall fuel e e',
  run fuel e = (e', IterDone) -> e_active e <> None ->
  Forall (fun t => t_state t = Terminated) (e_threads e') /\ e_active e' = None.
Proof.
  induction fuel as [|fuel IH]; intros e e' H Ha; cbn [run] in H; [discriminate H|].
  destruct (e_active e) as [me|] eqn:Hact; [|congruence].
  destruct (nth_error (e_threads e) me) as [t|]; [|discriminate H].
  destruct (t_cont t) as [|m rest]; [discriminate H|].
  destruct (exec_micro _ me m) as [e2|e2 pn] eqn:Hx; [|discriminate H].
  destruct (e_active e2) as [a2|] eqn:Ha2.
  - apply (IH e2 e' H). congruence.
  - assert (He : e' = e2).
    { destruct fuel as [|fuel']; cbn [run] in H; [discriminate H|].
      rewrite Ha2 in H. injection H as <-. reflexivity. }
    subst e'. split; [|exact Ha2].
    destruct (exec_micro_active _ _ _ _ Hx) as [Heq|(e1 & _ & Hs)].
    + rewrite Ha2 in Heq. cbn [upd_thread ex_set_threads e_active] in Heq. congruence.
    + destruct (schedule_done _ _ Hs Ha2) as (-> & Hall).
      eapply Forall_impl; [|exact Hall]. intros a Hterm.
      unfold is_terminated in Hterm. destruct (t_state a); try discriminate Hterm. reflexivity.
Qed.

Theorem iteration_done_all_terminated fuel p pa e' :
  iteration fuel p pa = (e', IterDone) ->
  Forall (fun t => t_state t = Terminated) (e_threads e') /\ e_active e' = None.
Proof.
  unfold iteration. intros H.
  destruct (run fuel (init_exec p pa)) as [e r] eqn:Hr.
  destruct r as [|pn|]; try discriminate H.
  destruct (check_for_leaks (e_objects e)); [discriminate H|]. injection H as <-.
  eapply run_done_all_terminated; [exact Hr|]. rewrite init_exec_active. discriminate.
Qed.

(* B3: a stuck state is never skipped silently *)
Theorem blocked_forever_is_reported e :
  Forall stuck_thread (e_threads e) ->
  (exists t, In t (e_threads e) /\ t_state t = Blocked) ->
  is_traversed (e_path e) = true ->
  exists e' pn, fst (schedule e) = MFail e' pn /\
    ((pn = PanicDeadlock (map t_state (e_threads e)) /\ e_threads e' = e_threads e) \/
     (exists c, pn = PanicModel c) \/ (exists x, pn = PanicPath x)).
Proof.
  intros Hall (tb & Hin & Hb) Htr.
  destruct (schedule_cases e)
    as [(c & Hs)|[(x & Hs)|[(p1 & x & Hd & Hs)|(curr & cur_th & p1 & p2 & next & Hp & Hs)]]];
    rewrite Hs; cbn [fst].
  - eexists; eexists. split; [reflexivity|]. right; left. eauto.
  - eexists; eexists. split; [reflexivity|]. right; right. eauto.
  - eexists; eexists. split; [reflexivity|]. right; right. eauto.
  - pose proof (sched_prefix_choice _ _ _ _ _ _ Hp Htr) as Hch.
    destruct Hp as (_ & Hc & _ & _).
    assert (Hnone : next = None).
    { destruct next as [nx|]; [|reflexivity]. exfalso.
      destruct (seed_choice_sound _ _ _ nx Hc (eq_sym Hch)) as (th & Hth & Hr).
      rewrite Forall_forall in Hall. specialize (Hall th (nth_error_In _ _ Hth)).
      unfold is_runnable, is_yield in Hr. destruct Hall as [Hst|Hst]; rewrite Hst in Hr; discriminate Hr. }
    clear Hch. subst next. unfold sched_post.
    assert (Hth : e_threads (sched_base e p2 None) = e_threads e) by reflexivity.
    rewrite Hth.
    assert (Hnt : forallb is_terminated (e_threads e) = false).
    { destruct (forallb is_terminated (e_threads e)) eqn:Hf; [|reflexivity].
      rewrite forallb_forall in Hf. specialize (Hf tb Hin). unfold is_terminated in Hf.
      rewrite Hb in Hf. discriminate Hf. }
    rewrite Hnt. cbn [fst]. eexists; eexists. split; [reflexivity|]. left. split; [reflexivity|exact Hth].
Qed.

Corollary stuck_never_ok e e' :
  Forall stuck_thread (e_threads e) ->
  (exists t, In t (e_threads e) /\ t_state t = Blocked) ->
  is_traversed (e_path e) = true ->
  fst (schedule e) <> MOk e'.
Proof.
  intros H1 H2 H3 Hc. destruct (blocked_forever_is_reported e H1 H2 H3) as (e2 & pn & Hs & _).
  congruence.
Qed.

(* ================================================================== *)
(* 5. Examples                                                         *)
(* ================================================================== *)

Definition cfgL : config := mkConfig 5 1000 None None None false.

(* D1: a stored Schedule entry without an active thread is replayed blindly *)
Definition bad_path : path :=
  mkPath None 0 [ESched (mkSched 0 None (repeat Disabled 5) None false)] false false false 1000.
Definition p_blind : prog := mkProg cfgL [] [[ISpawn 1; IYield]; []].

Lemma deadlock_replayed_blindly :
  snd (run 100 (init_exec p_blind bad_path)) = IterPanic (PanicDeadlock [Yielded; Runnable]) /\
  map t_state (e_threads (fst (run 100 (init_exec p_blind bad_path)))) = [Yielded; Runnable].
Proof. vm_compute. split; reflexivity. Qed.

(* a real deadlock: main holds the mutex and joins a thread that wants it *)
Definition p_dead : prog := mkProg cfgL [DMutex] [[ISpawn 1; ILock 0; IJoin 1]; [ILock 0]].

Example deadlock_reported :
  snd (iteration 1000 p_dead (initial_path cfgL)) = IterPanic (PanicDeadlock [Blocked; Blocked]) /\
  snd (fst (check 100 1000 p_dead)) = RunPanic (PanicDeadlock [Blocked; Blocked]).
Proof. vm_compute. split; reflexivity. Qed.

Print Assumptions exec_micro_deadlock_only_from_schedule.
Print Assumptions exec_micro_active.
Print Assumptions run_traversed.
Print Assumptions run_deadlock_sound.
Print Assumptions run_deadlock_no_runnable.
Print Assumptions iteration_deadlock_exact.
Print Assumptions first_iteration_deadlock_exact.
Print Assumptions run_done_all_terminated.
Print Assumptions iteration_done_all_terminated.
Print Assumptions blocked_forever_is_reported.
Print Assumptions stuck_never_ok.
Print Assumptions deadlock_replayed_blindly.
