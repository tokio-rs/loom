(* The bridge between the one-cell machine of AtomicCoRR.v / AtomicClosure.v and
   the executions of Ops.v: the machine generalised by arbitrary admissible
   clock growth, and the access micro-operations as its steps.  AtomicRun.v
   carries the invariant along executions (the frame of every other
   micro-operation, spawn, the induction over SyncMono.steps).

   1. XGrow.  [grow st t v]: clock_t := clock_t join v, for an ARBITRARY view v
      that is [admissible]: forall u <> t, v[u] <= clock_u[u] (what
      ClockFacts.run_clock_wf provides for every view stored in an execution
      state).  [clock_out], [grow_out]: a grow step is a StepOut; [grow_goodS]:
      the full invariant GoodS survives; [grow_facts], [grow_knows]; XSync u is
      the instance v := clock_u ([sync_is_grow], [sync_admissible]);
      [sync_view_admissible].
   1b. [EqSt]: states that differ only in tracking clocks and st_value;
      [unsync_load_step] (MUnsyncLoad) and [with_mut_step] (MWithMut, fix D23):
      [unsync_load_out], [with_mut_out].
   2. The generalised machine [bstep] / [brun]:
        BOp op            the model's XLoad / XStore / XRmw / XSync (released = vv_new)
        BGrow v           any other synchronisation
        BStoreR rel v o   MStorePost with an arbitrary released clock rel <= clock
        BRmwR rel ...     MRmwPost  with an arbitrary released clock
        BUnsyncLoad, BWithMut v
      [bstep_out]: every step preserves GoodO and StampO, satisfies [ext], and
      only grows the clocks; [bstep_goodS], [brun_goodS], [brun_stable],
      [brun_knows], [brun_atomicity], [brun_never_none], [CoRR_CoWR_b],
      [CoRR_CoWR_rmw_b], [CoRR_same_thread_b], [CoWR_same_thread_b],
      [CoRW_same_thread_b], [CoWW_same_thread_b].
      (InvO does not contain "every clock dominates the tracking clocks":
      a step simply does not exist when track_* panics, as in mstep.)
   3. The start: [atomic_new_eq], [atomic_new_goodS]: the cell may be created by
      ANY thread with ANY clock in a system of threads with arbitrary bounded
      clocks (no domination hypothesis).
   4. The calls Ops.v makes are machine steps: [load_call_is_step_nn] /
      [load_call_is_step] (any last_yield), [store_call_is_step],
      [rmw_call_is_step].
   5. The micro-operations of Ops.v on the execution record, with
      clocks e := map t_caus (e_threads e):
        [MStorePost_is_step]   -> BStoreR (t_rel t0)       (needs t_rel <= t_caus)
        [MLoadPost_is_step]    -> BOp (XLoad idx o)
        [MFuLoadPost_is_step]  -> BOp (XLoad idx fo)
          (both are [load_post_is_step] followed by bookkeeping of the thread:
          [exec_micro_load_post], [exec_micro_fu_load_post])
        [MRmwPost_is_step]     -> BRmwR (t_rel t0) idx (rmw_fun k)
        [MUnsyncLoad_is_step]  -> BUnsyncLoad
        [MWithMut_is_step]     -> BWithMut v
      Stated hypotheses: (a) "the index chosen by choose_store is a candidate"
      for the three loads/RMWs -- true when the path is being extended, a
      whole-exploration property on replay (Ops.choose_store takes the recorded
      index without checking it); (b) vle (t_rel t0) (t_caus t0): t_rel is only
      ever set to a snapshot of t_caus (ClockFacts.tstep), so it is an invariant
      of executions (AtomicRun2.run_rel_le_caus); (c) the ring is not full
      (wrap-around is out of scope).
      Facts about the clock list of a state: [ga_upd_object_other],
      [clocks_upd_thread_keep], [clocks_log_op], [clocks_push_cont],
      [set_caus_join_is_grow], [choose_store_frame]. *)
Require Import LV.Base LV.VV LV.VVFacts LV.Path LV.Prog LV.Objects LV.Atomic LV.AtomicFacts
               LV.AtomicCoherence LV.AtomicCoRR LV.AtomicClosure LV.Exec LV.Ops.
From Coq Require Import Lia.

Set Implicit Arguments.

(* ------------------------------------------------------------------ *)
(* 1. XGrow: thread t joins an arbitrary admissible view into its clock  *)

(* v knows no more about another thread u than u knows about itself *)
Definition admissible (cs : list vv) (t : nat) (v : vv) : Prop :=
  forall u, u < length cs -> u <> t -> vv_get v u <= vv_get (clk cs u) u.

Definition grow (st : mstate) (t : nat) (v : vv) : mstate :=
  (fst st, list_set (snd st) t (vv_join (clk (snd st) t) v)).

Lemma grow_clk : forall cs t v, t < length cs ->
  forall u, vle (clk cs u) (clk (list_set cs t (vv_join (clk cs t) v)) u).
Proof. intros cs t v Ht. apply (@clk_set_grow cs t _ Ht). apply vle_join_l. Qed.

Lemma clock_out : forall own rk s s' cs t v,
  GoodO own rk s' cs -> StampO s' cs -> ext own s own s' -> t < length cs ->
  vle (clk cs t) v -> t < length v -> admissible cs t v ->
  StepOut own s cs s' (list_set cs t v).
Proof.
  intros own rk s s' cs t v [HI [HL [HC HSy]]] HS Hext Ht Hle Hlen Hadm. exists own, rk.
  split; [split; [apply (InvO_clock HI Ht Hle Hlen Hadm) | split; [exact HL | split; [exact HC | exact HSy]]]|].
  pose proof (@clk_set_grow cs t v Ht Hle) as Hg.
  split; [apply (@stamp_clock s' cs _ HS Hg)|]. split; [exact Hext|].
  split; [apply list_set_length | exact Hg].
Qed.

Theorem grow_out : forall own rk s cs t v,
  GoodO own rk s cs -> StampO s cs -> t < length cs -> admissible cs t v ->
  StepOut own s cs s (list_set cs t (vv_join (clk cs t) v)).
Proof.
  intros own rk s cs t v HG HS Ht Hadm. pose proof HG as [HI _].
  apply (clock_out HG HS (ext_refl own s) Ht).
  - apply vle_join_l.
  - rewrite vv_join_length. pose proof (i_clen HI Ht). lia.
  - intros u Hu Hne. rewrite vv_get_join. pose proof (i_bclk HI Ht Hu). pose proof (Hadm u Hu Hne). lia.
Qed.

Theorem grow_goodS : forall st t v,
  GoodS st -> t < length (snd st) -> admissible (snd st) t v -> GoodS (grow st t v).
Proof.
  intros [s cs] t v [[own [rk HG]] HS] Ht Hadm. cbn [fst snd] in *.
  destruct (@grow_out own rk s cs t v HG HS Ht Hadm) as [own' [rk' [HG' [HS' _]]]].
  split; [exists own', rk'; exact HG' | exact HS'].
Qed.

(* XSync u is the instance v := the current clock of u *)
Lemma sync_is_grow : forall tr st t u st',
  mstep tr st t (XSync u) = Some st' -> st' = grow st t (clk (snd st) u).
Proof.
  intros tr [s cs] t u st' H. unfold mstep in H.
  destruct (negb (Nat.ltb t (length cs))); [discriminate|].
  destruct (Nat.ltb u (length cs)); [|discriminate]. inversion H. reflexivity.
Qed.

Lemma sync_admissible : forall own s cs t u,
  InvO own s cs -> u < length cs -> admissible cs t (clk cs u).
Proof. intros own s cs t u HI Hu w Hw _. apply (i_bclk HI Hu Hw). Qed.

(* a grow step changes no store and only enlarges what threads know *)
Lemma grow_facts : forall st t v, t < length (snd st) ->
  fst (grow st t v) = fst st /\
  (forall a b, mo_lt (grow st t v) a b = mo_lt st a b) /\
  (forall u i, knows st u i -> knows (grow st t v) u i).
Proof.
  intros [s cs] t v Ht. cbn [fst snd] in Ht. split; [reflexivity|]. split; [reflexivity|].
  intros u i Hk. unfold knows, grow in *. cbn [fst snd] in *.
  apply (seen_clock_mono _ _ _ (@grow_clk cs t v Ht u) Hk).
Qed.

(* ------------------------------------------------------------------ *)
(* 1b. UnsafeCell-style accesses (MUnsyncLoad, MWithMut after fix D23): they
       tick the clock, change the tracking clocks and the newest value, and
       leave every clock of every store alone                            *)

Definition EqSt (s s' : atomic_state) : Prop :=
  Core s s' /\ (forall k, at_cnt s <= k -> get_store s' k = get_store s k) /\
  forall k, st_seen (get_store s' k) = st_seen (get_store s k).

Section EqStFacts.
  Variables s s' : atomic_state.
  Hypothesis HE : EqSt s s'.

  Lemma EqSt_GoodO : forall own rk cs, GoodO own rk s cs -> GoodO own rk s' cs.
  Proof.
    intros own rk cs [HI [HL [HC HSy]]]. destruct HE as [HCo [Hdead Hseen]].
    split; [|split; [|split]].
    - apply (Core_InvO HCo HI Hdead). intros k Hk. rewrite Hseen. apply (i_seen HI Hk).
    - apply LinkO_iff. apply (Core_LinkO HCo). apply LinkO_iff. exact HL.
    - apply (Core_Closed HCo HC).
    - intros x y Hx Hy H. rewrite (sa_cnt HCo) in Hx, Hy. rewrite Hseen, (sa_sync HCo) in H.
      apply (sa_K HCo). apply (HSy x y Hx Hy H).
  Qed.

  Lemma EqSt_StampO : forall cs, StampO s cs -> StampO s' cs.
  Proof.
    intros cs [Hb Hl]. destruct HE as [HCo [_ Hseen]]. constructor.
    - intros a u w Ha Hn. rewrite (sa_cnt HCo) in Ha. rewrite Hseen in Hn. apply (Hb a u w Ha Hn).
    - intros a Ha. rewrite (sa_cnt HCo) in Ha. rewrite Hseen. apply (Hl a Ha).
  Qed.

  Lemma EqSt_ext : forall own, ext own s own s'.
  Proof.
    intros own. destruct HE as [HCo [_ Hseen]]. split; [rewrite (sa_cnt HCo); apply le_n|]. intros a Ha.
    split; [reflexivity|]. split; [apply (sa_hbk HCo)|]. split; [rewrite (sa_mo HCo); apply vle_refl|].
    intros c H. rewrite Hseen. exact H.
  Qed.
End EqStFacts.

Lemma EqSt_same_stores : forall s s',
  at_cnt s' = at_cnt s -> at_mutating s' = at_mutating s -> at_stores s' = at_stores s -> EqSt s s'.
Proof.
  intros s s' Hc Hm Hst. unfold EqSt, Core, get_store. rewrite Hst.
  split; [|split; reflexivity].
  split; [exact Hc|]. split; [exact Hm|]. split; [reflexivity|]. intros k. repeat split.
Qed.

Lemma track_unsync_load_inl : forall s c s1, track_unsync_load s c = inl s1 ->
  at_cnt s1 = at_cnt s /\ at_mutating s1 = at_mutating s /\ at_stores s1 = at_stores s.
Proof.
  intros s c s1 H. unfold track_unsync_load in H. destruct (at_mutating s); [discriminate|].
  destruct (vv_ahead c (at_unsync_mut s)); [discriminate|].
  destruct (vv_ahead c (at_stored s)); [discriminate|]. inversion H. repeat split.
Qed.

Lemma track_unsync_mut_inl : forall s c s1, track_unsync_mut s c = inl s1 ->
  at_cnt s1 = at_cnt s /\ at_mutating s1 = at_mutating s /\ at_stores s1 = at_stores s.
Proof.
  intros s c s1 H. unfold track_unsync_mut in H. destruct (at_mutating s); [discriminate|].
  destruct (vv_ahead c (at_loaded s)); [discriminate|].
  destruct (vv_ahead c (at_unsync_loaded s)); [discriminate|].
  destruct (vv_ahead c (at_stored s)); [discriminate|].
  destruct (vv_ahead c (at_unsync_mut s)); [discriminate|]. inversion H. repeat split.
Qed.

(* MUnsyncLoad *)
Definition unsync_load_step (st : mstate) (t : nat) : option mstate :=
  let '(s, cs) := st in
  if negb (Nat.ltb t (length cs)) then None else
  let c := vv_inc (clk cs t) t in
  match track_unsync_load s c with
  | inl s1 => Some (s1, list_set cs t c)
  | inr _ => None
  end.

(* MWithMut v *)
Definition with_mut_step (st : mstate) (t : nat) (v : N) : option mstate :=
  let '(s, cs) := st in
  if negb (Nat.ltb t (length cs)) then None else
  let c := vv_inc (clk cs t) t in
  match track_unsync_mut s c with
  | inl s1 =>
      let idx := aindex (at_cnt s1 - 1) in
      let s2 := at_set_stores s1 (list_upd (at_stores s1) idx (fun x => st_set_value x v)) (at_cnt s1) in
      match track_unsync_mut s2 c with
      | inl s3 => Some (s3, list_set cs t c)
      | inr _ => None
      end
  | inr _ => None
  end.

Lemma tick_out : forall own rk s s' cs t,
  GoodO own rk s cs -> StampO s cs -> t < length cs -> EqSt s s' ->
  StepOut own s cs s' (list_set cs t (vv_inc (clk cs t) t)).
Proof.
  intros own rk s s' cs t HG HS Ht HE. pose proof HG as [HI _].
  apply (clock_out (EqSt_GoodO HE HG) (EqSt_StampO HE HS) (EqSt_ext HE own) Ht
                   (sf_le cs t) (sf_len HI Ht) (sf_oth HI Ht)).
Qed.

Theorem unsync_load_out : forall own rk s cs t s' cs',
  GoodO own rk s cs -> StampO s cs -> unsync_load_step (s, cs) t = Some (s', cs') ->
  StepOut own s cs s' cs'.
Proof.
  intros own rk s cs t s' cs' HG HS H. unfold unsync_load_step in H.
  destruct (Nat.ltb_spec t (length cs)) as [Ht|Ht]; cbn [negb] in H; [|discriminate].
  destruct (track_unsync_load s (vv_inc (clk cs t) t)) as [s1|p] eqn:Htr; [|discriminate].
  inversion H. subst s' cs'. destruct (track_unsync_load_inl _ _ Htr) as [A [B C]].
  apply (@tick_out own rk s s1 cs t HG HS Ht (@EqSt_same_stores s s1 A B C)).
Qed.

Theorem with_mut_out : forall own rk s cs t v s' cs',
  GoodO own rk s cs -> StampO s cs -> with_mut_step (s, cs) t v = Some (s', cs') ->
  StepOut own s cs s' cs'.
Proof.
  intros own rk s cs t v s' cs' HG HS H. unfold with_mut_step in H.
  destruct (Nat.ltb_spec t (length cs)) as [Ht|Ht]; cbn [negb] in H; [|discriminate].
  destruct (track_unsync_mut s (vv_inc (clk cs t) t)) as [s1|p] eqn:Htr; [|discriminate].
  cbv zeta in H.
  match type of H with match track_unsync_mut ?S2 _ with _ => _ end = _ => set (s2 := S2) in * end.
  destruct (track_unsync_mut s2 (vv_inc (clk cs t) t)) as [s3|p] eqn:Htr2; [|discriminate].
  inversion H. subst s' cs'.
  destruct (track_unsync_mut_inl _ _ Htr) as [A [B C]].
  destruct (track_unsync_mut_inl _ _ Htr2) as [A2 [B2 C2]].
  pose proof HG as [HI _]. pose proof (i_cnt1 HI) as H1. pose proof (i_cnt7 HI) as H7.
  apply (@tick_out own rk s s3 cs t HG HS Ht).
  set (idx := aindex (at_cnt s1 - 1)) in *.
  assert (Hidx : idx < at_cnt s).
  { unfold idx. rewrite A. rewrite aindex_small by lia. lia. }
  assert (Hg : forall k, get_store s3 k = if Nat.eqb k idx then st_set_value (get_store s idx) v else get_store s k).
  { intros k. unfold get_store. rewrite C2. unfold s2. cbn [at_stores at_set_stores]. rewrite C.
    rewrite (@list_upd_nth astore (at_stores s) idx _ k store_default) by (rewrite (i_len HI); lia).
    reflexivity. }
  split; [|split].
  - split; [exact (eq_trans A2 A)|]. split; [exact (eq_trans B2 B)|].
    split; [rewrite C2; unfold s2; cbn [at_stores at_set_stores]; rewrite list_upd_length, C; reflexivity|].
    intros k. rewrite Hg. destruct (Nat.eqb_spec k idx) as [e|_]; [subst k|]; repeat split.
  - intros k Hk. rewrite Hg. destruct (Nat.eqb_spec k idx); [lia | reflexivity].
  - intros k. rewrite Hg. destruct (Nat.eqb_spec k idx) as [e|_]; [subst k|]; reflexivity.
Qed.

(* ------------------------------------------------------------------ *)
(* 2. the generalised machine                                           *)

Definition admissible_b (cs : list vv) (t : nat) (v : vv) : bool :=
  forallb (fun u => Nat.eqb u t || Nat.leb (vv_get v u) (vv_get (clk cs u) u)) (seq 0 (length cs)).

Lemma admissible_b_spec : forall cs t v, admissible_b cs t v = true <-> admissible cs t v.
Proof.
  intros cs t v. unfold admissible_b, admissible. rewrite forallb_forall. split.
  - intros H u Hu Hne. specialize (H u ltac:(apply in_seq; lia)).
    apply orb_true_iff in H. destruct H as [H|H]; [apply Nat.eqb_eq in H; contradiction | apply Nat.leb_le; exact H].
  - intros H u Hu. apply in_seq in Hu. destruct (Nat.eqb_spec u t) as [e|ne]; [reflexivity|].
    cbn [orb]. apply Nat.leb_le. apply H; lia.
Qed.

Inductive bop :=
  | BOp (op : aop)       (* an access / XSync of the model's machine (released = vv_new) *)
  | BGrow (v : vv)       (* any other synchronisation: join the admissible view v *)
  | BStoreR (rel : vv) (v : N) (o : ord)                       (* MStorePost with t_rel = rel *)
  | BRmwR (rel : vv) (idx : nat) (f : N -> option N) (so fo : ord)  (* MRmwPost with t_rel = rel *)
  | BUnsyncLoad          (* MUnsyncLoad *)
  | BWithMut (v : N).    (* MWithMut *)

Definition bstep (st : mstate) (t : nat) (b : bop) : option mstate :=
  match b with
  | BOp op => mstep RModel st t op
  | BGrow v => if Nat.ltb t (length (snd st)) && admissible_b (snd st) t v
               then Some (grow st t v) else None
  | BStoreR rel v o => store_stepR st t rel v o
  | BRmwR rel idx f so fo => rmw_stepR st t rel idx f so fo
  | BUnsyncLoad => unsync_load_step st t
  | BWithMut v => with_mut_step st t v
  end.

Fixpoint brun (st : mstate) (evs : list (nat * bop)) : option mstate :=
  match evs with
  | [] => Some st
  | (t, b) :: r => match bstep st t b with Some st' => brun st' r | None => None end
  end.

Lemma bstep_grow_inv : forall st t v st',
  bstep st t (BGrow v) = Some st' ->
  t < length (snd st) /\ admissible (snd st) t v /\ st' = grow st t v.
Proof.
  intros st t v st' H. cbn [bstep] in H.
  destruct (Nat.ltb_spec t (length (snd st))) as [Ht|Ht]; [|discriminate].
  destruct (admissible_b (snd st) t v) eqn:Ha; [|discriminate]. cbn [andb] in H. inversion H.
  split; [exact Ht|]. split; [apply admissible_b_spec; exact Ha | reflexivity].
Qed.

(* every step: invariant, stamps, [ext] of AtomicCoRR.v, clocks only grow *)
Theorem bstep_out : forall own rk s cs t b s' cs',
  GoodO own rk s cs -> StampO s cs -> bstep (s, cs) t b = Some (s', cs') ->
  StepOut own s cs s' cs'.
Proof.
  intros own rk s cs t b s' cs' HG HS H. destruct b as [op|v|rel v o|rel idx f so fo| |v]; cbn [bstep] in H.
  - apply (@mstep_goodO own rk s cs t op s' cs' HG HS H).
  - destruct (@bstep_grow_inv (s, cs) t v (s', cs') H) as [Ht [Ha He]]. cbn [snd] in Ht, Ha.
    unfold grow in He. cbn [fst snd] in He. inversion He. subst s' cs'.
    apply (@grow_out own rk s cs t v HG HS Ht Ha).
  - apply (@store_stepR_goodO own rk s cs t rel v o s' cs' HG HS H).
  - apply (@rmw_stepR_goodO own rk s cs t rel idx f so fo s' cs' HG HS H).
  - apply (@unsync_load_out own rk s cs t s' cs' HG HS H).
  - apply (@with_mut_out own rk s cs t v s' cs' HG HS H).
Qed.

Theorem bstep_goodS : forall st t b st', GoodS st -> bstep st t b = Some st' -> GoodS st'.
Proof.
  intros [s cs] t b [s' cs'] [[own [rk HG]] HS] H. cbn [fst snd] in *.
  destruct (@bstep_out own rk s cs t b s' cs' HG HS H) as [own' [rk' [HG' [HS' _]]]].
  split; [exists own', rk'; exact HG' | exact HS'].
Qed.

Theorem brun_goodS : forall evs st st', GoodS st -> brun st evs = Some st' -> GoodS st'.
Proof. exact (@run_keeps bop bstep brun (fun _ => eq_refl) (fun _ _ _ _ => eq_refl) GoodS bstep_goodS). Qed.

Theorem bstep_stable : forall st t b st' x y,
  GoodS st -> bstep st t b = Some st' ->
  lives st x -> lives st y -> mo_lt st x y = true ->
  lives st' x /\ lives st' y /\ mo_lt st' x y = true.
Proof.
  intros [s cs] t b [s' cs'] x y [[own [rk HG]] HS] H Hx Hy Hlt.
  destruct (@bstep_out own rk s cs t b s' cs' HG HS H) as [own' [rk' [[HI' _] [_ [Hext _]]]]].
  destruct HG as [HI _]. apply (ext_stable HI HI' Hext Hx Hy Hlt).
Qed.

Theorem bstep_knows : forall st t b st' u i,
  GoodS st -> bstep st t b = Some st' ->
  lives st i -> knows st u i -> lives st' i /\ knows st' u i.
Proof.
  intros [s cs] t b [s' cs'] u i [[own [rk HG]] HS] H Hi Hk.
  destruct (@bstep_out own rk s cs t b s' cs' HG HS H) as [own' [rk' [_ [_ [Hext [_ Hg]]]]]].
  apply (@ext_knows own s cs own' s' cs' u i Hext Hg Hi Hk).
Qed.

Theorem brun_stable : forall evs st st' x y,
  GoodS st -> brun st evs = Some st' ->
  lives st x -> lives st y -> mo_lt st x y = true ->
  lives st' x /\ lives st' y /\ mo_lt st' x y = true.
Proof.
  exact (@run_stable_g bop bstep brun (fun _ => eq_refl) (fun _ _ _ _ => eq_refl) GoodS bstep_goodS bstep_stable).
Qed.

Theorem brun_knows : forall evs st st' u i,
  GoodS st -> brun st evs = Some st' ->
  lives st i -> knows st u i -> lives st' i /\ knows st' u i.
Proof.
  exact (@run_knows_g bop bstep brun (fun _ => eq_refl) (fun _ _ _ _ => eq_refl) GoodS bstep_goodS bstep_knows).
Qed.

(* an admissible view that has seen store i makes t know i *)
Theorem grow_knows : forall st t v i,
  t < length (snd st) ->
  is_seen_by_current (st_seen (get_store (fst st) i)) v = true -> knows (grow st t v) t i.
Proof.
  intros [s cs] t v i Ht H. unfold knows, grow. cbn [fst snd] in *.
  rewrite (clk_set cs t _ t Ht), Nat.eqb_refl.
  apply (seen_clock_mono _ _ _ (vle_join_r (clk cs t) v) H).
Qed.

(* ---- coherence over runs of the generalised machine ---- *)
Theorem CoRR_CoWR_b : forall st1 evs st2 t i j o,
  GoodS st1 -> lives st1 i -> lives st1 j -> knows st1 t j -> mo_lt st1 i j = true ->
  brun st1 evs = Some st2 ->
  mstep RModel st2 t (XLoad i o) = None.
Proof.
  intros st1 evs st2 t i j o HG Hi Hj Hk Hlt Hrun.
  destruct (@brun_stable evs st1 st2 i j HG Hrun Hi Hj Hlt) as [Hi2 [Hj2 Hlt2]].
  destruct (@brun_knows evs st1 st2 t j HG Hrun Hj Hk) as [_ Hk2].
  apply (@CoRR_CoWR_model st2 [] st2 t i j o (@brun_goodS evs st1 st2 HG Hrun) Hi2 Hj2 Hk2 Hlt2 eq_refl).
Qed.

Theorem CoRR_CoWR_rmw_b : forall st1 evs st2 t i j f so fo,
  GoodS st1 -> lives st1 i -> lives st1 j -> mo_lt st1 i j = true ->
  brun st1 evs = Some st2 ->
  mstep RModel st2 t (XRmw i f so fo) = None.
Proof.
  intros st1 evs st2 t i j f so fo HG Hi Hj Hlt Hrun.
  destruct (@brun_stable evs st1 st2 i j HG Hrun Hi Hj Hlt) as [Hi2 [Hj2 Hlt2]].
  apply (@CoRR_CoWR_rmw_model st2 [] st2 t i j f so fo (@brun_goodS evs st1 st2 HG Hrun) Hi2 Hj2 Hlt2 eq_refl).
Qed.

Theorem CoRR_same_thread_b : forall st0 t j o st1 evs st2 i o',
  GoodS st0 -> mstep RModel st0 t (XLoad j o) = Some st1 ->
  lives st1 i -> mo_lt st1 i j = true ->
  brun st1 evs = Some st2 ->
  mstep RModel st2 t (XLoad i o') = None.
Proof.
  intros st0 t j o st1 evs st2 i o' HG Hs Hi Hlt Hrun.
  destruct (@load_knows_model st0 t j o st1 HG Hs) as [Hj Hk].
  apply (@CoRR_CoWR_b st1 evs st2 t i j o' (@mstep_goodS st0 t (XLoad j o) st1 HG Hs) Hi Hj Hk Hlt Hrun).
Qed.

Theorem CoWR_same_thread_b : forall st0 t v o st1 evs st2 i o',
  GoodS st0 -> mstep RModel st0 t (XStore v o) = Some st1 ->
  lives st1 i -> mo_lt st1 i (at_cnt (fst st0)) = true ->
  brun st1 evs = Some st2 ->
  mstep RModel st2 t (XLoad i o') = None.
Proof.
  intros st0 t v o st1 evs st2 i o' HG Hs Hi Hlt Hrun.
  destruct (@store_knows_model st0 t v o st1 HG Hs) as [Hj Hk].
  apply (@CoRR_CoWR_b st1 evs st2 t i (at_cnt (fst st0)) o'
           (@mstep_goodS st0 t (XStore v o) st1 HG Hs) Hi Hj Hk Hlt Hrun).
Qed.

Theorem CoRW_same_thread_b : forall st0 t j o st1 evs st2 v o' st3,
  GoodS st0 -> mstep RModel st0 t (XLoad j o) = Some st1 ->
  brun st1 evs = Some st2 ->
  mstep RModel st2 t (XStore v o') = Some st3 ->
  mo_lt st3 j (at_cnt (fst st2)) = true.
Proof.
  intros st0 t j o st1 evs st2 v o' st3 HG Hs Hrun Hs3.
  destruct (@load_knows_model st0 t j o st1 HG Hs) as [Hj Hk].
  pose proof (@mstep_goodS st0 t (XLoad j o) st1 HG Hs) as HG1.
  destruct (@brun_knows evs st1 st2 t j HG1 Hrun Hj Hk) as [Hj2 Hk2].
  apply (@CoWW_CoRW_model st2 t v o' st3 j (@brun_goodS evs st1 st2 HG1 Hrun) Hj2 Hk2 Hs3).
Qed.

Theorem CoWW_same_thread_b : forall st0 t v o st1 evs st2 v' o' st3,
  GoodS st0 -> mstep RModel st0 t (XStore v o) = Some st1 ->
  brun st1 evs = Some st2 ->
  mstep RModel st2 t (XStore v' o') = Some st3 ->
  mo_lt st3 (at_cnt (fst st0)) (at_cnt (fst st2)) = true.
Proof.
  intros st0 t v o st1 evs st2 v' o' st3 HG Hs Hrun Hs3.
  destruct (@store_knows_model st0 t v o st1 HG Hs) as [Hj Hk].
  pose proof (@mstep_goodS st0 t (XStore v o) st1 HG Hs) as HG1.
  destruct (@brun_knows evs st1 st2 t (at_cnt (fst st0)) HG1 Hrun Hj Hk) as [Hj2 Hk2].
  apply (@CoWW_CoRW_model st2 t v' o' st3 (at_cnt (fst st0)) (@brun_goodS evs st1 st2 HG1 Hrun) Hj2 Hk2 Hs3).
Qed.

(* in every state of every run: RMW atomicity, and assert_ne! cannot fire *)
Theorem brun_atomicity : forall evs st st' r sl sid,
  GoodS st -> brun st evs = Some st' -> r < at_cnt (fst st') ->
  st_rmw_src (get_store (fst st') r) = Some (sl, sid) ->
  sl < at_cnt (fst st') /\ vv_lt (mo (fst st') sl) (mo (fst st') r) = true /\
  forall x, x < at_cnt (fst st') ->
    vv_lt (mo (fst st') sl) (mo (fst st') x) && vv_lt (mo (fst st') x) (mo (fst st') r) = false.
Proof.
  intros evs st st' r sl sid HG Hrun. apply Good_atomicity. apply GoodS_Good.
  apply (@brun_goodS evs st st' HG Hrun).
Qed.

Theorem brun_never_none : forall evs st st', GoodS st -> brun st evs = Some st' ->
  (forall t c ly o, match_load_to_stores (fst st') t c ly o <> None) /\
  match_rmw_to_stores (fst st') <> None.
Proof.
  intros evs st st' HG Hrun. apply Good_never_none. apply GoodS_Good.
  apply (@brun_goodS evs st st' HG Hrun).
Qed.

(* ------------------------------------------------------------------ *)
(* 3. the start: the cell is created by ANY thread at ANY point          *)

Definition s_new (me : nat) (c0 : vv) (v0 : N) : atomic_state :=
  mkAtomic vv_new vv_new vv_new (vv_join vv_new c0) false (repeat None MAX_THREADS) None
    (mkStore v0 c0 c0 (sync_store vv_new c0 vv_new Release)
             (seen_touch seen_new me (vv_get c0 me)) false 0 None
     :: repeat store_default 6) 1.

Lemma atomic_new_eq : forall me c0 v0, atomic_new me c0 vv_new v0 = inl (s_new me c0 v0).
Proof.
  intros me c0 v0. unfold atomic_new, track_unsync_mut.
  cbn [at_mutating at_loaded at_unsync_loaded at_stored at_unsync_mut].
  assert (Ha : vv_ahead c0 vv_new = None) by (apply vv_ahead_none; apply vle_new).
  rewrite Ha. reflexivity.
Qed.

Theorem atomic_new_goodS : forall me c0 v0 cs,
  me < length cs -> length cs <= MAX_THREADS -> clk cs me = c0 ->
  (1 <= vv_get c0 me \/ forall q, vv_get c0 q = 0) ->
  (forall t, t < length cs -> t < length (clk cs t)) ->
  (forall u t, u < length cs -> t < length cs -> vv_get (clk cs u) t <= vv_get (clk cs t) t) ->
  GoodS (s_new me c0 v0, cs).
Proof.
  intros me c0 v0 cs Hme Hn Hc0 Hk1 Hclen Hbclk. apply GoodS_iff.
  exact (@new_goodSc me c0 v0 cs Hme Hn Hc0 Hk1 Hclen Hbclk).
Qed.

(* ------------------------------------------------------------------ *)
(* 4. the calls Ops.v makes are steps of the machine                    *)

(* a candidate under any last_yield is a candidate under last_yield = None *)
Lemma candidates_ly : forall s t c ly o l l0 idx,
  match_load_to_stores s t c ly o = Some l ->
  match_load_to_stores s t c None o = Some l0 ->
  In idx l -> In idx l0.
Proof.
  intros s t c ly o l l0 idx Hl Hl0 Hin.
  apply (load_candidates_spec _ _ _ _ _ _ Hl idx) in Hin. destruct Hin as [H7 [Hlive Hall]].
  apply (load_candidates_spec _ _ _ _ _ _ Hl0 idx). split; [exact H7|]. split; [exact Hlive|].
  intros j Hj7 Hjl Hne Hlt. destruct (Hall j Hj7 Hjl Hne Hlt) as [A [_ C]].
  split; [exact A|]. split; [reflexivity | exact C].
Qed.

Lemma In_existsb_eqb : forall idx l, In idx l -> existsb (Nat.eqb idx) l = true.
Proof.
  intros idx l Hin. apply existsb_exists. exists idx. split; [exact Hin | apply Nat.eqb_refl].
Qed.

(* MLoadPost / load_post / MFuLoadPost: after causality_inc the thread's clock
   is c = vv_inc (its clock) t; Ops.v computes the candidates with the thread's
   last_yield, picks idx among them and calls atomic_load.  Only "assert_ne!
   does not fire" is needed of the state *)
Theorem load_call_is_step_nn : forall s cs t ly o l idx s' c' val,
  (forall t c ly o, match_load_to_stores s t c ly o <> None) -> t < length cs ->
  match_load_to_stores s t (vv_inc (clk cs t) t) ly o = Some l -> In idx l ->
  atomic_load s t (vv_inc (clk cs t) t) idx o = inl (s', c', val) ->
  mstep RModel (s, cs) t (XLoad idx o) = Some (s', list_set cs t c').
Proof.
  intros s cs t ly o l idx s' c' val HG Ht Hl Hin Hload.
  unfold mstep. destruct (Nat.ltb_spec t (length cs)) as [_|H]; [|lia]. cbn [negb].
  destruct (match_load_to_stores s t (vv_inc (clk cs t) t) None o) as [l0|] eqn:Hl0.
  - rewrite (@In_existsb_eqb idx l0 (@candidates_ly s t (vv_inc (clk cs t) t) ly o l l0 idx Hl Hl0 Hin)).
    rewrite atomic_load_g_model, Hload. reflexivity.
  - exfalso. apply (HG t (vv_inc (clk cs t) t) None o). exact Hl0.
Qed.

Theorem load_call_is_step : forall s cs t ly o l idx s' c' val,
  GoodS (s, cs) -> t < length cs ->
  match_load_to_stores s t (vv_inc (clk cs t) t) ly o = Some l -> In idx l ->
  atomic_load s t (vv_inc (clk cs t) t) idx o = inl (s', c', val) ->
  mstep RModel (s, cs) t (XLoad idx o) = Some (s', list_set cs t c').
Proof.
  intros s cs t ly o l idx s' c' val HG.
  apply load_call_is_step_nn. apply (@Good_never_none (s, cs) (GoodS_Good HG)).
Qed.

(* MStorePost (for a thread that never fenced: t_rel = vv_new) *)
Theorem store_call_is_step : forall s cs t v o s1,
  t < length cs -> at_cnt s < MAX_ATOMIC_HISTORY ->
  track_store s (vv_inc (clk cs t) t) = inl s1 ->
  mstep RModel (s, cs) t (XStore v o) =
  Some (atomic_store s1 t (vv_inc (clk cs t) t) vv_new vv_new v o,
        list_set cs t (vv_inc (clk cs t) t)).
Proof.
  intros s cs t v o s1 Ht Hroom Hts. unfold mstep.
  destruct (Nat.ltb_spec t (length cs)) as [_|H]; [|lia]. cbn [negb].
  destruct (Nat.leb_spec MAX_ATOMIC_HISTORY (at_cnt s)) as [H|_]; [lia|].
  rewrite Hts. reflexivity.
Qed.

(* MRmwPost (t_rel = vv_new) *)
Theorem rmw_call_is_step : forall s cs t so fo f l idx s' c' prev ok,
  t < length cs -> at_cnt s < MAX_ATOMIC_HISTORY ->
  match_rmw_to_stores s = Some l -> In idx l ->
  atomic_rmw s t (vv_inc (clk cs t) t) vv_new idx so fo f = inl (s', c', prev, ok) ->
  mstep RModel (s, cs) t (XRmw idx f so fo) = Some (s', list_set cs t c').
Proof.
  intros s cs t so fo f l idx s' c' prev ok Ht Hroom Hl Hin Hr. unfold mstep.
  destruct (Nat.ltb_spec t (length cs)) as [_|H]; [|lia]. cbn [negb].
  destruct (Nat.leb_spec MAX_ATOMIC_HISTORY (at_cnt s)) as [H|_]; [lia|].
  rewrite Hl, (@In_existsb_eqb idx l Hin), atomic_rmw_g_model, Hr. reflexivity.
Qed.

(* fence(Acquire) over this cell, lock / channel / notify / join hand-overs,
   spawn ...: any view whose components are bounded by the owners' own
   components (ClockFacts.run_clock_wf gives that for every view stored in an
   execution state) is an admissible XGrow; e.g. the st_sync of a live store *)
Theorem sync_view_admissible : forall own rk s cs t i,
  GoodO own rk s cs -> i < at_cnt s -> admissible cs t (st_sync (get_store s i)).
Proof. intros own rk s cs t i [HI _] Hi u Hu _. apply (i_bsync HI Hi Hu). Qed.

(* ------------------------------------------------------------------ *)
(* 5. one micro-operation of Ops.v, end to end: MStorePost               *)

Definition clocks (e : exec) : list vv := map t_caus (e_threads e).

Lemma clk_clocks : forall e me t0, get_thread e me = Some t0 -> clk (clocks e) me = t_caus t0.
Proof.
  intros e me t0 H. unfold clk, clocks, get_thread in *.
  revert me H. induction (e_threads e) as [|h r IH]; intros me H; [destruct me; discriminate|].
  destruct me as [|me]; cbn in *; [inversion H; reflexivity | apply IH; exact H].
Qed.

Lemma map_list_upd_caus : forall (l : list thread) me f t0,
  nth_error l me = Some t0 ->
  map t_caus (list_upd l me f) = list_set (map t_caus l) me (t_caus (f t0)).
Proof.
  intros l me f t0 H. unfold list_upd. rewrite H. revert me H.
  induction l as [|h r IH]; intros me H; [destruct me; discriminate|].
  destruct me as [|me]; cbn in *; [reflexivity | f_equal; apply IH; exact H].
Qed.

Lemma list_set_twice : forall (A : Type) (l : list A) n x y,
  list_set (list_set l n x) n y = list_set l n y.
Proof.
  intros A l. induction l as [|h r IH]; intros n x y; [reflexivity|].
  destruct n as [|n]; cbn [list_set]; [reflexivity | f_equal; apply IH].
Qed.

(* ---- how the record operations of Ops.v act on (clocks, atomic a) ---- *)
Lemma clocks_upd_thread : forall e me f t0, get_thread e me = Some t0 ->
  clocks (upd_thread e me f) = list_set (clocks e) me (t_caus (f t0)).
Proof.
  intros e me f t0 H. unfold clocks, upd_thread. cbn [e_threads ex_set_threads].
  apply (@map_list_upd_caus (e_threads e) me f t0 H).
Qed.

Lemma clocks_upd_thread_keep : forall e me f,
  (forall t, t_caus (f t) = t_caus t) -> clocks (upd_thread e me f) = clocks e.
Proof.
  intros e me f Hf. unfold clocks, upd_thread, list_upd. cbn [e_threads ex_set_threads].
  destruct (nth_error (e_threads e) me) as [t0|] eqn:H; [|reflexivity].
  revert me H. induction (e_threads e) as [|h r IH]; intros me H; [destruct me; discriminate|].
  destruct me as [|me]; cbn in *; [inversion H; subst; rewrite Hf; reflexivity | f_equal; apply IH; exact H].
Qed.

Lemma clocks_log_op : forall e me r, clocks (log_op e me r) = clocks e.
Proof. intros e me r. unfold log_op. destruct (get_thread e me); reflexivity. Qed.
Lemma clocks_push_cont : forall e me ms, clocks (push_cont e me ms) = clocks e.
Proof. intros e me ms. unfold push_cont. apply clocks_upd_thread_keep. intros t. reflexivity. Qed.
Lemma ga_log_op : forall e me r a, get_atomic (log_op e me r) a = get_atomic e a.
Proof. intros e me r a. unfold log_op. destruct (get_thread e me); reflexivity. Qed.
Lemma ga_upd_thread : forall e me f a, get_atomic (upd_thread e me f) a = get_atomic e a.
Proof. reflexivity. Qed.
Lemma ga_push_cont : forall e me ms a, get_atomic (push_cont e me ms) a = get_atomic e a.
Proof. reflexivity. Qed.
Lemma ga_upd_object_same : forall e a s0 s2, get_atomic e a = Some s0 ->
  get_atomic (upd_object e a (fun _ => OAtomic s2)) a = Some s2.
Proof.
  intros e a s0 s2 H. unfold get_atomic in *. unfold upd_object. cbn [e_objects ex_set_objects].
  destruct (nth_error (e_objects e) a) as [ob|] eqn:Hob; [|discriminate].
  rewrite nth_error_list_upd_same, Hob. reflexivity.
Qed.
Lemma gt_upd_object : forall e a f me, get_thread (upd_object e a f) me = get_thread e me.
Proof. reflexivity. Qed.

Lemma choose_store_frame : forall e seed e2 r, choose_store e seed = (e2, r) ->
  e_threads e2 = e_threads e /\ e_objects e2 = e_objects e.
Proof.
  intros e seed e2 r H. unfold choose_store in H.
  destruct (if is_traversed (e_path e)
            then match seed with
                 | Some sd => match push_load (e_path e) sd with POk p => inl p | PErr x => inr (PanicPath x) end
                 | None => inr PanicMoEq
                 end
            else inl (e_path e)) as [p|p].
  - destruct (branch_load p) as [[p' idx]|x]; inversion H; split; reflexivity.
  - inversion H. split; reflexivity.
Qed.

Section MicroBridge.
  Variables (e : exec) (me a : nat) (t0 : thread) (s : atomic_state).
  Hypothesis Hth : get_thread e me = Some t0.
  Hypothesis Hat : get_atomic e a = Some s.

  Let e1 := causality_inc e me.
  Let c := vv_inc (t_caus t0) me.

  Lemma mb_th1 : get_thread e1 me = Some (th_set_caus t0 c).
  Proof.
    unfold e1, causality_inc, upd_thread, get_thread. cbn [e_threads ex_set_threads].
    rewrite nth_error_list_upd_same. unfold get_thread in Hth. rewrite Hth. reflexivity.
  Qed.
  Lemma mb_at1 : get_atomic e1 a = Some s.
  Proof. exact Hat. Qed.
  Lemma mb_cl1 : clocks e1 = list_set (clocks e) me c.
  Proof. unfold e1, causality_inc. rewrite (clocks_upd_thread e me _ Hth). reflexivity. Qed.
  Lemma mb_me : me < length (clocks e).
  Proof. unfold clocks. rewrite map_length. apply nth_error_Some. unfold get_thread in Hth. rewrite Hth. discriminate. Qed.
  Lemma mb_clk : clk (clocks e) me = t_caus t0.
  Proof. apply (clk_clocks e me Hth). Qed.
  Lemma mb_ltb : Nat.ltb me (length (clocks e)) = true.
  Proof. apply Nat.ltb_lt. exact mb_me. Qed.
  Lemma mb_caus1 : caus_of e1 me = c.
  Proof. unfold caus_of. rewrite mb_th1. reflexivity. Qed.
  Lemma mb_rel : vle (t_rel t0) (t_caus t0) -> vv_le (t_rel t0) c = true.
  Proof. intros Hrel. apply vv_le_spec. eapply vle_trans; [exact Hrel | apply vle_inc]. Qed.

  (* after upd_object a, log_op: what is left to show of the machine's step b *)
  Lemma mb_tick : forall s' r b,
    bstep (s, clocks e) me b = Some (s', list_set (clocks e) me c) ->
    exists s'', get_atomic (log_op (upd_object e1 a (fun _ => OAtomic s')) me r) a = Some s'' /\
                bstep (s, clocks e) me b =
                Some (s'', clocks (log_op (upd_object e1 a (fun _ => OAtomic s')) me r)).
  Proof.
    intros s' r b Hb. exists s'. rewrite ga_log_op, clocks_log_op. split.
    - apply (@ga_upd_object_same e1 a s s'). exact Hat.
    - rewrite Hb. change (clocks (upd_object e1 a (fun _ => OAtomic s'))) with (clocks e1).
      rewrite mb_cl1. reflexivity.
  Qed.

  (* after choose_store, upd_object a, set_caus me c' *)
  Lemma mb_final : forall seed e2 r s' c', choose_store e1 seed = (e2, r) ->
    clocks (set_caus (upd_object e2 a (fun _ => OAtomic s')) me c') = list_set (clocks e) me c' /\
    get_atomic (set_caus (upd_object e2 a (fun _ => OAtomic s')) me c') a = Some s'.
  Proof.
    intros seed e2 r s' c' Hch. destruct (choose_store_frame _ _ Hch) as [Ht2 Ho2].
    assert (Hth2 : get_thread (upd_object e2 a (fun _ => OAtomic s')) me = Some (th_set_caus t0 c)).
    { rewrite gt_upd_object. unfold get_thread. rewrite Ht2. apply mb_th1. }
    split.
    - unfold set_caus. rewrite (clocks_upd_thread _ me _ Hth2). cbn [t_caus th_set_caus].
      assert (Hc2 : clocks (upd_object e2 a (fun _ => OAtomic s')) = clocks e1).
      { unfold clocks, upd_object. cbn [e_threads ex_set_objects]. rewrite Ht2. reflexivity. }
      rewrite Hc2, mb_cl1. apply list_set_twice.
    - unfold set_caus. rewrite ga_upd_thread. apply (@ga_upd_object_same e2 a s s').
      unfold get_atomic. rewrite Ho2. exact mb_at1.
  Qed.
End MicroBridge.

(* MStorePost: a BStoreR step with the thread's released clock *)
Theorem MStorePost_is_step : forall e me a v o e' t0 s,
  get_thread e me = Some t0 -> get_atomic e a = Some s ->
  at_cnt s < MAX_ATOMIC_HISTORY -> vle (t_rel t0) (t_caus t0) ->
  exec_micro e me (MStorePost a v o) = MOk e' ->
  exists s', get_atomic e' a = Some s' /\
             bstep (s, clocks e) me (BStoreR (t_rel t0) v o) = Some (s', clocks e').
Proof.
  intros e me a v o e' t0 s Hth Hat Hroom Hrel Hex.
  cbn [exec_micro] in Hex. cbv zeta in Hex.
  rewrite (@mb_at1 e me a s Hat), (@mb_th1 e me t0 Hth) in Hex. cbn [t_caus th_set_caus t_rel] in Hex.
  destruct (track_store s (vv_inc (t_caus t0) me)) as [s1|p] eqn:Hts; [|discriminate].
  inversion Hex as [He']. clear Hex.
  apply (@mb_tick e me a t0 s Hth Hat).
  cbn [bstep]. unfold store_stepR. rewrite (@mb_ltb e me t0 Hth), (@mb_clk e me t0 Hth). cbn [negb].
  destruct (Nat.leb_spec MAX_ATOMIC_HISTORY (at_cnt s)) as [H|_]; [lia|].
  cbv zeta. rewrite (@mb_rel me t0 Hrel). cbn [negb]. rewrite Hts. reflexivity.
Qed.

(* load_post (the polls of block_on; the load half of MLoadPost and MFuLoadPost):
   an XLoad step, provided the index chosen by choose_store is a candidate
   (automatic when the path is being extended; on replay it is a property of
   the whole exploration) *)
Theorem load_post_is_step : forall e me a o e' x t0 s,
  get_thread e me = Some t0 -> get_atomic e a = Some s ->
  (forall t c ly o, match_load_to_stores s t c ly o <> None) ->
  (forall e2 idx l,
     choose_store (causality_inc e me)
       (match_load_to_stores s me (vv_inc (t_caus t0) me) (t_last_yield t0) o) = (e2, inl idx) ->
     match_load_to_stores s me (vv_inc (t_caus t0) me) (t_last_yield t0) o = Some l -> In idx l) ->
  load_post e me a o = inl (e', x) ->
  exists s' idx, get_atomic e' a = Some s' /\
                 bstep (s, clocks e) me (BOp (XLoad idx o)) = Some (s', clocks e').
Proof.
  intros e me a o e' x t0 s Hth Hat HG Hcand Hex.
  unfold load_post in Hex. cbv zeta in Hex.
  rewrite (@mb_at1 e me a s Hat), (@mb_th1 e me t0 Hth) in Hex. cbn [t_caus th_set_caus t_last_yield] in Hex.
  set (c := vv_inc (t_caus t0) me) in *.
  set (seed := match_load_to_stores s me c (t_last_yield t0) o) in *.
  destruct (choose_store (causality_inc e me) seed) as [e2 [idx|p]] eqn:Hch; [|discriminate].
  destruct (atomic_load s me c idx o) as [[[s' c'] val]|p] eqn:Hld; [|discriminate].
  destruct (@mb_final e me a t0 s Hth Hat seed e2 (inl idx) s' c' Hch) as [Hcl Hga].
  pose proof (@mb_me e me t0 Hth) as Hme. pose proof (@mb_clk e me t0 Hth) as Hck.
  destruct seed as [l|] eqn:Hl; [|contradiction (HG me c (t_last_yield t0) o)].
  pose proof (Hcand e2 idx l eq_refl eq_refl) as Hin.
  assert (Hstep : mstep RModel (s, clocks e) me (XLoad idx o) = Some (s', list_set (clocks e) me c')).
  { apply (@load_call_is_step_nn s (clocks e) me (t_last_yield t0) o l idx s' c' val HG Hme).
    - rewrite Hck. exact Hl.
    - exact Hin.
    - rewrite Hck. exact Hld. }
  exists s', idx. cbn [bstep]. rewrite Hstep.
  inversion Hex as [[He' Hx]]. split; [exact Hga | rewrite Hcl; reflexivity].
Qed.

Lemma exec_micro_load_post e me a o aw :
  exec_micro e me (MLoadPost a o aw) =
  match load_post e me a o with
  | inl (e1, v) =>
      let e2 := log_op e1 me (RVal v) in
      match aw with
      | None => MOk e2
      | Some want =>
          if N.eqb v want then MOk e2
          else MOk (push_cont e2 me [MYield; MBranch a ALoad BNever; MLoadPost a o aw])
      end
  | inr (e1, p) => MFail e1 p
  end.
Proof.
  cbn [exec_micro]. unfold load_post. cbv zeta.
  destruct (get_atomic _ a); [|reflexivity]. destruct (get_thread _ me); [|reflexivity].
  destruct (choose_store _ _) as [e1 [idx|p]]; [|reflexivity].
  destruct (atomic_load _ _ _ _ _) as [[[s' c'] v]|p]; reflexivity.
Qed.

Lemma exec_micro_fu_load_post e me a f v so fo :
  exec_micro e me (MFuLoadPost a f v so fo) =
  match load_post e me a fo with
  | inl (e1, prev) => MOk (push_cont e1 me [MBranch a ARmw BNever; MRmwPost a (KFu f v prev) so fo])
  | inr (e1, p) => MFail e1 p
  end.
Proof.
  cbn [exec_micro]. unfold load_post. cbv zeta.
  destruct (get_atomic _ a); [|reflexivity]. destruct (get_thread _ me); [|reflexivity].
  destruct (choose_store _ _) as [e1 [idx|p]]; [|reflexivity].
  destruct (atomic_load _ _ _ _ _) as [[[s' c'] prev]|p]; reflexivity.
Qed.

Theorem MLoadPost_is_step : forall e me a o aw e' t0 s,
  get_thread e me = Some t0 -> get_atomic e a = Some s -> GoodS (s, clocks e) ->
  (forall e2 idx l,
     choose_store (causality_inc e me)
       (match_load_to_stores s me (vv_inc (t_caus t0) me) (t_last_yield t0) o) = (e2, inl idx) ->
     match_load_to_stores s me (vv_inc (t_caus t0) me) (t_last_yield t0) o = Some l -> In idx l) ->
  exec_micro e me (MLoadPost a o aw) = MOk e' ->
  exists s' idx, get_atomic e' a = Some s' /\
                 bstep (s, clocks e) me (BOp (XLoad idx o)) = Some (s', clocks e').
Proof.
  intros e me a o aw e' t0 s Hth Hat HG Hcand Hex. rewrite exec_micro_load_post in Hex.
  destruct (load_post e me a o) as [[e1 x]|[e1 p]] eqn:Hlp; [|discriminate].
  destruct (@load_post_is_step e me a o e1 x t0 s Hth Hat
              (proj1 (@Good_never_none (s, clocks e) (GoodS_Good HG))) Hcand Hlp) as [s' [idx [Hga Hst]]].
  exists s', idx. cbv zeta in Hex.
  destruct aw as [want|]; [destruct (N.eqb x want)|]; inversion Hex;
    rewrite ?ga_push_cont, ?clocks_push_cont, ga_log_op, clocks_log_op; split; assumption.
Qed.

(* MFuLoadPost (the load of a fetch_update): an XLoad step with the failure ordering *)
Theorem MFuLoadPost_is_step : forall e me a f v so fo e' t0 s,
  get_thread e me = Some t0 -> get_atomic e a = Some s -> GoodS (s, clocks e) ->
  (forall e2 idx l,
     choose_store (causality_inc e me)
       (match_load_to_stores s me (vv_inc (t_caus t0) me) (t_last_yield t0) fo) = (e2, inl idx) ->
     match_load_to_stores s me (vv_inc (t_caus t0) me) (t_last_yield t0) fo = Some l -> In idx l) ->
  exec_micro e me (MFuLoadPost a f v so fo) = MOk e' ->
  exists s' idx, get_atomic e' a = Some s' /\
                 bstep (s, clocks e) me (BOp (XLoad idx fo)) = Some (s', clocks e').
Proof.
  intros e me a f v so fo e' t0 s Hth Hat HG Hcand Hex. rewrite exec_micro_fu_load_post in Hex.
  destruct (load_post e me a fo) as [[e1 x]|[e1 p]] eqn:Hlp; [|discriminate].
  destruct (@load_post_is_step e me a fo e1 x t0 s Hth Hat
              (proj1 (@Good_never_none (s, clocks e) (GoodS_Good HG))) Hcand Hlp) as [s' [idx [Hga Hst]]].
  exists s', idx. inversion Hex. rewrite ga_push_cont, clocks_push_cont. split; assumption.
Qed.

(* MRmwPost: a BRmwR step with the thread's released clock *)
Theorem MRmwPost_is_step : forall e me a k so fo e' t0 s,
  get_thread e me = Some t0 -> get_atomic e a = Some s ->
  at_cnt s < MAX_ATOMIC_HISTORY -> vle (t_rel t0) (t_caus t0) ->
  (forall e2 idx l,
     choose_store (causality_inc e me) (match_rmw_to_stores s) = (e2, inl idx) ->
     match_rmw_to_stores s = Some l -> In idx l) ->
  match_rmw_to_stores s <> None ->
  exec_micro e me (MRmwPost a k so fo) = MOk e' ->
  exists s' idx, get_atomic e' a = Some s' /\
                 bstep (s, clocks e) me (BRmwR (t_rel t0) idx (rmw_fun k) so fo) = Some (s', clocks e').
Proof.
  intros e me a k so fo e' t0 s Hth Hat Hroom Hrel Hcand Hnn Hex.
  cbn [exec_micro] in Hex. cbv zeta in Hex.
  rewrite (@mb_at1 e me a s Hat), (@mb_th1 e me t0 Hth) in Hex. cbn [t_caus th_set_caus t_rel] in Hex.
  set (c := vv_inc (t_caus t0) me) in *.
  destruct (choose_store (causality_inc e me) (match_rmw_to_stores s)) as [e2 [idx|p]] eqn:Hch; [|discriminate].
  destruct (atomic_rmw s me c (t_rel t0) idx so fo (rmw_fun k)) as [[[[s' c'] prev] ok]|p] eqn:Hr; [|discriminate].
  destruct (@mb_final e me a t0 s Hth Hat (match_rmw_to_stores s) e2 (inl idx) s' c' Hch) as [Hcl Hga].
  destruct (match_rmw_to_stores s) as [l|] eqn:Hl; [|contradiction Hnn; reflexivity].
  assert (Hin : In idx l) by (apply (Hcand e2 idx l eq_refl eq_refl)).
  assert (Hstep : rmw_stepR (s, clocks e) me (t_rel t0) idx (rmw_fun k) so fo = Some (s', list_set (clocks e) me c')).
  { unfold rmw_stepR. rewrite (@mb_ltb e me t0 Hth), (@mb_clk e me t0 Hth). cbn [negb].
    destruct (Nat.leb_spec MAX_ATOMIC_HISTORY (at_cnt s)) as [H|_]; [lia|].
    cbv zeta. rewrite (@mb_rel me t0 Hrel). cbn [negb]. fold c.
    rewrite Hl, (@In_existsb_eqb idx l Hin), Hr. reflexivity. }
  exists s', idx. cbn [bstep]. rewrite Hstep, <- Hcl.
  set (e3 := set_caus (upd_object e2 a (fun _ => OAtomic s')) me c') in *.
  destruct k as [f0 v0|ex nw|f0 v0 pv].
  - inversion Hex as [He']. rewrite ga_log_op, clocks_log_op. split; [exact Hga | reflexivity].
  - inversion Hex as [He']. rewrite ga_log_op, clocks_log_op. split; [exact Hga | reflexivity].
  - destruct ok; inversion Hex as [He'].
    + rewrite ga_log_op, clocks_log_op. split; [exact Hga | reflexivity].
    + rewrite ga_push_cont, clocks_push_cont. split; [exact Hga | reflexivity].
Qed.

(* MUnsyncLoad / MWithMut (after fix D23 they tick the clock) *)
Theorem MUnsyncLoad_is_step : forall e me a e' t0 s,
  get_thread e me = Some t0 -> get_atomic e a = Some s ->
  exec_micro e me (MUnsyncLoad a) = MOk e' ->
  exists s', get_atomic e' a = Some s' /\
             bstep (s, clocks e) me BUnsyncLoad = Some (s', clocks e').
Proof.
  intros e me a e' t0 s Hth Hat Hex.
  cbn [exec_micro] in Hex. cbv zeta in Hex.
  rewrite (@mb_at1 e me a s Hat), (@mb_caus1 e me t0 Hth) in Hex.
  destruct (track_unsync_load s (vv_inc (t_caus t0) me)) as [s1|p] eqn:Htr; [|discriminate].
  inversion Hex as [He']. apply (@mb_tick e me a t0 s Hth Hat).
  cbn [bstep]. unfold unsync_load_step. rewrite (@mb_ltb e me t0 Hth), (@mb_clk e me t0 Hth). cbn [negb].
  cbv zeta. rewrite Htr. reflexivity.
Qed.

Theorem MWithMut_is_step : forall e me a v e' t0 s,
  get_thread e me = Some t0 -> get_atomic e a = Some s ->
  exec_micro e me (MWithMut a v) = MOk e' ->
  exists s', get_atomic e' a = Some s' /\
             bstep (s, clocks e) me (BWithMut v) = Some (s', clocks e').
Proof.
  intros e me a v e' t0 s Hth Hat Hex.
  cbn [exec_micro] in Hex. cbv zeta in Hex.
  rewrite (@mb_at1 e me a s Hat), (@mb_caus1 e me t0 Hth) in Hex.
  destruct (track_unsync_mut s (vv_inc (t_caus t0) me)) as [s1|p] eqn:Htr; [|discriminate].
  match type of Hex with match track_unsync_mut ?S2 _ with _ => _ end = _ => set (s2 := S2) in * end.
  destruct (track_unsync_mut s2 (vv_inc (t_caus t0) me)) as [s3|p] eqn:Htr2; [|discriminate].
  inversion Hex as [He']. apply (@mb_tick e me a t0 s Hth Hat).
  cbn [bstep]. unfold with_mut_step. rewrite (@mb_ltb e me t0 Hth), (@mb_clk e me t0 Hth). cbn [negb].
  cbv zeta. rewrite Htr. fold s2. rewrite Htr2. reflexivity.
Qed.

(* ---- the atomic cell and the clock list under updates of other components ---- *)
(* an operation on another object does not touch atomic a *)
Lemma ga_upd_object_other : forall e b f a, b <> a ->
  get_atomic (upd_object e b f) a = get_atomic e a.
Proof.
  intros e b f a Hne. unfold get_atomic, upd_object. cbn [e_objects ex_set_objects].
  rewrite (@nth_error_list_upd_other object (e_objects e) b a f Hne). reflexivity.
Qed.

(* acquiring a view is a grow step on the clocks *)
Lemma set_caus_join_is_grow : forall e me t0 v s,
  get_thread e me = Some t0 ->
  (s, clocks (set_caus e me (vv_join (t_caus t0) v))) = grow (s, clocks e) me v.
Proof.
  intros e me t0 v s Hth. unfold grow, set_caus. cbn [fst snd].
  rewrite (clocks_upd_thread e me _ Hth). cbn [t_caus th_set_caus].
  rewrite (clk_clocks e me Hth). reflexivity.
Qed.

Print Assumptions grow_goodS.
Print Assumptions brun_goodS.
Print Assumptions brun_stable.
Print Assumptions brun_knows.
Print Assumptions grow_knows.
Print Assumptions CoRR_CoWR_b.
Print Assumptions CoRR_CoWR_rmw_b.
Print Assumptions CoRR_same_thread_b.
Print Assumptions CoWR_same_thread_b.
Print Assumptions CoRW_same_thread_b.
Print Assumptions CoWW_same_thread_b.
Print Assumptions brun_atomicity.
Print Assumptions brun_never_none.
Print Assumptions atomic_new_goodS.
Print Assumptions load_call_is_step.
Print Assumptions store_call_is_step.
Print Assumptions rmw_call_is_step.
Print Assumptions sync_view_admissible.
Print Assumptions MStorePost_is_step.
Print Assumptions MLoadPost_is_step.
Print Assumptions MFuLoadPost_is_step.
Print Assumptions MRmwPost_is_step.
Print Assumptions MUnsyncLoad_is_step.
Print Assumptions MWithMut_is_step.
Print Assumptions bstep_out.
Print Assumptions unsync_load_out.
Print Assumptions with_mut_out.
