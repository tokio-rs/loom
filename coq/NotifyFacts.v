(* NotifyFacts: "a wake-up is never lost" at the level of rt::Notify (thread
   join, block_on, AtomicWaker all go through MNotifyWait1 / MNotifyWait2 /
   MNotifyPost).

   Contents
     0. slot P n e e': the object in slot n persists and is related by P
        (slot_ok P: what is asked of P); framing lemmas in continuation style
        for every helper of Ops.v and for schedule; slot_tac, the walk over
        all micro-operations.  Nothing here is about Notify: CondvarFacts
        instantiates it as well.
     1. nt_le w (the order on Notify states: the notified flag persists unless
        [w] allows the consuming wait, did_spur persists, the spurious
        configuration is constant, the view grows), okeep, okeep_ok,
        nkeep w n = slot (okeep w) n, nkeep_get
     2. exec_micro_nkeep: [destruct m; slot_tac]; MNotifyWait2 by hand
     3. the requested one-step statements: notified_persists (A.1),
        did_spur_persists (A.4, with the constancy of nt_spurious)
     4. steps_without_wait2 (A.2), sw2_notified_persists, steps_nw2 (the
        restriction of SyncMono.steps), steps_nw2_sw2
     5. exec_micro_notify_wait1 (what MNotifyWait1 does, exactly),
        no lost wake-up (A.3): wake_flag_set, wake_wait1_not_blocking,
        wake_wait2_succeeds, no_lost_wakeup
     6. the safety half (A.4): wait1_unnotified_blocks, branch_always_blocks,
        branch_never_keeps_state, blocked_not_scheduled, spurious_at_most_once
     7. thr_at b Q (thread b exists and satisfies Q) under the updates of the
        thread list and under schedule (shared with ParkFacts.tinv);
        a waiter blocked on Notify n is woken by MNotifyPost n only: bw b n
        (n is a Notify and thread b is Blocked with its pending operation on
        n) is preserved by every micro-operation of another thread other than
        MNotifyPost n (exec_micro_bw, again [destruct m; bw_tac]; MNotifyPost,
        MSendPost and MTrackDrop by hand),
        blocked_waiter_stays, steps_without_post, blocked_until_post,
        branch_always_waiting, unnotified_waiter_blocked_until_post

   DEVIATIONS from the requested statements: see the end of the file. *)
Require Import LV.Base LV.VV LV.VVFacts LV.Path LV.PathSpec LV.PathApi LV.Prog LV.Objects
               LV.Exec LV.Atomic LV.Ops LV.Check LV.SyncFacts LV.ExecFacts LV.SyncMono.
From Coq Require Import List Arith Lia Bool.
Import ListNotations.

(* ================================================================== *)
(* 0. One object slot under all micro-operations                       *)
(* ================================================================== *)

(* [slot P n e e']: the object in slot n of e is still there in e', related to
   it by P.  The instances (okeep below, CondvarFacts.ocv) take for P "an
   object of the kind of interest keeps its kind, and its state is related";
   the relation reads e_objects only. *)
Definition slot (P : object -> object -> Prop) (n : nat) (e e' : exec) : Prop :=
  forall o, nth_error (e_objects e) n = Some o ->
    exists o', nth_error (e_objects e') n = Some o' /\ P o o'.

(* what the framing lemmas ask of P: a preorder that survives the scheduler's
   bookkeeping and puts no constraint on locks (the helpers of Ops.v rewrite
   them) and on allocations (MTrackDrop) *)
Record slot_ok (P : object -> object -> Prop) : Prop := {
  so_refl : forall o, P o o;
  so_trans : forall o1 o2 o3, P o1 o2 -> P o2 o3 -> P o1 o3;
  so_access : forall o act tid pid v, P o (set_last_access o act tid pid v);
  so_mutex : forall s o', P (OMutex s) o';
  so_rw : forall s o', P (ORwLock s) o';
  so_alloc : forall d o', P (OAlloc d) o' }.
Arguments so_refl {P}. Arguments so_trans {P}. Arguments so_access {P}. Arguments so_mutex {P}.
Arguments so_rw {P}. Arguments so_alloc {P}.

Lemma e_objects_fold_unpark me l : forall e,
  e_objects (fold_left (fun e t => threads_unpark e me t) l e) = e_objects e.
Proof.
  induction l as [|x l IH]; intros e; cbn [fold_left]; [reflexivity|].
  rewrite IH. apply threads_unpark_objects.
Qed.

(* (on the large states of the atomic operations reflexivity is slow for
   set_caus and causality_inc: it compares the states before it unfolds
   e_objects) *)
Ltac eobj_tac :=
  lazymatch goal with
  | |- e_objects (set_caus _ _ _) = _ => apply e_objects_set_caus
  | |- e_objects (causality_inc _ _) = _ => apply e_objects_causality_inc
  | |- e_objects (log_op _ _ _) = _ => apply e_objects_log_op
  | |- e_objects (log_poll _ _) = _ => apply e_objects_log_poll
  | |- e_objects (threads_unpark _ _ _) = _ => apply threads_unpark_objects
  | |- e_objects (fold_left _ _ _) = _ => apply e_objects_fold_unpark
  | |- _ => first [ reflexivity | autorewrite with eobj; reflexivity ]
  end.

Section Slot.
Context {P : object -> object -> Prop} (HP : slot_ok P) (n : nat).

Lemma slot_refl e : slot P n e e.
Proof. intros o Ho. exists o. split; [exact Ho|apply (so_refl HP)]. Qed.

Lemma slot_trans e1 e2 e3 : slot P n e1 e2 -> slot P n e2 e3 -> slot P n e1 e3.
Proof.
  intros H12 H23 o Ho. destruct (H12 o Ho) as (o2 & Ho2 & Hp2).
  destruct (H23 o2 Ho2) as (o3 & Ho3 & Hp3). exists o3. split; [exact Ho3|].
  exact (so_trans HP _ _ _ Hp2 Hp3).
Qed.

Lemma slot_k e0 e e' : slot P n e e' -> slot P n e0 e -> slot P n e0 e'.
Proof. intros H1 H0. eapply slot_trans; eassumption. Qed.

(* ---- basic shapes ---- *)
Lemma slot_same e e' : e_objects e' = e_objects e -> slot P n e e'.
Proof. intros Ho. unfold slot. rewrite Ho. exact (slot_refl e). Qed.

Lemma slot_same_k e0 e e' : e_objects e' = e_objects e -> slot P n e0 e -> slot P n e0 e'.
Proof. intros Ho. apply slot_k, slot_same, Ho. Qed.

Lemma slot_append_k e0 e l :
  slot P n e0 e -> slot P n e0 (ex_set_objects e (e_objects e ++ l)).
Proof.
  apply slot_k. intros o Ho. exists o. split; [|apply (so_refl HP)].
  change (nth_error (e_objects e ++ l) n = Some o).
  rewrite nth_error_app1; [exact Ho|]. apply nth_error_Some. congruence.
Qed.

Lemma slot_upd_object e i f :
  (forall o, nth_error (e_objects e) i = Some o -> P o (f o)) -> slot P n e (upd_object e i f).
Proof.
  intros Hf o Ho. destruct (Nat.eq_dec i n) as [->|Hne].
  - rewrite nth_error_objects_upd_same, Ho. cbn [option_map]. eauto.
  - rewrite nth_error_objects_upd_other by exact Hne. exists o. split; [exact Ho|apply (so_refl HP)].
Qed.

Lemma slot_upd_object_k e0 e i o' :
  (forall o, nth_error (e_objects e) i = Some o -> P o o') ->
  slot P n e0 e -> slot P n e0 (upd_object e i (fun _ => o')).
Proof. intros Hf. apply slot_k, slot_upd_object, Hf. Qed.

(* an update of another slot *)
Lemma slot_upd_other_k e0 e i f : i <> n -> slot P n e0 e -> slot P n e0 (upd_object e i f).
Proof.
  intros Hne. apply slot_k. intros o Ho. exists o. split; [|apply (so_refl HP)].
  rewrite nth_error_objects_upd_other by exact Hne. exact Ho.
Qed.

(* MTrackDrop overwrites slot k; under track_ok it held an allocation *)
Lemma slot_track_drop_k e0 e k :
  track_ok e -> ho_track (get_h e k) = true -> slot P n e0 e ->
  slot P n e0 (upd_object (upd_hobj e k (fun ho => ho_set_track ho false)) k (fun _ => OAlloc true)).
Proof.
  intros [_ Htr] Hk H. apply slot_upd_object_k; [|eapply slot_same_k; [reflexivity|exact H]].
  intros o Ho. destruct (Htr k o Hk Ho) as [d ->]. apply (so_alloc HP).
Qed.

(* ---- the helpers of Ops.v ---- *)
Lemma schedule_slot_k e0 e : slot P n e0 e -> slot P n e0 (res_exec (fst (schedule e))).
Proof.
  apply slot_k. destruct (schedule_shape e) as (_ & [_ Ho] & _). intros o Hn.
  destruct (Ho n o Hn) as (o' & Hn' & Hr). exists o'. split; [exact Hn'|].
  destruct Hr as [->|(act & tid & pid & v & ->)]; [apply (so_refl HP)|apply (so_access HP)].
Qed.

Lemma slot_upd_mutex_k e0 e m s o' :
  nth_error (e_objects e) m = Some (OMutex s) ->
  slot P n e0 e -> slot P n e0 (upd_object e m (fun _ => o')).
Proof.
  intros Hg. apply slot_upd_object_k. intros o Ho. rewrite Hg in Ho. injection Ho as <-.
  apply (so_mutex HP).
Qed.

Lemma slot_upd_rw_k e0 e r s o' :
  nth_error (e_objects e) r = Some (ORwLock s) ->
  slot P n e0 e -> slot P n e0 (upd_object e r (fun _ => o')).
Proof.
  intros Hg. apply slot_upd_object_k. intros o Ho. rewrite Hg in Ho. injection Ho as <-.
  apply (so_rw HP).
Qed.

Lemma release_lock_slot_k e0 e me m : slot P n e0 e -> slot P n e0 (release_lock e me m).
Proof.
  intros H. unfold release_lock. destruct (get_mutex e m) as [s|] eqn:Hg; [|exact H].
  apply get_mutex_nth in Hg. cbv zeta.
  match goal with |- slot _ _ _ (match e_active ?E with _ => _ end) =>
    assert (H1 : slot P n e0 E) by (eapply slot_upd_mutex_k; [exact Hg|exact H]) end.
  destruct (e_active _); [|exact H1].
  eapply slot_same_k; [reflexivity|]. eapply slot_upd_mutex_k; [|exact H1].
  rewrite nth_error_objects_upd_same, Hg. reflexivity.
Qed.

Lemma post_acquire_slot e me m : slot P n e (fst (post_acquire e me m)).
Proof.
  unfold post_acquire. destruct (get_mutex e m) as [s|] eqn:Hg; [|apply slot_refl].
  apply get_mutex_nth in Hg. destruct (is_some (mx_lock s)); cbn [fst]; [apply slot_refl|].
  eapply slot_same_k; [reflexivity|]. eapply slot_same_k; [reflexivity|].
  eapply slot_upd_mutex_k; [exact Hg|apply slot_refl].
Qed.

Lemma post_acquire_read_slot e me r : slot P n e (fst (post_acquire_read e me r)).
Proof.
  unfold post_acquire_read. destruct (get_rw e r) as [s|] eqn:Hg; [|apply slot_refl].
  apply get_rw_nth in Hg.
  destruct (rw_lock s) as [[rs|x]|]; cbn [fst]; try apply slot_refl.
  all: eapply slot_same_k; [reflexivity|]; eapply slot_same_k; [reflexivity|];
    eapply slot_upd_rw_k; [exact Hg|apply slot_refl].
Qed.

Lemma post_acquire_write_slot e me r : slot P n e (fst (post_acquire_write e me r)).
Proof.
  unfold post_acquire_write. destruct (get_rw e r) as [s|] eqn:Hg; [|apply slot_refl].
  apply get_rw_nth in Hg.
  destruct (rw_lock s) as [lk|]; cbn [fst]; try apply slot_refl.
  eapply slot_same_k; [reflexivity|]; eapply slot_same_k; [reflexivity|];
    eapply slot_upd_rw_k; [exact Hg|apply slot_refl].
Qed.

Lemma release_read_slot e me r : slot P n e (res_exec (release_read e me r)).
Proof.
  unfold release_read. destruct (get_rw e r) as [s|] eqn:Hg; [|apply slot_refl].
  apply get_rw_nth in Hg. cbv zeta.
  destruct (rw_lock s) as [[rs|x]|]; cbn [res_exec]; try apply slot_refl.
  destruct (set_remove me rs); cbn [res_exec].
  - eapply slot_same_k; [reflexivity|]. eapply slot_upd_rw_k; [exact Hg|apply slot_refl].
  - eapply slot_upd_rw_k; [exact Hg|apply slot_refl].
Qed.

Lemma release_write_slot e me r : slot P n e (res_exec (release_write e me r)).
Proof.
  unfold release_write. destruct (get_rw e r) as [s|] eqn:Hg; [|apply slot_refl].
  apply get_rw_nth in Hg. cbn [res_exec].
  eapply slot_same_k; [reflexivity|]. eapply slot_upd_rw_k; [exact Hg|apply slot_refl].
Qed.

Lemma choose_store_slot e seed : slot P n e (fst (choose_store e seed)).
Proof. destruct (choose_store_frame e seed) as (_ & H2 & _). apply slot_same. exact H2. Qed.

(* an atomic load rewrites the atomic: it must be another slot, or of no
   interest to P *)
Lemma load_post_slot e me a o :
  a <> n \/ (forall s o', P (OAtomic s) o') -> slot P n e (lp_exec (load_post e me a o)).
Proof.
  intros Ha. unfold load_post. cbv zeta.
  destruct (get_atomic _ a) as [s|] eqn:Hg; [|apply slot_same; reflexivity].
  destruct (get_thread _ me) as [t|]; [|apply slot_same; reflexivity].
  pose proof (choose_store_slot (causality_inc e me) (match_load_to_stores s me (t_caus t) (t_last_yield t) o)) as Hc.
  destruct (choose_store_frame (causality_inc e me) (match_load_to_stores s me (t_caus t) (t_last_yield t) o)) as (_ & Hco & _).
  destruct (choose_store _ _) as [e1 [idx|p]]; cbn [fst lp_exec] in *; [|exact Hc].
  destruct (atomic_load s me (t_caus t) idx o) as [[[s' c'] v]|p]; cbn [lp_exec]; [|exact Hc].
  eapply slot_same_k; [reflexivity|]. destruct Ha as [Hne|Ha].
  - apply slot_upd_other_k; [exact Hne|exact Hc].
  - apply slot_upd_object_k; [|exact Hc].
    intros x Hx. apply get_atomic_nth in Hg. rewrite Hco, Hg in Hx. injection Hx as <-. apply Ha.
Qed.

End Slot.

(* One step of the walk over exec_micro for [slot P n]; HP : slot_ok P. *)
Ltac slot_sched HP := apply (schedule_slot_k HP).

Ltac slot_frame HP H t :=
  lazymatch goal with
  | |- slot _ ?n _ _ =>
      lazymatch t with
      | load_post ?e ?me ?a ?o =>
          assert (H : slot _ n e (lp_exec (load_post e me a o)))
            by (apply (load_post_slot HP); first [ left; assumption | right; intros; exact I ])
      | post_acquire ?e ?me ?m => pose proof (post_acquire_slot HP n e me m) as H
      | post_acquire_read ?e ?me ?m => pose proof (post_acquire_read_slot HP n e me m) as H
      | post_acquire_write ?e ?me ?m => pose proof (post_acquire_write_slot HP n e me m) as H
      | release_read ?e ?me ?m => pose proof (release_read_slot HP n e me m) as H
      | release_write ?e ?me ?m => pose proof (release_write_slot HP n e me m) as H
      | choose_store ?e ?s => pose proof (choose_store_slot HP n e s) as H
      end
  end.

(* the state under a helper that leaves e_objects alone *)
Ltac under_non_object x :=
  match x with
  | log_op ?e _ _ => e
  | log_poll ?e _ => e
  | _ => under_setter x
  | _ => under_h_setter x
  | _ => under_thread_setter x
  end.

(* the state under an update of one thread *)
Ltac under_thread_update x :=
  lazymatch x with
  | push_cont ?e _ _ => e
  | push_guard ?e _ _ _ => e
  | drop_guard ?e _ _ _ => e
  | causality_inc ?e _ => e
  | set_caus ?e _ _ => e
  | upd_thread ?e _ _ => e
  end.

(* [side] solves the condition on the object that an upd_object writes *)
Ltac slot_close_step HP side :=
  match goal with
  | |- slot _ _ ?e ?e => apply (slot_refl HP)
  | H : slot ?P ?n ?E ?x |- slot ?P ?n _ ?x => apply (slot_trans HP n _ E x); [|exact H]
  | |- slot _ _ _ (ex_set_objects ?e (e_objects ?e ++ _)) => apply (slot_append_k HP)
  | |- slot _ _ _ (release_lock _ _ _) => apply (release_lock_slot_k HP)
  | |- slot _ _ _ (upd_object (upd_hobj _ _ _) _ (fun _ => OAlloc true)) =>
      apply (slot_track_drop_k HP); [assumption|assumption|]
  | Hne : ?i <> ?n |- slot _ ?n _ (upd_object _ ?i _) => apply (slot_upd_other_k HP); [exact Hne|]
  | |- slot _ _ _ (upd_object _ _ _) => apply (slot_upd_object_k HP); [side|]
  | |- slot _ ?n _ ?x => let e := under_non_object x in apply (slot_same_k HP n _ e); [eobj_tac|]
  end.

(* (the two rewrites: the dead first write of a disconnected MSendPost) *)
Ltac slot_tac HP side :=
  cbn [exec_micro]; unfold lift_path, mbind; cbv beta iota;
  repeat walk_step ltac:(slot_sched HP) ltac:(fun H t => slot_frame HP H t);
  cbn [res_exec lp_exec];
  rewrite ?upd_object_map_others_upd_object_const, ?upd_object_upd_object_const;
  repeat slot_close_step HP side.

(* ================================================================== *)
(* 1. The order on Notify states                                       *)
(* ================================================================== *)

Definition nt_le (w : bool) (s s' : notify_state) : Prop :=
  (w = false -> nt_notified s = true -> nt_notified s' = true) /\
  (nt_did_spur s = true -> nt_did_spur s' = true) /\
  nt_spurious s' = nt_spurious s /\
  vle (nt_sync s) (nt_sync s').

Lemma nt_le_refl w s : nt_le w s s.
Proof. unfold nt_le. auto using vle_refl. Qed.

Lemma nt_le_trans w s1 s2 s3 : nt_le w s1 s2 -> nt_le w s2 s3 -> nt_le w s1 s3.
Proof.
  intros (Ha1 & Ha2 & Ha3 & Ha4) (Hb1 & Hb2 & Hb3 & Hb4). unfold nt_le.
  split; [auto|]. split; [auto|]. split; [congruence|eauto using vle_trans].
Qed.

(* what a write to an object slot must satisfy *)
Definition okeep (w : bool) (o o' : object) : Prop :=
  match o with
  | ONotify s => exists s', o' = ONotify s' /\ nt_le w s s'
  | _ => True
  end.

Lemma okeep_refl w o : okeep w o o.
Proof. destruct o; cbn [okeep]; auto. eexists; split; [reflexivity|apply nt_le_refl]. Qed.

Lemma okeep_ok w : slot_ok (okeep w).
Proof.
  split; try (intros; exact I).
  - apply okeep_refl.
  - intros o1 o2 o3 H12 H23. destruct o1; cbn [okeep] in *; auto.
    destruct H12 as (s2 & -> & Hle2). destruct H23 as (s3 & -> & Hle3).
    eauto using nt_le_trans.
  - intros o act tid pid v. destruct o; cbn [okeep set_last_access]; auto.
    eexists; split; [reflexivity|]. unfold nt_le; cbn. auto using vle_refl.
Qed.

Definition nkeep (w : bool) (n : nat) : exec -> exec -> Prop := slot (okeep w) n.

Lemma nkeep_get w n e e' s : nkeep w n e e' -> get_notify e n = Some s ->
  exists s', get_notify e' n = Some s' /\ nt_le w s s'.
Proof.
  intros H Hs. apply get_notify_nth in Hs. destruct (H _ Hs) as (o' & Ho' & s' & -> & Hle).
  exists s'. split; [|exact Hle]. unfold get_notify. rewrite Ho'. reflexivity.
Qed.

(* ================================================================== *)
(* 2. One micro-operation                                              *)
(* ================================================================== *)

Ltac nt_le_tac :=
  unfold nt_le, nt_set; cbn [nt_notified nt_did_spur nt_spurious nt_sync];
  repeat split; auto using vle_refl, sync_store_keeps.

Ltac nside_obj :=
  obj_at_slot; cbn [okeep]; first [ exact I | eexists; split; [reflexivity|nt_le_tac] ].

(* every micro-operation except the consuming wait on n itself keeps the
   notified flag of n; every micro-operation keeps did_spur / nt_spurious and
   lets the view grow.  [track_ok] is needed for MTrackDrop only. *)
Lemma exec_micro_nkeep w n e me m :
  track_ok e -> (w = false -> m <> MNotifyWait2 n) ->
  nkeep w n e (res_exec (exec_micro e me m)).
Proof.
  intros Htr Hm. unfold nkeep.
  destruct m;
    try match goal with
        | |- slot _ _ _ (res_exec (exec_micro _ _ (MNotifyWait2 _))) => idtac
        | |- _ => clear Hm; slot_tac (okeep_ok w) nside_obj
        end.
  (* MNotifyWait2 n0: on n itself only when w allows it *)
  destruct (Nat.eq_dec n0 n) as [->|Hne].
  - destruct w; [|destruct (Hm eq_refl eq_refl)]. slot_tac (okeep_ok true) nside_obj.
  - slot_tac (okeep_ok w) nside_obj.
Qed.

(* ================================================================== *)
(* 3. The one-step statements                                          *)
(* ================================================================== *)

Lemma exec_micro_nkeep_ok w n e me m e' :
  track_ok e -> (w = false -> m <> MNotifyWait2 n) -> exec_micro e me m = MOk e' -> nkeep w n e e'.
Proof.
  intros Htr Hm H. pose proof (exec_micro_nkeep w n e me m Htr Hm) as Hk. rewrite H in Hk. exact Hk.
Qed.

(* A.1: only the consuming post-action MNotifyWait2 n clears the flag *)
Theorem notified_persists : forall e me m e' n s,
  track_ok e -> get_notify e n = Some s -> nt_notified s = true ->
  exec_micro e me m = MOk e' -> m <> MNotifyWait2 n ->
  exists s', get_notify e' n = Some s' /\ nt_notified s' = true /\ vle (nt_sync s) (nt_sync s').
Proof.
  intros e me m e' n s Htr Hg Hn Hx Hm.
  destruct (nkeep_get _ _ _ _ _ (exec_micro_nkeep_ok false n e me m e' Htr (fun _ => Hm) Hx) Hg) as (s' & Hg' & H1 & _ & _ & H4).
  exists s'. auto.
Qed.

(* the same for the state carried by a panic *)
Theorem notified_persists_fail : forall e me m e' pn n s,
  track_ok e -> get_notify e n = Some s -> nt_notified s = true ->
  exec_micro e me m = MFail e' pn -> m <> MNotifyWait2 n ->
  exists s', get_notify e' n = Some s' /\ nt_notified s' = true /\ vle (nt_sync s) (nt_sync s').
Proof.
  intros e me m e' pn n s Htr Hg Hn Hx Hm.
  pose proof (exec_micro_nkeep false n e me m Htr (fun _ => Hm)) as Hk. rewrite Hx in Hk.
  destruct (nkeep_get _ _ _ _ _ Hk Hg) as (s' & Hg' & H1 & _ & _ & H4). exists s'. auto.
Qed.

(* A.4, second half: did_spur and the spurious configuration persist under
   EVERY micro-operation (MNotifyWait2 n included) *)
Theorem did_spur_persists : forall e me m e' n s,
  track_ok e -> get_notify e n = Some s -> exec_micro e me m = MOk e' ->
  exists s', get_notify e' n = Some s' /\
             (nt_did_spur s = true -> nt_did_spur s' = true) /\
             nt_spurious s' = nt_spurious s /\ vle (nt_sync s) (nt_sync s').
Proof.
  intros e me m e' n s Htr Hg Hx.
  assert (Hm : true = false -> m <> MNotifyWait2 n) by discriminate.
  destruct (nkeep_get _ _ _ _ _ (exec_micro_nkeep_ok true n e me m e' Htr Hm Hx) Hg) as (s' & Hg' & _ & H2 & H3 & H4).
  exists s'. auto.
Qed.

(* without track_ok the statement is false (same reason as
   SyncMono.view_mono_counterexample): MTrackDrop overwrites slot k whenever
   the harness flag of slot k is set, whatever the runtime object is *)
Definition cex_notify : notify_state := mkNotify false false false true None vv_new.
Definition cex_nstate (p : prog) (pa : path) : exec :=
  ex_set_h (ex_set_objects (init_exec p pa) [ONotify cex_notify]) [ho_set_track hobj_default true].

Lemma notified_persists_needs_track_ok p pa :
  get_notify (cex_nstate p pa) 0 = Some cex_notify /\ nt_notified cex_notify = true /\
  exists e', exec_micro (cex_nstate p pa) 0 (MTrackDrop 0) = MOk e' /\ get_notify e' 0 = None.
Proof. split; [reflexivity|]. split; [reflexivity|]. eexists. split; reflexivity. Qed.

(* ================================================================== *)
(* 4. Sequences of steps                                               *)
(* ================================================================== *)

(* the closure of: any thread executes a micro-operation satisfying P; the
   runtime pops the continuation of a thread (Check.run does both in one go) *)
Inductive msteps (P : micro -> Prop) : exec -> exec -> Prop :=
  | ms_refl e : msteps P e e
  | ms_micro e me m e1 e2 :
      P m -> exec_micro e me m = MOk e1 -> msteps P e1 e2 -> msteps P e e2
  | ms_pop e me rest e2 :
      msteps P (upd_thread e me (fun t => th_set_cont t rest)) e2 -> msteps P e e2.

Definition steps_without_wait2 (n : nat) : exec -> exec -> Prop :=
  msteps (fun m => m <> MNotifyWait2 n).
Definition any_steps : exec -> exec -> Prop := msteps (fun _ => True).

Lemma msteps_trans (P : micro -> Prop) e1 e2 e3 : msteps P e1 e2 -> msteps P e2 e3 -> msteps P e1 e3.
Proof.
  intros H12 H23. induction H12 as [e|e me m e1 e2 Hp Hx Hs IH|e me rest e2 Hs IH]; [exact H23| |].
  - eapply ms_micro; eauto.
  - eapply ms_pop; eauto.
Qed.

Lemma msteps_weaken (P Q : micro -> Prop) e e' :
  (forall m, P m -> Q m) -> msteps P e e' -> msteps Q e e'.
Proof.
  intros HPQ H. induction H as [e|e me m e1 e2 Hp Hx Hs IH|e me rest e2 Hs IH].
  - apply ms_refl.
  - eapply ms_micro; eauto.
  - eapply ms_pop; eauto.
Qed.

Lemma track_ok_same e e' : e_h e' = e_h e -> e_objects e' = e_objects e -> track_ok e -> track_ok e'.
Proof. intros Hh Ho [H1 H2]. unfold track_ok, get_h in *. rewrite Hh, Ho. split; assumption. Qed.

Lemma track_ok_pop e me rest :
  track_ok e -> track_ok (upd_thread e me (fun t => th_set_cont t rest)).
Proof. apply track_ok_same; reflexivity. Qed.

Lemma msteps_inv w n (P : micro -> Prop) e e' :
  (forall m, P m -> w = false -> m <> MNotifyWait2 n) ->
  msteps P e e' -> track_ok e -> nkeep w n e e' /\ track_ok e' /\ mono e e'.
Proof.
  intros HP H. induction H as [e|e me m e1 e2 Hp Hx Hs IH|e me rest e2 Hs IH]; intros Htr.
  - split; [apply (slot_refl (okeep_ok w))|]. split; [exact Htr|apply mono_refl].
  - destruct (IH (exec_micro_track_ok _ _ _ _ Htr Hx)) as (Hk & Htr2 & Hm).
    split; [|split; [exact Htr2|]].
    + eapply (slot_trans (okeep_ok w)); [|exact Hk]. eapply exec_micro_nkeep_ok; eauto.
    + eapply mono_trans; [|exact Hm]. eapply exec_micro_mono_ok; exact Hx.
  - destruct (IH (track_ok_pop e me rest Htr)) as (Hk & Htr2 & Hm). split; [|split; [exact Htr2|]].
    + eapply (slot_trans (okeep_ok w)); [|exact Hk]. apply slot_same; [apply okeep_ok|reflexivity].
    + eapply mono_trans; [|exact Hm]. apply mono_pre, mono_refl.
Qed.

(* A.2 *)
Theorem sw2_notified_persists : forall n e e' s,
  track_ok e -> steps_without_wait2 n e e' -> get_notify e n = Some s -> nt_notified s = true ->
  exists s', get_notify e' n = Some s' /\ nt_notified s' = true /\ vle (nt_sync s) (nt_sync s').
Proof.
  intros n e e' s Htr Hs Hg Hn.
  destruct (msteps_inv false n _ e e' (fun m Hm _ => Hm) Hs Htr) as (Hk & _ & _).
  destruct (nkeep_get _ _ _ _ _ Hk Hg) as (s' & Hg' & H1 & _ & _ & H4). exists s'. auto.
Qed.

Theorem any_steps_did_spur_persists : forall n e e' s,
  track_ok e -> any_steps e e' -> get_notify e n = Some s ->
  exists s', get_notify e' n = Some s' /\
             (nt_did_spur s = true -> nt_did_spur s' = true) /\
             nt_spurious s' = nt_spurious s /\ vle (nt_sync s) (nt_sync s').
Proof.
  intros n e e' s Htr Hs Hg.
  assert (HP : forall m, True -> true = false -> m <> MNotifyWait2 n) by discriminate.
  destruct (msteps_inv true n _ e e' HP Hs Htr) as (Hk & _ & _).
  destruct (nkeep_get _ _ _ _ _ Hk Hg) as (s' & Hg' & _ & H2 & H3 & H4). exists s'. auto.
Qed.

Lemma sw2_track_ok n e e' : track_ok e -> steps_without_wait2 n e e' -> track_ok e'.
Proof. intros Htr Hs. exact (proj1 (proj2 (msteps_inv false n _ e e' (fun m Hm _ => Hm) Hs Htr))). Qed.

Lemma sw2_mono n e e' : track_ok e -> steps_without_wait2 n e e' -> mono e e'.
Proof. intros Htr Hs. exact (proj2 (proj2 (msteps_inv false n _ e e' (fun m Hm _ => Hm) Hs Htr))). Qed.

(* the steps of the runtime (SyncMono.steps: the active thread pops and
   executes its next micro-operation), restricted to micro-operations other
   than MNotifyWait2 n, are such sequences *)
Inductive steps_nw2 (n : nat) : exec -> exec -> Prop :=
  | snw_refl e : steps_nw2 n e e
  | snw_step e me t m rest e1 e2 :
      e_active e = Some me -> nth_error (e_threads e) me = Some t -> t_cont t = m :: rest ->
      m <> MNotifyWait2 n ->
      exec_micro (upd_thread e me (fun t => th_set_cont t rest)) me m = MOk e1 ->
      steps_nw2 n e1 e2 -> steps_nw2 n e e2.

Lemma steps_nw2_sw2 n e e' : steps_nw2 n e e' -> steps_without_wait2 n e e'.
Proof.
  intros H. induction H as [e|e me t m rest e1 e2 Ha Ht Hc Hm Hx Hs IH]; [apply ms_refl|].
  eapply ms_pop, ms_micro; eauto.
Qed.

Lemma steps_nw2_steps n e e' : steps_nw2 n e e' -> steps e e'.
Proof.
  intros H. induction H as [e|e me t m rest e1 e2 Ha Ht Hc Hm Hx Hs IH]; [apply steps_refl|].
  eapply steps_step; eauto.
Qed.

(* ================================================================== *)
(* 5. No lost wake-up                                                  *)
(* ================================================================== *)

(* the continuation pushed by Notify::wait when it does not return spuriously *)
Definition wait1_cont (n : nat) (s : notify_state) : list micro :=
  [MBranch n AOpaque (if nt_notified s then BNever else BAlways); MNotifyWait2 n].

(* what MNotifyWait1 does, exactly *)
Lemma exec_micro_notify_wait1 e me n s :
  get_notify e n = Some s ->
  exec_micro e me (MNotifyWait1 n) =
  if nt_spurious s && negb (nt_did_spur s) then
    match branch_spurious (e_path e) with
    | PErr x => MFail e (PanicPath x)
    | POk (p, true) =>
        MOk (push_cont (upd_object (ex_set_path e p) n
                          (fun _ => ONotify (nt_set s true (nt_notified s) (nt_sync s)))) me [MYield])
    | POk (p, false) => MOk (push_cont (ex_set_path e p) me (wait1_cont n s))
    end
  else MOk (push_cont e me (wait1_cont n s)).
Proof.
  intros Hg. cbn [exec_micro]. rewrite Hg.
  destruct (nt_spurious s && negb (nt_did_spur s)); [|reflexivity].
  destruct (branch_spurious (e_path e)) as [[p [|]]|x]; reflexivity.
Qed.

(* a branch that never blocks leaves the thread's state alone: the thread
   only records its pending operation and goes through the scheduler *)
Lemma branch_never_keeps_state e b n act :
  exec_micro e b (MBranch n act BNever) =
  fst (schedule (upd_thread e b (fun t => th_set_op t (Some (mkOp n act))))).
Proof. reflexivity. Qed.

(* the wake publishes the flag and the waker's clock; both persist *)
Theorem wake_flag_set : forall e a n e1 e2,
  track_ok e -> exec_micro e a (MNotifyPost n) = MOk e1 -> steps_without_wait2 n e1 e2 ->
  exists s2, get_notify e2 n = Some s2 /\ nt_notified s2 = true /\ vle (caus_of e a) (nt_sync s2).
Proof.
  intros e a n e1 e2 Htr Hpost Hs.
  assert (Hg : exists s, get_notify e n = Some s).
  { rewrite exec_micro_notify_post in Hpost. destruct (get_notify e n) as [s|]; [eauto|discriminate]. }
  destruct Hg as (s & Hg).
  destruct (notify_post_publishes e a n s e1 Hg Hpost) as (s1 & Hg1 & Hpub & _ & Hn1).
  pose proof (exec_micro_track_ok _ _ _ _ Htr Hpost) as Htr1.
  destruct (sw2_notified_persists n e1 e2 s1 Htr1 Hs Hg1 Hn1) as (s2 & Hg2 & Hn2 & Hle).
  exists s2. split; [exact Hg2|]. split; [exact Hn2|]. eapply vle_trans; eassumption.
Qed.

(* A.3, first part: after a wake a waiter entering Notify::wait does not
   block.  All outcomes of MNotifyWait1 n in such a state:
   - the Notify cannot return spuriously (any more): the continuation
     [MBranch n AOpaque BNever; MNotifyWait2 n] is pushed, nothing else changes;
   - it can, and the path answers "no": the same, with the path advanced;
   - it can, and the path answers "yes": did_spur is set, the flag is kept,
     and the wait returns through MYield without consuming the notification;
   - the path panics in branch_spurious (branch limit / nondeterminism). *)
Theorem wake_wait1_not_blocking : forall e a n e1 e2 b,
  track_ok e -> exec_micro e a (MNotifyPost n) = MOk e1 -> steps_without_wait2 n e1 e2 ->
  exists s2, get_notify e2 n = Some s2 /\ nt_notified s2 = true /\
    ((nt_spurious s2 && negb (nt_did_spur s2) = false /\
      exec_micro e2 b (MNotifyWait1 n) =
        MOk (push_cont e2 b [MBranch n AOpaque BNever; MNotifyWait2 n])) \/
     (nt_spurious s2 && negb (nt_did_spur s2) = true /\
      ((exists p, branch_spurious (e_path e2) = POk (p, false) /\
          exec_micro e2 b (MNotifyWait1 n) =
            MOk (push_cont (ex_set_path e2 p) b [MBranch n AOpaque BNever; MNotifyWait2 n])) \/
       (exists p, branch_spurious (e_path e2) = POk (p, true) /\
          exec_micro e2 b (MNotifyWait1 n) =
            MOk (push_cont (upd_object (ex_set_path e2 p) n
                              (fun _ => ONotify (nt_set s2 true true (nt_sync s2)))) b [MYield])) \/
       (exists x, branch_spurious (e_path e2) = PErr x /\
          exec_micro e2 b (MNotifyWait1 n) = MFail e2 (PanicPath x))))).
Proof.
  intros e a n e1 e2 b Htr Hpost Hs.
  destruct (wake_flag_set e a n e1 e2 Htr Hpost Hs) as (s2 & Hg2 & Hn2 & _).
  exists s2. split; [exact Hg2|]. split; [exact Hn2|].
  rewrite (exec_micro_notify_wait1 e2 b n s2 Hg2). unfold wait1_cont. rewrite Hn2.
  destruct (nt_spurious s2 && negb (nt_did_spur s2)); [right|left; auto].
  split; [reflexivity|].
  destruct (branch_spurious (e_path e2)) as [[p [|]]|x]; eauto 6.
Qed.

(* A.3, second part: in every state reached from the wake without a consuming
   wait on n, MNotifyWait2 n succeeds (it is not MFail _ PanicNotified), it
   consumes the notification, and the waiter acquires the waker's clock *)
Theorem wake_wait2_succeeds : forall e a n e1 e4 b,
  track_ok e -> exec_micro e a (MNotifyPost n) = MOk e1 -> steps_without_wait2 n e1 e4 ->
  exists e5, exec_micro e4 b (MNotifyWait2 n) = MOk e5 /\
    (b < length (e_threads e4) -> vle (caus_of e a) (caus_of e5 b)) /\
    exists s5, get_notify e5 n = Some s5 /\ nt_notified s5 = false.
Proof.
  intros e a n e1 e4 b Htr Hpost Hs.
  destruct (wake_flag_set e a n e1 e4 Htr Hpost Hs) as (s4 & Hg4 & Hn4 & Hpub).
  rewrite exec_micro_notify_wait2, Hg4, Hn4. cbn [negb]. eexists. split; [reflexivity|].
  split.
  - intros Hb. rewrite caus_of_upd_object, caus_of_set_caus_same by exact Hb.
    eapply vle_trans; [exact Hpub|]. apply sync_load_acq. reflexivity.
  - eexists. split; [eapply get_notify_upd_const; rewrite e_objects_set_caus;
                     apply get_notify_nth; exact Hg4|reflexivity].
Qed.

(* the whole scenario: a wakes; any steps; b enters the wait (MNotifyWait1);
   any steps (b's non-blocking branch among them); b's MNotifyWait2 succeeds
   and b has acquired a's clock *)
Theorem no_lost_wakeup : forall e a n e1 e2 b e3 e4,
  track_ok e -> exec_micro e a (MNotifyPost n) = MOk e1 ->
  steps_without_wait2 n e1 e2 ->
  exec_micro e2 b (MNotifyWait1 n) = MOk e3 ->
  steps_without_wait2 n e3 e4 ->
  exists e5, exec_micro e4 b (MNotifyWait2 n) = MOk e5 /\
    (forall e' pn, exec_micro e4 b (MNotifyWait2 n) <> MFail e' pn) /\
    (b < length (e_threads e4) -> vle (caus_of e a) (caus_of e5 b)).
Proof.
  intros e a n e1 e2 b e3 e4 Htr Hpost H12 Hw1 H34.
  assert (H14 : steps_without_wait2 n e1 e4).
  { eapply msteps_trans; [exact H12|]. eapply ms_micro; [|exact Hw1|exact H34]. discriminate. }
  destruct (wake_wait2_succeeds e a n e1 e4 b Htr Hpost H14) as (e5 & Hx & Hc & _).
  exists e5. split; [exact Hx|]. split; [|exact Hc]. intros e' pn. rewrite Hx. discriminate.
Qed.

(* ================================================================== *)
(* 6. The safety half                                                  *)
(* ================================================================== *)

(* A.4: with the flag clear, the waiter either takes the single modelled
   spurious return or pushes a branch that always blocks *)
Theorem wait1_unnotified_blocks : forall e b n s e3,
  get_notify e n = Some s -> nt_notified s = false ->
  exec_micro e b (MNotifyWait1 n) = MOk e3 ->
  (exists p, (p = e_path e \/ branch_spurious (e_path e) = POk (p, false)) /\
     e_path e3 = p /\ e_objects e3 = e_objects e /\
     get_thread e3 b = option_map (fun t => th_set_cont t ([MBranch n AOpaque BAlways; MNotifyWait2 n] ++ t_cont t))
                         (get_thread e b)) \/
  (nt_spurious s = true /\ nt_did_spur s = false /\
   exists p, branch_spurious (e_path e) = POk (p, true) /\
     e3 = push_cont (upd_object (ex_set_path e p) n
                       (fun _ => ONotify (nt_set s true false (nt_sync s)))) b [MYield]).
Proof.
  intros e b n s e3 Hg Hn Hx. rewrite (exec_micro_notify_wait1 e b n s Hg) in Hx.
  unfold wait1_cont in Hx. rewrite Hn in Hx.
  assert (Hpc : forall e0 : exec, e_threads e0 = e_threads e ->
            get_thread (push_cont e0 b [MBranch n AOpaque BAlways; MNotifyWait2 n]) b =
            option_map (fun t => th_set_cont t ([MBranch n AOpaque BAlways; MNotifyWait2 n] ++ t_cont t))
                       (get_thread e b)).
  { intros e0 He0. unfold push_cont. rewrite get_thread_upd_thread_same.
    unfold get_thread. rewrite He0. reflexivity. }
  destruct (nt_spurious s && negb (nt_did_spur s)) eqn:Hm.
  - destruct (branch_spurious (e_path e)) as [[p [|]]|x] eqn:Hb; [| |discriminate Hx];
      injection Hx as <-.
    + right. apply andb_true_iff in Hm. destruct Hm as [Hsp Hds]. apply negb_true_iff in Hds.
      split; [exact Hsp|]. split; [exact Hds|]. exists p. auto.
    + left. exists p. rewrite Hpc by reflexivity. auto.
  - injection Hx as <-. left. exists (e_path e). rewrite Hpc by reflexivity. auto.
Qed.

(* such a branch marks the thread Blocked before it calls the scheduler *)
Lemma branch_always_blocks e b n act :
  exec_micro e b (MBranch n act BAlways) =
  fst (schedule (upd_thread e b (fun t => set_blocked (th_set_op t (Some (mkOp n act)))))).
Proof. reflexivity. Qed.

(* and the scheduler (not replaying) never resumes a Blocked thread *)
Lemma blocked_not_scheduled e e' b t nx :
  fst (schedule e) = MOk e' -> is_traversed (e_path e) = true ->
  nth_error (e_threads e) b = Some t -> is_blocked t = true ->
  e_active e' = Some nx -> nx <> b.
Proof.
  intros Hs Htr Ht Hb Ha ->.
  destruct (schedule_picks_runnable e e' b Hs Ha Htr) as (th & Hth & Hr).
  assert (th = t) by congruence. subst th.
  unfold is_blocked, is_runnable, is_yield in *. destruct (t_state t); discriminate.
Qed.

Theorem unnotified_waiter_not_resumed : forall e b n act e',
  exec_micro e b (MBranch n act BAlways) = MOk e' ->
  is_traversed (e_path e) = true -> b < length (e_threads e) ->
  e_active e' <> Some b /\
  exists t', get_thread e' b = Some t' /\ t_state t' = Blocked.
Proof.
  intros e b n act e' Hx Htr Hb. rewrite branch_always_blocks in Hx.
  destruct (get_thread_lt_some e b Hb) as (t & Ht).
  set (e0 := upd_thread e b (fun t => set_blocked (th_set_op t (Some (mkOp n act))))) in *.
  assert (Ht0 : nth_error (e_threads e0) b = Some (set_blocked (th_set_op t (Some (mkOp n act))))).
  { change (get_thread e0 b = Some (set_blocked (th_set_op t (Some (mkOp n act))))).
    unfold e0. rewrite get_thread_upd_thread_same, Ht. reflexivity. }
  split.
  - intros Ha. exact (blocked_not_scheduled e0 e' b _ b Hx Htr Ht0 eq_refl Ha eq_refl).
  - destruct (schedule_keeps_state e0 e' b _ Hx Ht0 eq_refl) as (t' & Ht' & Hst).
    exists t'. split; [exact Ht'|]. rewrite Hst. reflexivity.
Qed.

(* the spurious return happens at most once per Notify: it sets did_spur,
   did_spur stays set (did_spur_persists, any_steps_did_spur_persists), and
   with did_spur set MNotifyWait1 is deterministic and not spurious *)
Theorem spurious_sets_did_spur : forall e b n s p,
  get_notify e n = Some s -> nt_spurious s && negb (nt_did_spur s) = true ->
  branch_spurious (e_path e) = POk (p, true) ->
  exists e3 s3, exec_micro e b (MNotifyWait1 n) = MOk e3 /\
    get_notify e3 n = Some s3 /\ nt_did_spur s3 = true /\
    nt_notified s3 = nt_notified s /\ nt_sync s3 = nt_sync s.
Proof.
  intros e b n s p Hg Hm Hb. rewrite (exec_micro_notify_wait1 e b n s Hg), Hm, Hb.
  eexists. eexists. split; [reflexivity|]. split.
  - unfold push_cont. rewrite (get_notify_objects_eq _ _ n (e_objects_upd_thread _ _ _)).
    eapply get_notify_upd_const. apply get_notify_nth. exact Hg.
  - repeat split; reflexivity.
Qed.

Theorem did_spur_no_spurious : forall e b n s,
  get_notify e n = Some s -> nt_did_spur s = true ->
  exec_micro e b (MNotifyWait1 n) = MOk (push_cont e b (wait1_cont n s)).
Proof.
  intros e b n s Hg Hd. rewrite (exec_micro_notify_wait1 e b n s Hg), Hd, andb_false_r. reflexivity.
Qed.

Theorem spurious_at_most_once : forall e b n s p e3 e4 b',
  track_ok e -> get_notify e n = Some s ->
  nt_spurious s && negb (nt_did_spur s) = true -> branch_spurious (e_path e) = POk (p, true) ->
  exec_micro e b (MNotifyWait1 n) = MOk e3 -> any_steps e3 e4 ->
  exists s4, get_notify e4 n = Some s4 /\ nt_did_spur s4 = true /\
    exec_micro e4 b' (MNotifyWait1 n) = MOk (push_cont e4 b' (wait1_cont n s4)).
Proof.
  intros e b n s p e3 e4 b' Htr Hg Hm Hb Hx Hs.
  destruct (spurious_sets_did_spur e b n s p Hg Hm Hb) as (e3' & s3 & Hx' & Hg3 & Hd3 & _).
  assert (e3' = e3) by congruence. subst e3'.
  pose proof (exec_micro_track_ok _ _ _ _ Htr Hx) as Htr3.
  destruct (any_steps_did_spur_persists n e3 e4 s3 Htr3 Hs Hg3) as (s4 & Hg4 & Hd4 & _).
  exists s4. split; [exact Hg4|]. split; [auto|]. apply did_spur_no_spurious; auto.
Qed.

(* ================================================================== *)
(* 7. A waiter blocked on Notify n is woken by MNotifyPost n only      *)
(* ================================================================== *)

Lemma e_threads_log_poll e me : e_threads (log_poll e me) = e_threads e.
Proof. unfold log_poll. destruct (get_thread e me); reflexivity. Qed.

(* thread b exists and satisfies Q: what the updates of the thread list make of
   it (ParkFacts.tinv is the same predicate) *)
Section ThreadAt.
Variable b : nat.
Variable Q : thread -> Prop.

Definition thr_at (e : exec) : Prop := exists t, nth_error (e_threads e) b = Some t /\ Q t.
Definition qpres (f : thread -> thread) : Prop := forall t, Q t -> Q (f t).

Lemma thr_at_set_threads_k e ths :
  (forall t, nth_error (e_threads e) b = Some t -> Q t ->
     exists t', nth_error ths b = Some t' /\ Q t') ->
  thr_at e -> thr_at (ex_set_threads e ths).
Proof. intros H (t & Ht & Hq). destruct (H t Ht Hq) as (t' & Ht' & Hq'). exists t'. auto. Qed.

Lemma thr_at_same_k e e' : e_threads e' = e_threads e -> thr_at e -> thr_at e'.
Proof. intros Ht H. unfold thr_at. rewrite Ht. exact H. Qed.

Lemma thr_at_upd_thread_k e i f : i <> b \/ qpres f -> thr_at e -> thr_at (upd_thread e i f).
Proof.
  intros Hf. apply thr_at_set_threads_k. intros t Ht Hq.
  destruct (Nat.eq_dec i b) as [->|Hne].
  - destruct Hf as [Hf|Hf]; [destruct (Hf eq_refl)|].
    rewrite nth_error_list_upd_same, Ht. cbn [option_map]. eauto.
  - rewrite nth_error_list_upd_other by exact Hne. eauto.
Qed.

Lemma thr_at_map_others_k e me p f :
  (forall t, Q t -> p t = true -> Q (f t)) -> thr_at e -> thr_at (map_others e me p f).
Proof.
  intros Hf. apply thr_at_set_threads_k. intros t Ht Hq.
  rewrite nth_error_mapi, Ht. cbn [option_map]. eexists; split; [reflexivity|].
  destruct (negb (Nat.eqb b me)); cbn [andb]; [|exact Hq].
  destruct (p t) eqn:Hp; [apply Hf; assumption|exact Hq].
Qed.

Lemma thr_at_append_threads_k e l : thr_at e -> thr_at (ex_set_threads e (e_threads e ++ l)).
Proof.
  apply thr_at_set_threads_k. intros t Ht Hq. exists t. split; [|exact Hq].
  rewrite nth_error_app1; [exact Ht|]. apply nth_error_Some. congruence.
Qed.

Lemma thr_at_log_op_k e me r : thr_at e -> thr_at (log_op e me r).
Proof. apply thr_at_same_k, e_threads_log_op. Qed.

Lemma thr_at_log_poll_k e me : thr_at e -> thr_at (log_poll e me).
Proof. apply thr_at_same_k, e_threads_log_poll. Qed.

Lemma schedule_thr_at e :
  (forall v, qpres (fun t => th_set_dpor t v)) ->
  (forall t, Q t -> is_yield t = true -> Q (set_runnable t)) ->
  thr_at e -> thr_at (res_exec (fst (schedule e))).
Proof.
  intros Hdpor Hreact (t & Ht & Hq). destruct (schedule_shape e) as ([_ Hth] & _).
  destruct (Hth b t Ht) as (t' & Ht' & t1 & Hd & Hy). exists t'. split; [exact Ht'|].
  assert (Hq1 : Q t1) by (destruct Hd as [->|[d ->]]; [exact Hq|apply Hdpor, Hq]).
  destruct Hy as [->|[Hy ->]]; [exact Hq1|apply Hreact; assumption].
Qed.

End ThreadAt.

Section Blocked.
Variables b n : nat.

(* thread t is blocked with a pending operation on object n *)
Definition waiting (t : thread) : Prop := t_state t = Blocked /\ pending_on n t = true.

(* n is a Notify and thread b is blocked on it *)
Definition bw (e : exec) : Prop :=
  (exists s, get_notify e n = Some s) /\ thr_at b waiting e.

(* thread updates that keep a waiting thread waiting *)
Definition wpres : (thread -> thread) -> Prop := qpres waiting.

Lemma bw_nkeep e e' : nkeep true n e e' ->
  (exists s, get_notify e n = Some s) -> exists s', get_notify e' n = Some s'.
Proof. intros Hk (s & Hs). destruct (nkeep_get _ _ _ _ _ Hk Hs) as (s' & Hs' & _). eauto. Qed.

Lemma bw_threads_k e ths :
  (thr_at b waiting e -> thr_at b waiting (ex_set_threads e ths)) ->
  bw e -> bw (ex_set_threads e ths).
Proof. intros H [Hn Hw]. split; [exact Hn|exact (H Hw)]. Qed.

Lemma bw_objects_k e e' : nkeep true n e e' -> e_threads e' = e_threads e -> bw e -> bw e'.
Proof. intros Hk Ht (Hn & Hw). split; [exact (bw_nkeep _ _ Hk Hn)|exact (thr_at_same_k b waiting e e' Ht Hw)]. Qed.

Lemma bw_same_k e e' :
  e_objects e' = e_objects e -> e_threads e' = e_threads e -> bw e -> bw e'.
Proof. intros Ho. apply bw_objects_k. apply slot_same; [apply okeep_ok|exact Ho]. Qed.

Lemma bw_upd_thread_k e i f : i <> b \/ wpres f -> bw e -> bw (upd_thread e i f).
Proof. intros Hf. apply bw_threads_k, thr_at_upd_thread_k, Hf. Qed.

Lemma bw_map_others_k e me p f : wpres f -> bw e -> bw (map_others e me p f).
Proof. intros Hf. apply bw_threads_k, thr_at_map_others_k. intros t Hw _. apply Hf, Hw. Qed.

(* a wake-up aimed at the threads pending on another object *)
Lemma bw_map_others_other_k e me m f : m <> n -> bw e -> bw (map_others e me (pending_on m) f).
Proof.
  intros Hne. apply bw_threads_k, thr_at_map_others_k. intros t [_ Hn] Hm.
  unfold pending_on in *. destruct (t_op t) as [op|]; [|discriminate Hn].
  apply Nat.eqb_eq in Hn, Hm. congruence.
Qed.

Lemma bw_append_threads_k e l : bw e -> bw (ex_set_threads e (e_threads e ++ l)).
Proof. apply bw_threads_k, thr_at_append_threads_k. Qed.

Lemma bw_upd_object_k e i o' :
  (forall o, nth_error (e_objects e) i = Some o -> okeep true o o') ->
  bw e -> bw (upd_object e i (fun _ => o')).
Proof.
  intros Hf. apply bw_objects_k; [|reflexivity]. apply slot_upd_object; [apply okeep_ok|exact Hf].
Qed.

Lemma bw_append_objects_k e l : bw e -> bw (ex_set_objects e (e_objects e ++ l)).
Proof.
  apply bw_objects_k; [|reflexivity].
  apply (slot_append_k (okeep_ok true)), (slot_refl (okeep_ok true)).
Qed.

(* object m is not the Notify n *)
Lemma bw_neq e m o : bw e -> nth_error (e_objects e) m = Some o ->
  (forall s, o <> ONotify s) -> m <> n.
Proof.
  intros ((s & Hs) & _) Hm Hno ->. apply get_notify_nth in Hs. rewrite Hs in Hm.
  injection Hm as <-. exact (Hno s eq_refl).
Qed.

Lemma wpres_set_blocked : wpres set_blocked.
Proof. intros t [Hs Hp]. split; [reflexivity|exact Hp]. Qed.

Lemma wpres_set_unparked : wpres set_unparked.
Proof.
  intros t [Hs Hp]. unfold set_unparked.
  assert (Hpk : is_parked t = false).
  { unfold is_parked. unfold pending_on in Hp. destruct (t_op t); [apply andb_false_r|discriminate]. }
  rewrite Hpk. unfold is_terminated. rewrite Hs. split; [exact Hs|exact Hp].
Qed.

Lemma wpres_thread_unpark c : wpres (fun t => thread_unpark t c).
Proof. intros t Hw. unfold thread_unpark. apply wpres_set_unparked. exact Hw. Qed.

Lemma bw_threads_unpark_k e me id : bw e -> bw (threads_unpark e me id).
Proof.
  intros H. unfold threads_unpark. destruct (Nat.eqb id me).
  - apply bw_upd_thread_k; [right; apply wpres_set_unparked|exact H].
  - apply bw_upd_thread_k; [right; apply wpres_thread_unpark|exact H].
Qed.

Lemma bw_fold_unpark_k me l : forall e,
  bw e -> bw (fold_left (fun e t => threads_unpark e me t) l e).
Proof.
  induction l as [|x l IH]; intros e H; cbn [fold_left]; [exact H|].
  apply IH, bw_threads_unpark_k, H.
Qed.

Lemma bw_log_op_k e me r : bw e -> bw (log_op e me r).
Proof. apply bw_same_k; [apply e_objects_log_op|apply e_threads_log_op]. Qed.

Lemma bw_log_poll_k e me : bw e -> bw (log_poll e me).
Proof. apply bw_same_k; [apply e_objects_log_poll|apply e_threads_log_poll]. Qed.

Lemma schedule_bw e : bw e -> bw (res_exec (fst (schedule e))).
Proof.
  intros (Hn & Hw). split.
  - exact (bw_nkeep _ _ (schedule_slot_k (okeep_ok true) n e e (slot_refl (okeep_ok true) n e)) Hn).
  - apply schedule_thr_at; [intros v t Ht; exact Ht| |exact Hw].
    intros t [Hs _] Hy. unfold is_yield in Hy. rewrite Hs in Hy. discriminate Hy.
Qed.

Ltac not_notify := let s := fresh in let H := fresh in intros s H; discriminate H.

Lemma okeep_const_kind w o o' :
  (forall s, o <> ONotify s) -> okeep w o o'.
Proof. intros H. destruct o; cbn [okeep]; auto. destruct (H s eq_refl). Qed.

Lemma bw_upd_object_kind_k e i o o' :
  nth_error (e_objects e) i = Some o -> (forall s, o <> ONotify s) ->
  bw e -> bw (upd_object e i (fun _ => o')).
Proof.
  intros Hi Hno. apply bw_upd_object_k. intros o1 Ho1. rewrite Hi in Ho1. injection Ho1 as <-.
  apply okeep_const_kind, Hno.
Qed.

Lemma release_lock_bw e me m : bw e -> bw (release_lock e me m).
Proof.
  intros H. unfold release_lock. destruct (get_mutex e m) as [s|] eqn:Hg; [|exact H].
  apply get_mutex_nth in Hg. cbv zeta.
  assert (Hne : m <> n) by (eapply bw_neq; [exact H|exact Hg|not_notify]).
  match goal with |- bw (match e_active ?E with _ => _ end) => assert (H1 : bw E) end.
  { eapply bw_upd_object_kind_k; [exact Hg|not_notify|exact H]. }
  destruct (e_active _); [|exact H1].
  apply bw_map_others_other_k; [exact Hne|].
  eapply bw_upd_object_kind_k;
    [rewrite nth_error_objects_upd_same, Hg; reflexivity|not_notify|exact H1].
Qed.

Lemma bw_set_caus_k e me v : me <> b -> bw e -> bw (set_caus e me v).
Proof. intros Hmb. apply bw_upd_thread_k. left. exact Hmb. Qed.

Lemma post_acquire_bw e me m : me <> b -> bw e -> bw (fst (post_acquire e me m)).
Proof.
  intros Hmb H. unfold post_acquire. destruct (get_mutex e m) as [s|] eqn:Hg; [|exact H].
  apply get_mutex_nth in Hg. destruct (is_some (mx_lock s)); cbn [fst]; [exact H|].
  apply bw_map_others_k; [apply wpres_set_blocked|]. apply bw_set_caus_k; [exact Hmb|].
  eapply bw_upd_object_kind_k; [exact Hg|not_notify|exact H].
Qed.

Lemma post_acquire_read_bw e me r : me <> b -> bw e -> bw (fst (post_acquire_read e me r)).
Proof.
  intros Hmb H. unfold post_acquire_read. destruct (get_rw e r) as [s|] eqn:Hg; [|exact H].
  apply get_rw_nth in Hg.
  destruct (rw_lock s) as [[rs|x]|]; cbn [fst]; try exact H.
  all: apply bw_map_others_k; [apply wpres_set_blocked|]; apply bw_set_caus_k; [exact Hmb|];
    eapply bw_upd_object_kind_k; [exact Hg|not_notify|exact H].
Qed.

Lemma post_acquire_write_bw e me r : me <> b -> bw e -> bw (fst (post_acquire_write e me r)).
Proof.
  intros Hmb H. unfold post_acquire_write. destruct (get_rw e r) as [s|] eqn:Hg; [|exact H].
  apply get_rw_nth in Hg.
  destruct (rw_lock s) as [lk|]; cbn [fst]; try exact H.
  apply bw_map_others_k; [apply wpres_set_blocked|]; apply bw_set_caus_k; [exact Hmb|];
    eapply bw_upd_object_kind_k; [exact Hg|not_notify|exact H].
Qed.

Lemma release_read_bw e me r : bw e -> bw (res_exec (release_read e me r)).
Proof.
  intros H. unfold release_read. destruct (get_rw e r) as [s|] eqn:Hg; [|exact H].
  apply get_rw_nth in Hg. cbv zeta.
  assert (Hne : r <> n) by (eapply bw_neq; [exact H|exact Hg|not_notify]).
  destruct (rw_lock s) as [[rs|x]|]; cbn [res_exec]; try exact H.
  destruct (set_remove me rs); cbn [res_exec].
  - apply bw_map_others_other_k; [exact Hne|].
    eapply bw_upd_object_kind_k; [exact Hg|not_notify|exact H].
  - eapply bw_upd_object_kind_k; [exact Hg|not_notify|exact H].
Qed.

Lemma release_write_bw e me r : bw e -> bw (res_exec (release_write e me r)).
Proof.
  intros H. unfold release_write. destruct (get_rw e r) as [s|] eqn:Hg; [|exact H].
  apply get_rw_nth in Hg. cbn [res_exec].
  assert (Hne : r <> n) by (eapply bw_neq; [exact H|exact Hg|not_notify]).
  apply bw_map_others_other_k; [exact Hne|].
  eapply bw_upd_object_kind_k; [exact Hg|not_notify|exact H].
Qed.

Lemma choose_store_bw e seed : bw e -> bw (fst (choose_store e seed)).
Proof. destruct (choose_store_frame e seed) as (H1 & H2 & _). apply bw_same_k; assumption. Qed.


Ltac bclose_step :=
  match goal with
  | H : bw ?x |- bw ?x => exact H
  | H : bw _ -> bw ?x |- bw ?x => apply H
  | |- bw (log_op _ _ _) => apply bw_log_op_k
  | |- bw (log_poll _ _) => apply bw_log_poll_k
  | |- bw (release_lock _ _ _) => apply release_lock_bw
  | |- bw (threads_unpark _ _ _) => apply bw_threads_unpark_k
  | |- bw (fold_left _ _ _) => apply bw_fold_unpark_k
  | |- bw (map_others _ _ _ set_blocked) => apply bw_map_others_k; [apply wpres_set_blocked|]
  | Hne : ?m <> n |- bw (map_others _ _ (pending_on ?m) _) =>
      apply bw_map_others_other_k; [exact Hne|]
  | |- bw (ex_set_objects ?e (e_objects ?e ++ _)) => apply bw_append_objects_k
  | |- bw (ex_set_threads ?e (e_threads ?e ++ _)) => apply bw_append_threads_k
  | |- bw (upd_object _ _ _) => apply bw_upd_object_k; [nside_obj|]
  | |- bw ?x => let e := under_thread_update x in apply (bw_upd_thread_k e); [left; assumption|]
  | |- bw ?x =>
      let e := match x with _ => under_setter x | _ => under_h_setter x end in
      apply (bw_same_k e); [reflexivity..|]
  end.

Ltac bclose :=
  cbn [res_exec lp_exec];
  rewrite ?upd_object_map_others_upd_object_const, ?upd_object_upd_object_const;
  repeat bclose_step.

Ltac bw_sched := apply schedule_bw.

Ltac bw_frame0 Hmb H t :=
  lazymatch t with
  | post_acquire ?e ?me ?m => pose proof (post_acquire_bw e me m Hmb) as H
  | post_acquire_read ?e ?me ?m => pose proof (post_acquire_read_bw e me m Hmb) as H
  | post_acquire_write ?e ?me ?m => pose proof (post_acquire_write_bw e me m Hmb) as H
  | release_read ?e ?me ?m => pose proof (release_read_bw e me m) as H
  | release_write ?e ?me ?m => pose proof (release_write_bw e me m) as H
  | choose_store ?e ?s => pose proof (choose_store_bw e s) as H
  end.

Lemma load_post_bw e me a o : me <> b -> bw e -> bw (lp_exec (load_post e me a o)).
Proof.
  intros Hmb H0. unfold load_post.
  repeat walk_step bw_sched ltac:(fun H t => bw_frame0 Hmb H t). all: bclose.
Qed.

Ltac bw_frame Hmb H t :=
  lazymatch t with
  | load_post ?e ?me ?a ?o => pose proof (load_post_bw e me a o Hmb) as H
  | _ => bw_frame0 Hmb H t
  end.

Ltac bw_tac Hmb :=
  cbn [exec_micro]; unfold lift_path, mbind; cbv beta iota;
  repeat walk_step bw_sched ltac:(fun H t => bw_frame Hmb H t); bclose.

(* every micro-operation executed by another thread, except the wake on n
   itself, leaves thread b blocked on Notify n (and n a Notify) *)
Lemma exec_micro_bw e me m :
  track_ok e -> me <> b -> m <> MNotifyPost n -> bw e -> bw (res_exec (exec_micro e me m)).
Proof.
  intros Htr Hmb Hm H0.
  destruct m;
    try match goal with
        | |- bw (res_exec (exec_micro _ _ (MNotifyPost _))) => idtac
        | |- bw (res_exec (exec_micro _ _ (MSendPost _ _))) => idtac
        | |- bw (res_exec (exec_micro _ _ (MTrackDrop _))) => idtac
        | |- _ => clear Htr Hm; bw_tac Hmb
        end.
  - (* MNotifyPost n0, n0 <> n: it wakes the threads pending on n0 *)
    assert (Hne : n0 <> n) by (intros ->; apply Hm; reflexivity). bw_tac Hmb.
  - (* MSendPost: it wakes the threads pending on the channel, which is not n *)
    destruct (get_chan e h) as [s|] eqn:Hg; [|cbn [exec_micro]; rewrite Hg; exact H0].
    assert (Hne : h <> n) by (eapply bw_neq; [exact H0|apply get_chan_nth, Hg|not_notify]).
    bw_tac Hmb.
  - (* MTrackDrop *)
    cbn [exec_micro]. destruct (ho_track (get_h e k)) eqn:Hk; cbn [res_exec];
      apply bw_log_op_k; [|exact H0].
    apply (bw_objects_k e); [|reflexivity|exact H0].
    apply (slot_track_drop_k (okeep_ok true)); [exact Htr|exact Hk|apply (slot_refl (okeep_ok true))].
Qed.

End Blocked.

(* the requested reading: thread b, Blocked with its pending operation on the
   Notify n, stays so under every micro-operation of another thread other
   than the wake MNotifyPost n *)
Theorem blocked_waiter_stays : forall b n e me m e' s t,
  track_ok e -> get_notify e n = Some s ->
  get_thread e b = Some t -> t_state t = Blocked -> pending_on n t = true ->
  me <> b -> m <> MNotifyPost n -> exec_micro e me m = MOk e' ->
  exists t', get_thread e' b = Some t' /\ t_state t' = Blocked /\ pending_on n t' = true.
Proof.
  intros b n e me m e' s t Htr Hg Ht Hs Hp Hmb Hm Hx.
  assert (H0 : bw b n e) by (split; [eauto|exists t; split; [exact Ht|split; assumption]]).
  pose proof (exec_micro_bw b n e me m Htr Hmb Hm H0) as H1. rewrite Hx in H1.
  destruct H1 as (_ & t' & Ht' & Hs' & Hp'). exists t'. auto.
Qed.

(* sequences: other threads execute anything but the wake on n; continuations
   (of any thread) are popped *)
Inductive steps_without_post (b n : nat) : exec -> exec -> Prop :=
  | swp_refl e : steps_without_post b n e e
  | swp_micro e me m e1 e2 :
      me <> b -> m <> MNotifyPost n -> exec_micro e me m = MOk e1 ->
      steps_without_post b n e1 e2 -> steps_without_post b n e e2
  | swp_pop e me rest e2 :
      steps_without_post b n (upd_thread e me (fun t => th_set_cont t rest)) e2 ->
      steps_without_post b n e e2.

Theorem blocked_until_post : forall b n e e',
  track_ok e -> bw b n e -> steps_without_post b n e e' -> bw b n e' /\ track_ok e'.
Proof.
  intros b n e e' Htr H0 Hs. induction Hs as [e|e me m e1 e2 Hmb Hm Hx Hs IH|e me rest e2 Hs IH].
  - auto.
  - apply IH; [eapply exec_micro_track_ok; eassumption|].
    pose proof (exec_micro_bw b n e me m Htr Hmb Hm H0) as H1. rewrite Hx in H1. exact H1.
  - apply IH; [apply track_ok_pop, Htr|].
    apply bw_upd_thread_k; [|exact H0]. right. intros t Hw. exact Hw.
Qed.

(* the blocking branch of an un-notified wait establishes that situation *)
Theorem branch_always_waiting : forall b n e act e' s,
  get_notify e n = Some s -> b < length (e_threads e) ->
  exec_micro e b (MBranch n act BAlways) = MOk e' -> bw b n e'.
Proof.
  intros b n e act e' s Hg Hb Hx. rewrite branch_always_blocks in Hx.
  destruct (get_thread_lt_some e b Hb) as (t & Ht).
  match type of Hx with fst (schedule ?E) = _ => assert (H0 : bw b n E) end.
  { split; [exists s; exact Hg|].
    exists (set_blocked (th_set_op t (Some (mkOp n act)))). split.
    - change (get_thread (upd_thread e b (fun t => set_blocked (th_set_op t (Some (mkOp n act))))) b =
              Some (set_blocked (th_set_op t (Some (mkOp n act))))).
      rewrite get_thread_upd_thread_same, Ht. reflexivity.
    - split; [reflexivity|]. unfold pending_on. cbn [t_op set_blocked th_set_state th_set_op op_obj].
      apply Nat.eqb_refl. }
  pose proof (schedule_bw b n _ H0) as H1. rewrite Hx in H1. exact H1.
Qed.

(* hence: a waiter that entered Notify::wait with the flag clear and did not
   return spuriously stays blocked until some thread executes MNotifyPost n *)
Corollary unnotified_waiter_blocked_until_post : forall b n e e1 e2 s,
  track_ok e -> get_notify e n = Some s -> b < length (e_threads e) ->
  exec_micro e b (MBranch n AOpaque BAlways) = MOk e1 ->
  steps_without_post b n e1 e2 ->
  exists t2, get_thread e2 b = Some t2 /\ t_state t2 = Blocked /\ pending_on n t2 = true.
Proof.
  intros b n e e1 e2 s Htr Hg Hb Hx Hs.
  pose proof (branch_always_waiting b n e AOpaque e1 s Hg Hb Hx) as H1.
  pose proof (exec_micro_track_ok _ _ _ _ Htr Hx) as Htr1.
  destruct (blocked_until_post b n e1 e2 Htr1 H1 Hs) as ((_ & t2 & Ht2 & Hs2 & Hp2) & _).
  exists t2. auto.
Qed.

Print Assumptions exec_micro_nkeep.
Print Assumptions notified_persists.
Print Assumptions notified_persists_fail.
Print Assumptions did_spur_persists.
Print Assumptions notified_persists_needs_track_ok.
Print Assumptions sw2_notified_persists.
Print Assumptions any_steps_did_spur_persists.
Print Assumptions steps_nw2_sw2.
Print Assumptions exec_micro_notify_wait1.
Print Assumptions wake_flag_set.
Print Assumptions wake_wait1_not_blocking.
Print Assumptions wake_wait2_succeeds.
Print Assumptions no_lost_wakeup.
Print Assumptions wait1_unnotified_blocks.
Print Assumptions unnotified_waiter_not_resumed.
Print Assumptions spurious_at_most_once.
Print Assumptions exec_micro_bw.
Print Assumptions blocked_waiter_stays.
Print Assumptions blocked_until_post.
Print Assumptions branch_always_waiting.
Print Assumptions unnotified_waiter_blocked_until_post.

(* DEVIATIONS from the requested statements

   N1  notified_persists (A.1) has the extra hypothesis [track_ok e]
       (SyncMono): MTrackDrop k overwrites slot k of the object store whenever
       the harness flag of slot k is set, without looking at the runtime
       object.  Without it the statement is false
       (notified_persists_needs_track_ok); track_ok holds along every run
       (SyncMono.init_exec_track_ok, exec_micro_track_ok, steps_track_ok).
       It is the only micro-operation that needs it.  The lemma behind it,
       exec_micro_nkeep, is proved for res_exec (notified_persists_fail: the
       state carried by a panic keeps the flag as well).
   N2  steps_without_wait2 n (A.2) is the closure of "ANY thread executes ANY
       micro-operation other than MNotifyWait2 n" and of "the continuation of
       a thread is popped" (Check.run pops and executes in one go): it is
       larger than the restriction of SyncMono.steps (steps_nw2,
       steps_nw2_sw2), so the theorems are stronger than requested and apply
       directly to the popped states.
   N3  A.3: exec_micro_notify_wait1 states exactly what MNotifyWait1 gives.
       After a wake (wake_wait1_not_blocking) the outcomes are: the
       continuation [MBranch n AOpaque BNever; MNotifyWait2 n] pushed on e2
       itself (Notify without spurious wake-ups, or did_spur already set); the
       same on e2 with the path advanced (branch_spurious answered false); the
       spurious return (branch_spurious answered true: did_spur is set, the
       flag is KEPT, [MYield] is pushed: the notification is not lost, the
       next wait finds it); or MFail e2 (PanicPath x) when branch_spurious
       itself panics (branch limit / nondeterminism).  MBranch _ _ BNever does
       not touch the thread state (branch_never_keeps_state).
       wake_wait2_succeeds: MNotifyWait2 n succeeds in every state reached
       from the wake by steps_without_wait2 n; the clock statement
       vle (caus_of e a) (caus_of e5 b) needs b < length (e_threads e4)
       (set_caus is the identity out of range, SyncFacts D-d); no_lost_wakeup
       is the requested scenario e -> e1 ->* e2 -wait1-> e3 ->* e4.
   N4  A.4: wait1_unnotified_blocks (flag clear: BAlways pushed, or the one
       spurious return), branch_always_blocks + unnotified_waiter_not_resumed
       (the thread is Blocked and, when the path is traversed, the scheduler
       does not pick it), spurious_sets_did_spur, did_spur_persists /
       any_steps_did_spur_persists (under EVERY micro-operation, MNotifyWait2
       included), did_spur_no_spurious, spurious_at_most_once.
       Section 7 adds the remaining half of "a waiter proceeds only via a
       notification": a thread Blocked with its pending operation on the
       Notify n stays so under every micro-operation of ANOTHER thread other
       than MNotifyPost n (blocked_waiter_stays; sequences:
       blocked_until_post; from the blocking branch:
       unnotified_waiter_blocked_until_post).  The other set_runnable sites
       are guarded by pending_on m for a mutex / rwlock / channel m (m <> n
       because n is a Notify), unpark only wakes parked threads (t_op = None)
       and the scheduler only resets Yielded threads.  Hypotheses: track_ok
       (MTrackDrop, as in N1) and me <> b (the blocked thread itself executes
       nothing: unnotified_waiter_not_resumed). *)
