(* C03 -- Every explored execution is consistent with the C11 memory model. D4 (RMW atomicity) was a genuine defect, repaired by fix commit 189e88b; proved: loom transfers at least the clocks C11 demands; the D4 litmus outcome is forbidden by RC11 and no longer explored.
   Statements restated in full, closed with exact, assumptions printed. *)
Require Import LV.Base LV.VV LV.VVFacts LV.Path LV.Prog LV.Objects LV.Exec LV.Atomic LV.Ops LV.Check LV.Ref LV.Outcome LV.RC11 LV.Witness LV.SyncFacts.

(* D4 (repaired): the outcome forbidden by RC11 (even with SeqCst demoted and C++20 release sequences) is no longer explored by the model of the repaired code *)
Theorem C03_D4_repaired_rmw_atomicity :
  rc11_allows false true (fun _ : nat => 0%N) litmus_D4 (S (rc11_enough_fuel litmus_D4))
         [[0%N; 2%N]; [0%N; 2%N]] = false /\
       rc11_allows true false (fun _ : nat => 0%N) litmus_D4 (S (rc11_enough_fuel litmus_D4))
         [[0%N; 2%N]; [0%N; 2%N]] = false /\
       fin_of p_D4 = RunOk /\ mem_outcome o_D4 (explored p_D4 (recs_of p_D4)) = false.
Proof. exact D4_repaired. Qed.
Print Assumptions C03_D4_repaired_rmw_atomicity.

(* a release store read by an acquire load makes everything before the store happen-before everything after the load *)
Theorem C03_release_acquire_handover :
  forall (s : atomic_state) (me : nat) (caus rel sync0 : vv) (v : N) 
         (o : ord) (s2 : atomic_state) (me2 : nat) (caus2 : vv) (o2 : ord) 
         (s3 : atomic_state) (caus3 : vv) (v3 : N),
       Atomic.ord_rel o = true ->
       length (at_stores s) = MAX_ATOMIC_HISTORY ->
       let idx := aindex (at_cnt s) in
       vle (st_sync (get_store (atomic_store s me caus rel sync0 v o) idx))
         (st_sync (get_store s2 idx)) ->
       atomic_load s2 me2 caus2 idx o2 = inl (s3, caus3, v3) ->
       Atomic.ord_acq o2 = true -> vle caus caus3.
Proof. exact atomic_handover. Qed.
Print Assumptions C03_release_acquire_handover.

(* an acquire load joins the view published by the store it reads and returns that store's value *)
Theorem C03_acquire_load_acquires :
  forall (s : atomic_state) (me : nat) (caus : vv) (idx : nat) (o : ord) 
         (s' : atomic_state) (caus' : vv) (v : N),
       atomic_load s me caus idx o = inl (s', caus', v) ->
       Atomic.ord_acq o = true ->
       vle (st_sync (get_store s idx)) caus' /\ vle caus caus' /\ v = st_value (get_store s idx).
Proof. exact atomic_load_acquires. Qed.
Print Assumptions C03_acquire_load_acquires.

(* a release store publishes the storing thread's clock *)
Theorem C03_release_store_publishes :
  forall (s : atomic_state) (me : nat) (caus rel sync0 : vv) (v : N) (o : ord),
       Atomic.ord_rel o = true ->
       length (at_stores s) = MAX_ATOMIC_HISTORY ->
       let s' := atomic_store s me caus rel sync0 v o in
       vle caus (st_sync (get_store s' (aindex (at_cnt s)))) /\
       st_value (get_store s' (aindex (at_cnt s))) = v /\ at_cnt s' = S (at_cnt s).
Proof. exact atomic_store_publishes. Qed.
Print Assumptions C03_release_store_publishes.

(* an RMW continues the release sequence of the store it reads from: its own view dominates that store's view *)
Theorem C03_rmw_release_sequence :
  forall (s : atomic_state) (me : nat) (caus rel : vv) (idx : nat) 
         (so fo : ord) (f : N -> option N) (s' : atomic_state) (caus' : vv) 
         (prev : N),
       atomic_rmw s me caus rel idx so fo f = inl (s', caus', prev, true) ->
       length (at_stores s) = MAX_ATOMIC_HISTORY ->
       let new := get_store s' (aindex (at_cnt s)) in
       vle (st_sync (get_store s idx)) (st_sync new) /\
       vle rel (st_sync new) /\
       (Atomic.ord_rel so = true -> vle caus' (st_sync new)) /\
       vle caus caus' /\
       (Atomic.ord_acq so = true -> vle (st_sync (get_store s idx)) caus') /\
       (Atomic.ord_acq so = false -> caus' = caus) /\
       prev = st_value (get_store s idx) /\
       f prev = Some (st_value new) /\ at_cnt s' = S (at_cnt s).
Proof. exact atomic_rmw_release_sequence. Qed.
Print Assumptions C03_rmw_release_sequence.

(* join is the least upper bound of the clock order *)
Theorem C03_vle_join_lub :
  forall a b c : vv, vle a c -> vle b c -> vle (vv_join a b) c.
Proof. exact vle_join_lub. Qed.
Print Assumptions C03_vle_join_lub.

(* ==== appended by tools/mkprops.py (APPEND table) ==== *)

Require Import LV.Base LV.VV LV.VVFacts LV.Path LV.PathSpec LV.PathTerm LV.PathDistinct LV.PathApi LV.Prog LV.Objects LV.Exec LV.Atomic LV.Ops LV.Check LV.AtomicFacts LV.AtomicCoherence.

(* Exact characterisation of the candidate sets of loads and RMWs, for arbitrary states and any number of threads (AtomicCoherence.v) *)
(* a ring slot is a load candidate iff it is live and no live store that is later in modification order is already seen by the thread / excluded by the yield or SeqCst rule *)
Theorem C03_load_candidates_spec :
  forall (s : atomic_state) (me : nat) (caus : vv) (ly : option nat) (o : ord) (l : list nat),
       match_load_to_stores s me caus ly o = Some l ->
       forall i : nat,
       In i l <->
       i < MAX_ATOMIC_HISTORY /\
       i < at_cnt s /\
       (forall j : nat,
        j < MAX_ATOMIC_HISTORY ->
        j < at_cnt s ->
        j <> i ->
        vv_lt (st_mo (get_store s i)) (st_mo (get_store s j)) = true ->
        is_seen_by_current (st_seen (get_store s j)) caus = false /\
        is_seen_before_yield (st_seen (get_store s i)) me ly = false /\
        is_seq_cst o && st_seqcst (get_store s i) && st_seqcst (get_store s j) = false).
Proof. exact load_candidates_spec. Qed.
Print Assumptions C03_load_candidates_spec.

(* CoWR / CoRR: a thread never reads a store that is mo-before a store it has already observed *)
Theorem C03_coherence_write_read :
  forall (s : atomic_state) (me : nat) (caus : vv) (ly : option nat) 
         (o : ord) (l : list nat) (i j : nat),
       match_load_to_stores s me caus ly o = Some l ->
       j < MAX_ATOMIC_HISTORY ->
       j < at_cnt s ->
       vv_lt (st_mo (get_store s i)) (st_mo (get_store s j)) = true ->
       is_seen_by_current (st_seen (get_store s j)) caus = true -> ~ In i l.
Proof. exact coherence_write_read. Qed.
Print Assumptions C03_coherence_write_read.

(* a SeqCst load never reads a SeqCst store that is mo-before another SeqCst store *)
Theorem C03_coherence_seq_cst :
  forall (s : atomic_state) (me : nat) (caus : vv) (ly : option nat) 
         (l : list nat) (i j : nat),
       match_load_to_stores s me caus ly SeqCst = Some l ->
       j < MAX_ATOMIC_HISTORY ->
       j < at_cnt s ->
       vv_lt (st_mo (get_store s i)) (st_mo (get_store s j)) = true ->
       st_seqcst (get_store s i) = true -> st_seqcst (get_store s j) = true -> ~ In i l.
Proof. exact coherence_seq_cst. Qed.
Print Assumptions C03_coherence_seq_cst.

(* an RMW reads exactly a mo-maximal live store *)
Theorem C03_rmw_candidates_spec :
  forall (s : atomic_state) (l : list nat),
       match_rmw_to_stores s = Some l ->
       forall i : nat,
       In i l <->
       i < MAX_ATOMIC_HISTORY /\
       i < at_cnt s /\
       (forall j : nat,
        j < MAX_ATOMIC_HISTORY ->
        j < at_cnt s -> j <> i -> vv_lt (st_mo (get_store s i)) (st_mo (get_store s j)) = false).
Proof. exact rmw_candidates_spec. Qed.
Print Assumptions C03_rmw_candidates_spec.

(* every RMW candidate is a load candidate *)
Theorem C03_rmw_candidates_are_load_candidates :
  forall (s : atomic_state) (me : nat) (caus : vv) (ly : option nat) 
         (o : ord) (l lr : list nat) (i : nat),
       match_load_to_stores s me caus ly o = Some l ->
       match_rmw_to_stores s = Some lr -> In i lr -> In i l.
Proof. exact rmw_candidates_are_load_candidates. Qed.
Print Assumptions C03_rmw_candidates_are_load_candidates.

(* loom's `left != right` assertion fires only when two distinct live stores have equal modification-order clocks *)
Theorem C03_load_candidates_none :
  forall (s : atomic_state) (me : nat) (caus : vv) (ly : option nat) (o : ord),
       match_load_to_stores s me caus ly o = None ->
       exists i j : nat,
         i < MAX_ATOMIC_HISTORY /\
         i < at_cnt s /\
         j < MAX_ATOMIC_HISTORY /\
         j < at_cnt s /\ i <> j /\ vv_eqb (st_mo (get_store s i)) (st_mo (get_store s j)) = true.
Proof. exact load_candidates_none. Qed.
Print Assumptions C03_load_candidates_none.

(* RMW atomicity (fix 189e88b): at the fixpoint, every RMW store whose source is mo-before the new store is itself mo-before the new store *)
Theorem C03_rmw_atomicity_fixpoint :
  forall (fuel : nat) (stores : list astore) (src : option (nat * nat)) (mo : vv),
       let mo' := rmw_atomicity fuel stores src mo in
       snd (rmw_atomicity_pass stores src mo') = false ->
       forall (x : astore) (slot sid : nat),
       In x stores ->
       st_rmw_src x = Some (slot, sid) ->
       src_eqb (Some (slot, sid)) src = false ->
       st_id (nth slot stores store_default) = sid ->
       vv_le (st_mo (nth slot stores store_default)) mo' = true -> vv_le (st_mo x) mo' = true.
Proof. exact rmw_atomicity_fixpoint. Qed.
Print Assumptions C03_rmw_atomicity_fixpoint.

(* the fixpoint is reached with fuel = ring size *)
Theorem C03_rmw_atomicity_sufficient_fuel :
  forall (fuel : nat) (stores : list astore) (src : option (nat * nat)) (mo : vv),
       length stores <= fuel ->
       snd (rmw_atomicity_pass stores src (rmw_atomicity fuel stores src mo)) = false.
Proof. exact rmw_atomicity_sufficient_fuel. Qed.
Print Assumptions C03_rmw_atomicity_sufficient_fuel.

(* the postcondition of the model's own store: the new store is mo-after the thread's clock, after every store it has seen, and closed under RMW atomicity *)
Theorem C03_atomic_store_from_rmw_atomic :
  forall (s : atomic_state) (me : nat) (caus released sync0 : vv) 
         (value : N) (o : ord) (src : option (nat * nat)),
       length (at_stores s) = MAX_ATOMIC_HISTORY ->
       let s' := atomic_store_from s me caus released sync0 value o src in
       let mo' := st_mo (get_store s' (aindex (at_cnt s))) in
       vle caus mo' /\
       (forall x : astore,
        In x (at_stores s) -> is_seen_by_current (st_seen x) caus = true -> vle (st_mo x) mo') /\
       snd (rmw_atomicity_pass (at_stores s) src mo') = false /\
       (forall (x : astore) (slot sid : nat),
        In x (at_stores s) ->
        st_rmw_src x = Some (slot, sid) ->
        src_eqb (Some (slot, sid)) src = false ->
        st_id (nth slot (at_stores s) store_default) = sid ->
        vv_le (st_mo (nth slot (at_stores s) store_default)) mo' = true ->
        vv_le (st_mo x) mo' = true).
Proof. exact atomic_store_from_rmw_atomic. Qed.
Print Assumptions C03_atomic_store_from_rmw_atomic.


Require Import LV.Base LV.VV LV.VVFacts LV.Path LV.PathSpec LV.PathTerm LV.PathDistinct LV.PathApi LV.Prog LV.Objects LV.Exec LV.Atomic LV.Ops LV.Check LV.AtomicFacts LV.AtomicCoherence LV.AtomicCoRR.

(* COHERENCE OVER SEQUENCES of operations by several threads on one atomic (AtomicCoRR.v), with arbitrary extra happens-before edges between threads. Proved for the machine whose load rule is the one of fix c0421c4 (suffix _c0421c4); the model's current functions add the RMW-atomicity closure of fix 01ecff8 after it: they coincide with that machine on every run without RMWs (theorems below); the closure itself is covered by the next group *)
(* the model's apply_load_coherence is the c0421c4 rule followed by the RMW-atomicity closure *)
Theorem C03_model_alc_eq :
  forall (s : atomic_state) (caus : vv) (index : nat),
       apply_load_coherence s caus index =
       at_set_stores s
         (close_rmw_atomicity (4 * MAX_ATOMIC_HISTORY) (Nat.min (at_cnt s) MAX_ATOMIC_HISTORY)
            (at_stores (alc_c0421c4 s caus index))) (at_cnt s).
Proof. exact model_alc_eq. Qed.
Print Assumptions C03_model_alc_eq.

(* on runs without RMWs the machine built from the model's atomic_load / atomic_store is, step for step, the c0421c4 machine *)
Theorem C03_mrun_model_eq :
  forall (evs : list (nat * aop)) (st : atomic_state * list vv),
       no_src (at_stores (fst st)) -> rmw_free evs -> mrun RModel st evs = mrun RC0421 st evs.
Proof. exact mrun_model_eq. Qed.
Print Assumptions C03_mrun_model_eq.

(* so for the model's own functions on RMW-free runs: the invariant holds and loom's `assert_ne!(mo_i, mo_j)` never fires *)
Theorem C03_model_rmw_free_inv :
  forall st : mstate,
       reach_model_rmw_free st ->
       Inv2 st /\
       (forall (t : nat) (c : vv) (ly : option nat) (o : ord),
        match_load_to_stores (fst st) t c ly o <> None) /\ match_rmw_to_stores (fst st) <> None.
Proof. exact model_rmw_free_inv. Qed.
Print Assumptions C03_model_rmw_free_inv.

(* the invariant (clocks bounded by their owners, every live store keyed by its storing thread's stamp, the key order is exactly vv_lt, no two live stores ordered both ways, first-seen stamps bounded) is preserved by every run *)
Theorem C03_mrun_inv2_c0421c4 :
  forall (evs : list (nat * aop)) (st st' : mstate),
       Inv2 st -> mrun RC0421 st evs = Some st' -> Inv2 st'.
Proof. exact mrun_inv2_c0421c4. Qed.
Print Assumptions C03_mrun_inv2_c0421c4.

(* no two live stores ever have equal modification-order clocks *)
Theorem C03_mlts_never_none_c0421c4 :
  forall st : mstate,
       reach_c0421c4 st ->
       (forall (t : nat) (c : vv) (ly : option nat) (o : ord),
        match_load_to_stores (fst st) t c ly o <> None) /\ match_rmw_to_stores (fst st) <> None.
Proof. exact mlts_never_none_c0421c4. Qed.
Print Assumptions C03_mlts_never_none_c0421c4.

(* THE KEY LEMMA: an edge `a <mo b` between live stores is never lost, whatever any thread does afterwards *)
Theorem C03_run_stable_c0421c4 :
  forall (evs : list (nat * aop)) (st st' : mstate) (a b : nat),
       Inv st ->
       mrun RC0421 st evs = Some st' ->
       lives st a ->
       lives st b -> mo_lt st a b = true -> lives st' a /\ lives st' b /\ mo_lt st' a b = true.
Proof. exact run_stable_c0421c4. Qed.
Print Assumptions C03_run_stable_c0421c4.

(* CoRR / CoWR in happens-before form: once a thread knows a store j (its own store, a store it read, or through any chain of synchronisation), it can never again read a store that was mo-before j *)
Theorem C03_CoRR_CoWR_c0421c4 :
  forall (st1 : mstate) (evs : list (nat * aop)) (st2 : mstate) (t i j : nat) (o : ord),
       Inv st1 ->
       lives st1 i ->
       lives st1 j ->
       knows st1 t j ->
       mo_lt st1 i j = true ->
       mrun RC0421 st1 evs = Some st2 -> mstep RC0421 st2 t (XLoad i o) = None.
Proof. exact CoRR_CoWR_c0421c4. Qed.
Print Assumptions C03_CoRR_CoWR_c0421c4.

(* read-read coherence for one thread with arbitrary steps of arbitrary threads in between *)
Theorem C03_CoRR_same_thread_c0421c4 :
  forall (st0 : mstate) (t j : nat) (o : ord) (st1 : mstate) (evs : list (nat * aop))
         (st2 : mstate) (i : nat) (o' : ord),
       Inv2 st0 ->
       mstep RC0421 st0 t (XLoad j o) = Some st1 ->
       lives st1 i ->
       mo_lt st1 i j = true ->
       mrun RC0421 st1 evs = Some st2 -> mstep RC0421 st2 t (XLoad i o') = None.
Proof. exact CoRR_same_thread_c0421c4. Qed.
Print Assumptions C03_CoRR_same_thread_c0421c4.

(* write-read coherence likewise *)
Theorem C03_CoWR_same_thread_c0421c4 :
  forall (st0 : mstate) (t : nat) (v : N) (o : ord) (st1 : mstate) 
         (evs : list (nat * aop)) (st2 : mstate) (i : nat) (o' : ord),
       Inv st0 ->
       mstep RC0421 st0 t (XStore v o) = Some st1 ->
       lives st1 i ->
       mo_lt st1 i (at_cnt (fst st0)) = true ->
       mrun RC0421 st1 evs = Some st2 -> mstep RC0421 st2 t (XLoad i o') = None.
Proof. exact CoWR_same_thread_c0421c4. Qed.
Print Assumptions C03_CoWR_same_thread_c0421c4.

(* read-write coherence: a later store of the thread is mo-after what it read *)
Theorem C03_CoRW_same_thread_c0421c4 :
  forall (st0 : mstate) (t j : nat) (o : ord) (st1 : mstate) (evs : list (nat * aop))
         (st2 : mstate) (v : N) (o' : ord) (st3 : mstate),
       Inv2 st0 ->
       mstep RC0421 st0 t (XLoad j o) = Some st1 ->
       mrun RC0421 st1 evs = Some st2 ->
       mstep RC0421 st2 t (XStore v o') = Some st3 -> mo_lt st3 j (at_cnt (fst st2)) = true.
Proof. exact CoRW_same_thread_c0421c4. Qed.
Print Assumptions C03_CoRW_same_thread_c0421c4.

(* write-write coherence *)
Theorem C03_CoWW_same_thread_c0421c4 :
  forall (st0 : mstate) (t : nat) (v : N) (o : ord) (st1 : mstate) 
         (evs : list (nat * aop)) (st2 : mstate) (v' : N) (o' : ord) (st3 : mstate),
       Inv st0 ->
       mstep RC0421 st0 t (XStore v o) = Some st1 ->
       mrun RC0421 st1 evs = Some st2 ->
       mstep RC0421 st2 t (XStore v' o') = Some st3 ->
       mo_lt st3 (at_cnt (fst st0)) (at_cnt (fst st2)) = true.
Proof. exact CoWW_same_thread_c0421c4. Qed.
Print Assumptions C03_CoWW_same_thread_c0421c4.

(* computed: with the rule before fix c0421c4 a thread reads its own older store after its newer one *)
Theorem C03_coherence_counterexample_before_fix :
  lt_in (mrun0 RBefore 2 cex_pre) 1 2 = true /\
       knows_b (mrun0 RBefore 2 cex_pre) 1 2 = true /\
       ok_step RBefore (mrun0 RBefore 2 cex_pre) 1 (XLoad 1 Relaxed) = false /\
       lt_in (mrun0 RBefore 2 cex) 1 2 = false /\
       ok_step RBefore (mrun0 RBefore 2 cex) 1 (XLoad 1 Relaxed) = true /\
       cands RBefore (mrun0 RBefore 2 cex) 1 Relaxed = Some [1; 2].
Proof. exact coherence_counterexample_before_fix. Qed.
Print Assumptions C03_coherence_counterexample_before_fix.

(* computed: with the rule before fix 01ecff8 loads order a store between an RMW's source and the RMW's own store *)
Theorem C03_rmw_gap_before_fix :
  let evs :=
         [(1, XStore 10 Relaxed); (2, XStore 20 Relaxed); (2, XRmw 2 inc1 Relaxed Relaxed);
          (3, XLoad 2 Relaxed); (3, XLoad 1 Relaxed); (0, XLoad 1 Relaxed); (
          0, XLoad 3 Relaxed)] in
       lt_in (mrun0 RC0421 4 evs) 2 1 = true /\ lt_in (mrun0 RC0421 4 evs) 1 3 = true.
Proof. exact rmw_gap_before_fix. Qed.
Print Assumptions C03_rmw_gap_before_fix.

(* computed: the model's current functions refuse both orders of that scenario *)
Theorem C03_rmw_gap_refused :
  is_some (mrun0 RModel 4 gapA) = true /\
       ok_step RModel (mrun0 RModel 4 gapA) 0 (XLoad 3 Relaxed) = false /\
       lt_in (mrun0 RModel 4 gapA) 3 1 = true /\
       is_some (mrun0 RModel 4 gapB) = true /\
       ok_step RModel (mrun0 RModel 4 gapB) 3 (XLoad 1 Relaxed) = false /\
       lt_in (mrun0 RModel 4 gapB) 1 2 = true /\
       ok_step RC0421 (mrun0 RC0421 4 gapA) 0 (XLoad 3 Relaxed) = true /\
       ok_step RC0421 (mrun0 RC0421 4 gapB) 3 (XLoad 1 Relaxed) = true.
Proof. exact rmw_gap_refused. Qed.
Print Assumptions C03_rmw_gap_refused.

(* computed, exhaustive (4 threads x 3 steps, 3 threads x 4 steps after store | store ; fetch_add): with the model's current functions no modification-order edge is lost, no two clocks are equal, every RMW store immediately follows its source, and every state is closed *)
Theorem C03_search_closure_clean :
  search_m0 RModel 4 gp 3 = None /\ search_m0 RModel 3 gp 4 = None.
Proof. exact search_closure_clean. Qed.
Print Assumptions C03_search_closure_clean.


Require Import LV.Base LV.VV LV.VVFacts LV.Path LV.PathSpec LV.PathTerm LV.PathDistinct LV.PathApi LV.Prog LV.Objects LV.Exec LV.Atomic LV.Ops LV.Check LV.AtomicFacts LV.AtomicCoherence LV.AtomicCoRR LV.AtomicClosure.

(* THE SAME FOR THE MODEL'S CURRENT FUNCTIONS ON ALL RUNS, RMWs included (AtomicClosure.v): the invariant survives the RMW-atomicity closure of fix 01ecff8. Witness carried by the invariant: a ranking of the live stores that extends the modification order and in which every RMW store immediately follows the store it read *)
(* the invariant holds in every state reachable by any sequence of loads, stores, RMWs and synchronisations of any number of threads (machine steps = the model's atomic_load / atomic_store / atomic_rmw) *)
Theorem C03_reach_model_good :
  forall st : mstate, reach_model st -> GoodS st.
Proof. exact reach_model_good. Qed.
Print Assumptions C03_reach_model_good.

(* RMW ATOMICITY AS AN INVARIANT: in every reachable state every live RMW store is strictly mo-after the store it read, and no live store is strictly between them *)
Theorem C03_rmw_atomicity_stable :
  forall (st : mstate) (r sl sid : nat),
       reach_model st ->
       r < at_cnt (fst st) ->
       st_rmw_src (get_store (fst st) r) = Some (sl, sid) ->
       sl < at_cnt (fst st) /\
       vv_lt (mo (fst st) sl) (mo (fst st) r) = true /\
       (forall x : nat,
        x < at_cnt (fst st) ->
        vv_lt (mo (fst st) sl) (mo (fst st) x) && vv_lt (mo (fst st) x) (mo (fst st) r) = false).
Proof. exact rmw_atomicity_stable. Qed.
Print Assumptions C03_rmw_atomicity_stable.

(* loom's `assert_ne!(mo_i, mo_j)` never fires *)
Theorem C03_mlts_never_none_model :
  forall st : mstate,
       reach_model st ->
       (forall (t : nat) (c : vv) (ly : option nat) (o : ord),
        match_load_to_stores (fst st) t c ly o <> None) /\ match_rmw_to_stores (fst st) <> None.
Proof. exact mlts_never_none_model. Qed.
Print Assumptions C03_mlts_never_none_model.

(* an edge of the modification order between live stores is never lost *)
Theorem C03_run_stable_model :
  forall (evs : list (nat * aop)) (st st' : mstate) (a b : nat),
       GoodS st ->
       mrun RModel st evs = Some st' ->
       lives st a ->
       lives st b -> mo_lt st a b = true -> lives st' a /\ lives st' b /\ mo_lt st' a b = true.
Proof. exact run_stable_model. Qed.
Print Assumptions C03_run_stable_model.

(* CoRR / CoWR in happens-before form *)
Theorem C03_CoRR_CoWR_model :
  forall (st1 : mstate) (evs : list (nat * aop)) (st2 : mstate) (t i j : nat) (o : ord),
       GoodS st1 ->
       lives st1 i ->
       lives st1 j ->
       knows st1 t j ->
       mo_lt st1 i j = true ->
       mrun RModel st1 evs = Some st2 -> mstep RModel st2 t (XLoad i o) = None.
Proof. exact CoRR_CoWR_model. Qed.
Print Assumptions C03_CoRR_CoWR_model.

(* an RMW never reads a store that was ever mo-before another *)
Theorem C03_CoRR_CoWR_rmw_model :
  forall (st1 : mstate) (evs : list (nat * aop)) (st2 : mstate) (t i j : nat)
         (f : N -> option N) (so fo : ord),
       GoodS st1 ->
       lives st1 i ->
       lives st1 j ->
       mo_lt st1 i j = true ->
       mrun RModel st1 evs = Some st2 -> mstep RModel st2 t (XRmw i f so fo) = None.
Proof. exact CoRR_CoWR_rmw_model. Qed.
Print Assumptions C03_CoRR_CoWR_rmw_model.

(* a new store is mo-after everything its thread knows *)
Theorem C03_CoWW_CoRW_model :
  forall (st : mstate) (t : nat) (v : N) (o : ord) (st' : mstate) (i : nat),
       GoodS st ->
       lives st i ->
       knows st t i ->
       mstep RModel st t (XStore v o) = Some st' ->
       lives st' (at_cnt (fst st)) /\ mo_lt st' i (at_cnt (fst st)) = true.
Proof. exact CoWW_CoRW_model. Qed.
Print Assumptions C03_CoWW_CoRW_model.

(* read-read coherence of one thread, arbitrary steps of arbitrary threads in between *)
Theorem C03_CoRR_same_thread_model :
  forall (st0 : mstate) (t j : nat) (o : ord) (st1 : mstate) (evs : list (nat * aop))
         (st2 : mstate) (i : nat) (o' : ord),
       GoodS st0 ->
       mstep RModel st0 t (XLoad j o) = Some st1 ->
       lives st1 i ->
       mo_lt st1 i j = true ->
       mrun RModel st1 evs = Some st2 -> mstep RModel st2 t (XLoad i o') = None.
Proof. exact CoRR_same_thread_model. Qed.
Print Assumptions C03_CoRR_same_thread_model.

(* write-read coherence *)
Theorem C03_CoWR_same_thread_model :
  forall (st0 : mstate) (t : nat) (v : N) (o : ord) (st1 : mstate) 
         (evs : list (nat * aop)) (st2 : mstate) (i : nat) (o' : ord),
       GoodS st0 ->
       mstep RModel st0 t (XStore v o) = Some st1 ->
       lives st1 i ->
       mo_lt st1 i (at_cnt (fst st0)) = true ->
       mrun RModel st1 evs = Some st2 -> mstep RModel st2 t (XLoad i o') = None.
Proof. exact CoWR_same_thread_model. Qed.
Print Assumptions C03_CoWR_same_thread_model.

(* read-write coherence *)
Theorem C03_CoRW_same_thread_model :
  forall (st0 : mstate) (t j : nat) (o : ord) (st1 : mstate) (evs : list (nat * aop))
         (st2 : mstate) (v : N) (o' : ord) (st3 : mstate),
       GoodS st0 ->
       mstep RModel st0 t (XLoad j o) = Some st1 ->
       mrun RModel st1 evs = Some st2 ->
       mstep RModel st2 t (XStore v o') = Some st3 -> mo_lt st3 j (at_cnt (fst st2)) = true.
Proof. exact CoRW_same_thread_model. Qed.
Print Assumptions C03_CoRW_same_thread_model.

(* write-write coherence *)
Theorem C03_CoWW_same_thread_model :
  forall (st0 : mstate) (t : nat) (v : N) (o : ord) (st1 : mstate) 
         (evs : list (nat * aop)) (st2 : mstate) (v' : N) (o' : ord) (st3 : mstate),
       GoodS st0 ->
       mstep RModel st0 t (XStore v o) = Some st1 ->
       mrun RModel st1 evs = Some st2 ->
       mstep RModel st2 t (XStore v' o') = Some st3 ->
       mo_lt st3 (at_cnt (fst st0)) (at_cnt (fst st2)) = true.
Proof. exact CoWW_same_thread_model. Qed.
Print Assumptions C03_CoWW_same_thread_model.

(* the fuel of the closure (4 x ring size) suffices: every productive round adds an ordered pair, there are at most 21 *)
Theorem C03_close_model_closed :
  forall (own rk : nat -> nat) (s : atomic_state) (cs : list vv),
       InvO own s cs ->
       LinkO own rk s ->
       let s' :=
         with_stores s
           (close_rmw_atomicity (4 * MAX_ATOMIC_HISTORY) (Nat.min (at_cnt s) MAX_ATOMIC_HISTORY)
              (at_stores s)) in
       InvO own s' cs /\ LinkO own rk s' /\ Same s s' /\ Closed own s'.
Proof. exact close_model_closed. Qed.
Print Assumptions C03_close_model_closed.

(* non-vacuity: both runs of the former D19 scenario (they contain an RMW) end in reachable states *)
Theorem C03_reach_model_example :
  (exists st : mstate, mrun0 RModel 4 gapA = Some st /\ reach_model st) /\
       (exists st : mstate, mrun0 RModel 4 gapB = Some st /\ reach_model st).
Proof. exact reach_model_example. Qed.
Print Assumptions C03_reach_model_example.


Require Import LV.Base LV.VV LV.VVFacts LV.Path LV.PathSpec LV.PathTerm LV.PathDistinct LV.PathApi LV.Prog LV.Objects LV.Exec LV.Atomic LV.Ops LV.Check LV.AtomicFacts LV.AtomicCoherence LV.AtomicCoRR LV.AtomicClosure LV.AtomicBridge.

(* TOWARDS THE EXECUTION MODEL (AtomicBridge.v): the machine generalised by an arbitrary clock-growth step -- a thread joins ANY view v whose components are bounded by their owners' own stamps (exactly what ClockFacts.run_clock_wf gives for every view stored anywhere in an execution state: mutex, channel, notify, release sequences ...), instead of only another thread's current clock -- and the calls of Ops.v shown to be machine steps; AtomicRun.v carries the invariant along executions *)
(* the invariant survives a join with any admissible view *)
Theorem C03_grow_goodS :
  forall (st : mstate) (t : nat) (v : vv),
       GoodS st -> t < length (snd st) -> admissible (snd st) t v -> GoodS (grow st t v).
Proof. exact grow_goodS. Qed.
Print Assumptions C03_grow_goodS.

(* the synchronisation view of any live store is admissible (acquire fences) *)
Theorem C03_sync_view_admissible :
  forall (own rk : nat -> nat) (s : atomic_state) (cs : list vv) (t i : nat),
       GoodO own rk s cs -> i < at_cnt s -> admissible cs t (st_sync (get_store s i)).
Proof. exact sync_view_admissible. Qed.
Print Assumptions C03_sync_view_admissible.

(* the invariant holds along every run of the generalised machine (model steps + arbitrary admissible growth) *)
Theorem C03_brun_goodS :
  forall (evs : list (nat * bop)) (st st' : mstate),
       GoodS st -> brun st evs = Some st' -> GoodS st'.
Proof. exact brun_goodS. Qed.
Print Assumptions C03_brun_goodS.

(* no modification-order edge is ever lost along such a run *)
Theorem C03_brun_stable :
  forall (evs : list (nat * bop)) (st st' : mstate) (x y : nat),
       GoodS st ->
       brun st evs = Some st' ->
       lives st x ->
       lives st y -> mo_lt st x y = true -> lives st' x /\ lives st' y /\ mo_lt st' x y = true.
Proof. exact brun_stable. Qed.
Print Assumptions C03_brun_stable.

(* RMW atomicity in every state of every such run *)
Theorem C03_brun_atomicity :
  forall (evs : list (nat * bop)) (st st' : mstate) (r sl sid : nat),
       GoodS st ->
       brun st evs = Some st' ->
       r < at_cnt (fst st') ->
       st_rmw_src (get_store (fst st') r) = Some (sl, sid) ->
       sl < at_cnt (fst st') /\
       vv_lt (mo (fst st') sl) (mo (fst st') r) = true /\
       (forall x : nat,
        x < at_cnt (fst st') ->
        vv_lt (mo (fst st') sl) (mo (fst st') x) && vv_lt (mo (fst st') x) (mo (fst st') r) = false).
Proof. exact brun_atomicity. Qed.
Print Assumptions C03_brun_atomicity.

(* loom's assert_ne never fires *)
Theorem C03_brun_never_none :
  forall (evs : list (nat * bop)) (st st' : mstate),
       GoodS st ->
       brun st evs = Some st' ->
       (forall (t : nat) (c : vv) (ly : option nat) (o : ord),
        match_load_to_stores (fst st') t c ly o <> None) /\ match_rmw_to_stores (fst st') <> None.
Proof. exact brun_never_none. Qed.
Print Assumptions C03_brun_never_none.

(* CoRR / CoWR in happens-before form for the generalised machine *)
Theorem C03_CoRR_CoWR_b :
  forall (st1 : mstate) (evs : list (nat * bop)) (st2 : mstate) (t i j : nat) (o : ord),
       GoodS st1 ->
       lives st1 i ->
       lives st1 j ->
       knows st1 t j ->
       mo_lt st1 i j = true -> brun st1 evs = Some st2 -> mstep RModel st2 t (XLoad i o) = None.
Proof. exact CoRR_CoWR_b. Qed.
Print Assumptions C03_CoRR_CoWR_b.

(* likewise for RMWs *)
Theorem C03_CoRR_CoWR_rmw_b :
  forall (st1 : mstate) (evs : list (nat * bop)) (st2 : mstate) (t i j : nat)
         (f : N -> option N) (so fo : ord),
       GoodS st1 ->
       lives st1 i ->
       lives st1 j ->
       mo_lt st1 i j = true ->
       brun st1 evs = Some st2 -> mstep RModel st2 t (XRmw i f so fo) = None.
Proof. exact CoRR_CoWR_rmw_b. Qed.
Print Assumptions C03_CoRR_CoWR_rmw_b.

(* read-read coherence *)
Theorem C03_CoRR_same_thread_b :
  forall (st0 : mstate) (t j : nat) (o : ord) (st1 : mstate) (evs : list (nat * bop))
         (st2 : mstate) (i : nat) (o' : ord),
       GoodS st0 ->
       mstep RModel st0 t (XLoad j o) = Some st1 ->
       lives st1 i ->
       mo_lt st1 i j = true -> brun st1 evs = Some st2 -> mstep RModel st2 t (XLoad i o') = None.
Proof. exact CoRR_same_thread_b. Qed.
Print Assumptions C03_CoRR_same_thread_b.

(* write-read coherence *)
Theorem C03_CoWR_same_thread_b :
  forall (st0 : mstate) (t : nat) (v : N) (o : ord) (st1 : mstate) 
         (evs : list (nat * bop)) (st2 : mstate) (i : nat) (o' : ord),
       GoodS st0 ->
       mstep RModel st0 t (XStore v o) = Some st1 ->
       lives st1 i ->
       mo_lt st1 i (at_cnt (fst st0)) = true ->
       brun st1 evs = Some st2 -> mstep RModel st2 t (XLoad i o') = None.
Proof. exact CoWR_same_thread_b. Qed.
Print Assumptions C03_CoWR_same_thread_b.

(* read-write coherence *)
Theorem C03_CoRW_same_thread_b :
  forall (st0 : mstate) (t j : nat) (o : ord) (st1 : mstate) (evs : list (nat * bop))
         (st2 : mstate) (v : N) (o' : ord) (st3 : mstate),
       GoodS st0 ->
       mstep RModel st0 t (XLoad j o) = Some st1 ->
       brun st1 evs = Some st2 ->
       mstep RModel st2 t (XStore v o') = Some st3 -> mo_lt st3 j (at_cnt (fst st2)) = true.
Proof. exact CoRW_same_thread_b. Qed.
Print Assumptions C03_CoRW_same_thread_b.

(* write-write coherence *)
Theorem C03_CoWW_same_thread_b :
  forall (st0 : mstate) (t : nat) (v : N) (o : ord) (st1 : mstate) 
         (evs : list (nat * bop)) (st2 : mstate) (v' : N) (o' : ord) (st3 : mstate),
       GoodS st0 ->
       mstep RModel st0 t (XStore v o) = Some st1 ->
       brun st1 evs = Some st2 ->
       mstep RModel st2 t (XStore v' o') = Some st3 ->
       mo_lt st3 (at_cnt (fst st0)) (at_cnt (fst st2)) = true.
Proof. exact CoWW_same_thread_b. Qed.
Print Assumptions C03_CoWW_same_thread_b.

(* the cell may be created by any thread at any point of a system with arbitrary bounded clocks that dominate the creation clock *)
Theorem C03_atomic_new_goodS :
  forall (me : nat) (c0 : vv) (v0 : N) (cs : list vv),
       me < length cs ->
       length cs <= MAX_THREADS ->
       clk cs me = c0 ->
       1 <= vv_get c0 me \/ (forall q : nat, vv_get c0 q = 0) ->
       (forall t : nat, t < length cs -> t < length (clk cs t)) ->
       (forall u t : nat,
        u < length cs -> t < length cs -> vv_get (clk cs u) t <= vv_get (clk cs t) t) ->
       GoodS (s_new me c0 v0, cs).
Proof. exact atomic_new_goodS. Qed.
Print Assumptions C03_atomic_new_goodS.

(* Ops.v's load call (candidates computed with any last_yield) is a machine load step *)
Theorem C03_load_call_is_step :
  forall (s : atomic_state) (cs : list vv) (t : nat) (ly : option nat) 
         (o : ord) (l : list nat) (idx : nat) (s' : atomic_state) (c' : vv) 
         (val : N),
       GoodS (s, cs) ->
       t < length cs ->
       match_load_to_stores s t (vv_inc (clk cs t) t) ly o = Some l ->
       In idx l ->
       atomic_load s t (vv_inc (clk cs t) t) idx o = inl (s', c', val) ->
       mstep RModel (s, cs) t (XLoad idx o) = Some (s', list_set cs t c').
Proof. exact load_call_is_step. Qed.
Print Assumptions C03_load_call_is_step.

(* the store call is a machine store step *)
Theorem C03_store_call_is_step :
  forall (s : atomic_state) (cs : list vv) (t : nat) (v : N) (o : ord) (s1 : atomic_state),
       t < length cs ->
       at_cnt s < MAX_ATOMIC_HISTORY ->
       track_store s (vv_inc (clk cs t) t) = inl s1 ->
       mstep RModel (s, cs) t (XStore v o) =
       Some
         (atomic_store s1 t (vv_inc (clk cs t) t) vv_new vv_new v o,
          list_set cs t (vv_inc (clk cs t) t)).
Proof. exact store_call_is_step. Qed.
Print Assumptions C03_store_call_is_step.

(* the RMW call is a machine RMW step *)
Theorem C03_rmw_call_is_step :
  forall (s : atomic_state) (cs : list vv) (t : nat) (so fo : ord) 
         (f : N -> option N) (l : list nat) (idx : nat) (s' : atomic_state) 
         (c' : vv) (prev : N) (ok : bool),
       t < length cs ->
       at_cnt s < MAX_ATOMIC_HISTORY ->
       match_rmw_to_stores s = Some l ->
       In idx l ->
       atomic_rmw s t (vv_inc (clk cs t) t) vv_new idx so fo f = inl (s', c', prev, ok) ->
       mstep RModel (s, cs) t (XRmw idx f so fo) = Some (s', list_set cs t c').
Proof. exact rmw_call_is_step. Qed.
Print Assumptions C03_rmw_call_is_step.

(* one micro-operation end to end: exec_micro on MStorePost is the machine's store step on (atomic a, the threads' clocks) (for t_rel <= t_caus, ring not full) *)
Theorem C03_MStorePost_is_step :
  forall (e : exec) (me a : nat) (v : N) (o : ord) (e' : exec) (t0 : thread)
         (s : atomic_state),
       get_thread e me = Some t0 ->
       get_atomic e a = Some s ->
       at_cnt s < MAX_ATOMIC_HISTORY ->
       vle (t_rel t0) (t_caus t0) ->
       exec_micro e me (MStorePost a v o) = MOk e' ->
       exists s' : atomic_state,
         get_atomic e' a = Some s' /\
         bstep (s, clocks e) me (BStoreR (t_rel t0) v o) = Some (s', clocks e').
Proof. exact MStorePost_is_step. Qed.
Print Assumptions C03_MStorePost_is_step.

(* likewise MLoadPost is a load step (hypothesis: the replayed index is a candidate) *)
Theorem C03_MLoadPost_is_step :
  forall (e : exec) (me a : nat) (o : ord) (aw : option N) (e' : exec) 
         (t0 : thread) (s : atomic_state),
       get_thread e me = Some t0 ->
       get_atomic e a = Some s ->
       GoodS (s, clocks e) ->
       (forall (e2 : exec) (idx : nat) (l : list nat),
        choose_store (causality_inc e me)
          (match_load_to_stores s me (vv_inc (t_caus t0) me) (t_last_yield t0) o) = (
        e2, inl idx) ->
        match_load_to_stores s me (vv_inc (t_caus t0) me) (t_last_yield t0) o = Some l -> In idx l) ->
       exec_micro e me (MLoadPost a o aw) = MOk e' ->
       exists (s' : atomic_state) (idx : nat),
         get_atomic e' a = Some s' /\
         bstep (s, clocks e) me (BOp (XLoad idx o)) = Some (s', clocks e').
Proof. exact MLoadPost_is_step. Qed.
Print Assumptions C03_MLoadPost_is_step.

(* the load of fetch_update *)
Theorem C03_MFuLoadPost_is_step :
  forall (e : exec) (me a : nat) (f : rmwop) (v : N) (so fo : ord) 
         (e' : exec) (t0 : thread) (s : atomic_state),
       get_thread e me = Some t0 ->
       get_atomic e a = Some s ->
       GoodS (s, clocks e) ->
       (forall (e2 : exec) (idx : nat) (l : list nat),
        choose_store (causality_inc e me)
          (match_load_to_stores s me (vv_inc (t_caus t0) me) (t_last_yield t0) fo) = (
        e2, inl idx) ->
        match_load_to_stores s me (vv_inc (t_caus t0) me) (t_last_yield t0) fo = Some l -> In idx l) ->
       exec_micro e me (MFuLoadPost a f v so fo) = MOk e' ->
       exists (s' : atomic_state) (idx : nat),
         get_atomic e' a = Some s' /\
         bstep (s, clocks e) me (BOp (XLoad idx fo)) = Some (s', clocks e').
Proof. exact MFuLoadPost_is_step. Qed.
Print Assumptions C03_MFuLoadPost_is_step.

(* MRmwPost is an RMW step with the thread's released clock *)
Theorem C03_MRmwPost_is_step :
  forall (e : exec) (me a : nat) (k : rmwkind) (so fo : ord) (e' : exec) 
         (t0 : thread) (s : atomic_state),
       get_thread e me = Some t0 ->
       get_atomic e a = Some s ->
       at_cnt s < MAX_ATOMIC_HISTORY ->
       vle (t_rel t0) (t_caus t0) ->
       (forall (e2 : exec) (idx : nat) (l : list nat),
        choose_store (causality_inc e me) (match_rmw_to_stores s) = (e2, inl idx) ->
        match_rmw_to_stores s = Some l -> In idx l) ->
       match_rmw_to_stores s <> None ->
       exec_micro e me (MRmwPost a k so fo) = MOk e' ->
       exists (s' : atomic_state) (idx : nat),
         get_atomic e' a = Some s' /\
         bstep (s, clocks e) me (BRmwR (t_rel t0) idx (rmw_fun k) so fo) = Some (s', clocks e').
Proof. exact MRmwPost_is_step. Qed.
Print Assumptions C03_MRmwPost_is_step.

(* unsync_load is the machine's unsync step: ticks the clock, touches no store clock *)
Theorem C03_MUnsyncLoad_is_step :
  forall (e : exec) (me a : nat) (e' : exec) (t0 : thread) (s : atomic_state),
       get_thread e me = Some t0 ->
       get_atomic e a = Some s ->
       exec_micro e me (MUnsyncLoad a) = MOk e' ->
       exists s' : atomic_state,
         get_atomic e' a = Some s' /\ bstep (s, clocks e) me BUnsyncLoad = Some (s', clocks e').
Proof. exact MUnsyncLoad_is_step. Qed.
Print Assumptions C03_MUnsyncLoad_is_step.

(* with_mut likewise *)
Theorem C03_MWithMut_is_step :
  forall (e : exec) (me a : nat) (v : N) (e' : exec) (t0 : thread) (s : atomic_state),
       get_thread e me = Some t0 ->
       get_atomic e a = Some s ->
       exec_micro e me (MWithMut a v) = MOk e' ->
       exists s' : atomic_state,
         get_atomic e' a = Some s' /\ bstep (s, clocks e) me (BWithMut v) = Some (s', clocks e').
Proof. exact MWithMut_is_step. Qed.
Print Assumptions C03_MWithMut_is_step.

(* the invariant survives unsync_load *)
Theorem C03_unsync_load_out :
  forall (own rk : nat -> nat) (s : atomic_state) (cs : list vv) (t : nat) 
         (s' : atomic_state) (cs' : list vv),
       GoodO own rk s cs ->
       StampO s cs -> unsync_load_step (s, cs) t = Some (s', cs') -> StepOut own s cs s' cs'.
Proof. exact unsync_load_out. Qed.
Print Assumptions C03_unsync_load_out.

(* and with_mut *)
Theorem C03_with_mut_out :
  forall (own rk : nat -> nat) (s : atomic_state) (cs : list vv) (t : nat) 
         (v : N) (s' : atomic_state) (cs' : list vv),
       GoodO own rk s cs ->
       StampO s cs -> with_mut_step (s, cs) t v = Some (s', cs') -> StepOut own s cs s' cs'.
Proof. exact with_mut_out. Qed.
Print Assumptions C03_with_mut_out.

(* every step kind of the generalised machine (model steps, stores/RMWs with any released clock below the thread's clock, unsync accesses, admissible growth): invariant kept, stamps kept, mo only extended, clocks only grow *)
Theorem C03_bstep_out :
  forall (own rk : nat -> nat) (s : atomic_state) (cs : list vv) (t : nat) 
         (b : bop) (s' : atomic_state) (cs' : list vv),
       GoodO own rk s cs ->
       StampO s cs -> bstep (s, cs) t b = Some (s', cs') -> StepOut own s cs s' cs'.
Proof. exact bstep_out. Qed.
Print Assumptions C03_bstep_out.


Require Import LV.Base LV.VV LV.VVFacts LV.Path LV.PathSpec LV.PathTerm LV.PathDistinct LV.PathApi LV.Prog LV.Objects LV.Exec LV.Atomic LV.Ops LV.Check LV.AtomicFacts LV.AtomicCoherence LV.AtomicCoRR LV.AtomicClosure LV.AtomicBridge LV.NotifyFacts LV.ClockFacts LV.SyncMono LV.AtomicRun.

(* OVER EXECUTIONS OF THE MODEL L (AtomicRun.v): along SyncMono.steps -- arbitrary interleavings of the micro-operations of all threads, scheduling and spawn included -- the invariant of one atomic cell is preserved. The headline (run_goodAt) starts at init_exec; its remaining hypotheses (RunOK) are stated in the theorem: at every access to the cell the replayed index is a candidate (an exploration-level fact), the ring has not wrapped, t_rel <= t_caus and the thread id is below MAX_THREADS (the last two are execution invariants: AtomicRun2) *)
(* THE FRAME LEMMA: every micro-operation that is not an access to atomic a (scheduling, park, yield, every operation on other objects and other atomics, fences, spawn, termination: one tactic over all 77 micro-operations) keeps a's stores, count and mutating flag *)
Theorem C03_exec_micro_akeep :
  forall (a : nat) (e : exec) (me : nat) (m : micro),
       track_ok e -> ~ acc_on a m -> akeep a e (ExecFacts.res_exec (exec_micro e me m)).
Proof. exact exec_micro_akeep. Qed.
Print Assumptions C03_exec_micro_akeep.

(* the invariant survives ANY change of the clock list that grows pointwise and stays bounded by the owners' own components *)
Theorem C03_growto_goodS :
  forall (s : atomic_state) (cs cs' : list vv),
       GoodS (s, cs) ->
       length cs' = length cs ->
       (forall u : nat, vle (clk cs u) (clk cs' u)) ->
       (forall t : nat, t < length cs' -> t < length (clk cs' t)) ->
       (forall u t : nat,
        u < length cs' -> t < length cs' -> vv_get (clk cs' u) t <= vv_get (clk cs' t) t) ->
       GoodS (s, cs').
Proof. exact growto_goodS. Qed.
Print Assumptions C03_growto_goodS.

(* and every micro-operation is such a change (ClockFacts.clock_wf + SyncMono's monotonicity), on the clock list padded with empty clocks for unspawned threads, so spawn is an ordinary growth step *)
Theorem C03_exec_growto :
  forall (e e' : exec) (s : atomic_state),
       clock_wf e' -> cmono e e' -> GoodS (s, pclocks e) -> GoodS (s, pclocks e').
Proof. exact exec_growto. Qed.
Print Assumptions C03_exec_growto.

(* hence a non-access micro-operation preserves the invariant of a *)
Theorem C03_frame_step_goodS :
  forall (a : nat) (e : exec) (me : nat) (m : micro) (e' : exec) (s : atomic_state),
       track_ok e ->
       clock_wf e ->
       ~ acc_on a m ->
       exec_micro e me m = MOk e' ->
       get_atomic e a = Some s ->
       GoodS (s, pclocks e) ->
       exists s' : atomic_state, get_atomic e' a = Some s' /\ acore s s' /\ GoodS (s', pclocks e').
Proof. exact frame_step_goodS. Qed.
Print Assumptions C03_frame_step_goodS.

(* an access step looks at the accessing thread's clock only: the _is_step lemmas transfer to the padded list *)
Theorem C03_access_step_padded :
  forall (e e' : exec) (me : nat) (b : bop) (s s' : atomic_state),
       access_bop b ->
       me < MAX_THREADS ->
       me < length (clocks e) ->
       bstep (s, clocks e) me b = Some (s', clocks e') ->
       bstep (s, pclocks e) me b = Some (s', pclocks e').
Proof. exact access_step_padded. Qed.
Print Assumptions C03_access_step_padded.

(* one step of the execution model preserves the invariant of a *)
Theorem C03_step_goodAt :
  forall (a : nat) (e : exec) (me : nat) (m : micro) (e1 : exec),
       AccSide a ->
       clock_wf e -> track_ok e -> exec_micro e me m = MOk e1 -> GoodAt a e -> GoodAt a e1.
Proof. exact step_goodAt. Qed.
Print Assumptions C03_step_goodAt.

(* along any number of steps *)
Theorem C03_steps_goodAt :
  forall a : nat,
       AccSide a ->
       forall e e' : exec,
       steps e e' ->
       clock_wf e -> track_ok e -> GoodAt a e -> GoodAt a e' /\ clock_wf e' /\ track_ok e'.
Proof. exact steps_goodAt. Qed.
Print Assumptions C03_steps_goodAt.

(* RMW atomicity in every state along the steps *)
Theorem C03_steps_atomicity :
  forall (a : nat) (e : exec) (s : atomic_state) (r sl sid : nat),
       GoodAt a e ->
       get_atomic e a = Some s ->
       r < at_cnt s ->
       st_rmw_src (get_store s r) = Some (sl, sid) ->
       sl < at_cnt s /\
       vv_lt (mo s sl) (mo s r) = true /\
       (forall x : nat, x < at_cnt s -> vv_lt (mo s sl) (mo s x) && vv_lt (mo s x) (mo s r) = false).
Proof. exact steps_atomicity. Qed.
Print Assumptions C03_steps_atomicity.

(* loom's assert_ne cannot fire along the steps *)
Theorem C03_steps_never_none :
  forall (a : nat) (e : exec) (s : atomic_state),
       GoodAt a e ->
       get_atomic e a = Some s ->
       (forall (t : nat) (c : vv) (ly : option nat) (o : ord),
        match_load_to_stores s t c ly o <> None) /\ match_rmw_to_stores s <> None.
Proof. exact steps_never_none. Qed.
Print Assumptions C03_steps_never_none.

(* the invariant holds for every declared atomic in the initial state of every iteration (init_exec p pa) *)
Theorem C03_init_goodAt :
  forall (p : prog) (pa : path) (a : nat) (s : atomic_state),
       get_atomic (init_exec p pa) a = Some s -> GoodAt a (init_exec p pa).
Proof. exact init_goodAt. Qed.
Print Assumptions C03_init_goodAt.

(* all eight access micro-operations (load, fetch_update load, store, RMW, unsync_load, with_mut, the two block_on polls) are steps of the generalised machine under SideOK *)
Theorem C03_acc_step_is_bstep :
  forall (a : nat) (e : exec) (me : nat) (m : micro) (e1 : exec) (s : atomic_state)
         (t0 : thread),
       acc_on a m ->
       get_thread e me = Some t0 ->
       get_atomic e a = Some s ->
       GoodS (s, pclocks e) ->
       SideOK a e me m ->
       exec_micro e me m = MOk e1 ->
       exists (s1 : atomic_state) (b : bop),
         access_bop b /\
         me < length (clocks e) /\
         get_atomic e1 a = Some s1 /\ bstep (s, clocks e) me b = Some (s1, clocks e1).
Proof. exact acc_step_is_bstep. Qed.
Print Assumptions C03_acc_step_is_bstep.

(* HEADLINE: for every program p, every recorded path pa, every declared atomic a and every state e reachable from init_exec p pa by steps of the execution model, the invariant of a holds in e -- under RunOK: at every access to a, (i) the replayed index is a candidate, (ii) the ring has not wrapped, (iii) t_rel <= t_caus, (iv) thread id < MAX_THREADS *)
Theorem C03_run_goodAt :
  forall (p : prog) (pa : path) (a : nat) (s0 : atomic_state) (e : exec),
       get_atomic (init_exec p pa) a = Some s0 ->
       RunOK p pa a -> steps (init_exec p pa) e -> GoodAt a e.
Proof. exact run_goodAt. Qed.
Print Assumptions C03_run_goodAt.

(* hence RMW atomicity in every reachable state of every execution *)
Theorem C03_run_atomicity :
  forall (p : prog) (pa : path) (a : nat) (s0 : atomic_state) (e : exec) 
         (s : atomic_state) (r sl sid : nat),
       get_atomic (init_exec p pa) a = Some s0 ->
       RunOK p pa a ->
       steps (init_exec p pa) e ->
       get_atomic e a = Some s ->
       r < at_cnt s ->
       st_rmw_src (get_store s r) = Some (sl, sid) ->
       sl < at_cnt s /\
       vv_lt (mo s sl) (mo s r) = true /\
       (forall x : nat, x < at_cnt s -> vv_lt (mo s sl) (mo s x) && vv_lt (mo s x) (mo s r) = false).
Proof. exact run_atomicity. Qed.
Print Assumptions C03_run_atomicity.

(* and loom's assert_ne never fires in any reachable state *)
Theorem C03_run_never_none :
  forall (p : prog) (pa : path) (a : nat) (s0 : atomic_state) (e : exec) (s : atomic_state),
       get_atomic (init_exec p pa) a = Some s0 ->
       RunOK p pa a ->
       steps (init_exec p pa) e ->
       get_atomic e a = Some s ->
       (forall (t : nat) (c : vv) (ly : option nat) (o : ord),
        match_load_to_stores s t c ly o <> None) /\ match_rmw_to_stores s <> None.
Proof. exact run_never_none. Qed.
Print Assumptions C03_run_never_none.

(* the atomic is never removed *)
Theorem C03_run_atomic_exists :
  forall (p : prog) (pa : path) (a : nat) (s0 : atomic_state) (e : exec),
       get_atomic (init_exec p pa) a = Some s0 ->
       RunOK p pa a -> steps (init_exec p pa) e -> exists s : atomic_state, get_atomic e a = Some s.
Proof. exact run_atomic_exists. Qed.
Print Assumptions C03_run_atomic_exists.

(* COHERENCE OVER EXECUTIONS: an edge of the modification order between live stores of a is never lost along the steps of an execution *)
Theorem C03_steps_stable :
  forall (p : prog) (pa : path) (a : nat) (s0 : atomic_state) (e e' : exec) 
         (s : atomic_state) (x y : nat),
       get_atomic (init_exec p pa) a = Some s0 ->
       RunOK p pa a ->
       steps (init_exec p pa) e ->
       steps e e' ->
       get_atomic e a = Some s ->
       x < at_cnt s ->
       y < at_cnt s ->
       vv_lt (mo s x) (mo s y) = true ->
       exists s' : atomic_state,
         get_atomic e' a = Some s' /\
         x < at_cnt s' /\ y < at_cnt s' /\ vv_lt (mo s' x) (mo s' y) = true.
Proof. exact steps_stable. Qed.
Print Assumptions C03_steps_stable.

(* a store that a thread's clock has seen stays seen *)
Theorem C03_steps_knows :
  forall (p : prog) (pa : path) (a : nat) (s0 : atomic_state) (e e' : exec) 
         (s : atomic_state) (u i : nat),
       get_atomic (init_exec p pa) a = Some s0 ->
       RunOK p pa a ->
       steps (init_exec p pa) e ->
       steps e e' ->
       get_atomic e a = Some s ->
       u < MAX_THREADS ->
       i < at_cnt s ->
       is_seen_by_current (st_seen (get_store s i)) (caus_of e u) = true ->
       exists s' : atomic_state,
         get_atomic e' a = Some s' /\
         i < at_cnt s' /\ is_seen_by_current (st_seen (get_store s' i)) (caus_of e' u) = true.
Proof. exact steps_knows. Qed.
Print Assumptions C03_steps_knows.

(* CoRR / CoWR over executions: once thread t knows store j of a, in every later state of the execution neither a load by t (with the clock MLoadPost uses) nor an RMW has a store that was mo-before j among its candidates *)
Theorem C03_CoRR_CoWR_steps :
  forall (p : prog) (pa : path) (a : nat) (s0 : atomic_state) (e e' : exec) 
         (s : atomic_state) (t i j : nat),
       get_atomic (init_exec p pa) a = Some s0 ->
       RunOK p pa a ->
       steps (init_exec p pa) e ->
       steps e e' ->
       get_atomic e a = Some s ->
       t < MAX_THREADS ->
       i < at_cnt s ->
       j < at_cnt s ->
       vv_lt (mo s i) (mo s j) = true ->
       is_seen_by_current (st_seen (get_store s j)) (caus_of e t) = true ->
       exists s' : atomic_state,
         get_atomic e' a = Some s' /\
         (forall (ly : option nat) (o : ord) (l : list nat),
          match_load_to_stores s' t (vv_inc (caus_of e' t) t) ly o = Some l -> ~ In i l) /\
         (forall l : list nat, match_rmw_to_stores s' = Some l -> ~ In i l).
Proof. exact CoRR_CoWR_steps. Qed.
Print Assumptions C03_CoRR_CoWR_steps.


Require Import LV.Base LV.VV LV.VVFacts LV.Path LV.PathSpec LV.PathTerm LV.PathDistinct LV.PathApi LV.Prog LV.Objects LV.Exec LV.Atomic LV.Ops LV.Check LV.AtomicFacts LV.AtomicCoherence LV.AtomicCoRR LV.AtomicClosure LV.AtomicBridge LV.NotifyFacts LV.ClockFacts LV.SyncMono LV.AtomicRun LV.AtomicRun2.

(* THE SAME WITH TWO OF THE FOUR RUN HYPOTHESES DISCHARGED (AtomicRun2.v): t_rel <= t_caus and the thread bound are invariants of executions (for configurations with max_threads <= MAX_THREADS); RunOK2 keeps only `the replayed index is a candidate` and `the ring has not wrapped` *)
(* every thread's released clock is below its clock in every reachable state *)
Theorem C03_run_rel_le_caus :
  forall (p : prog) (pa : path) (e : exec) (i : nat) (t : thread),
       max_threads (p_cfg p) <= MAX_THREADS ->
       steps (init_exec p pa) e -> nth_error (e_threads e) i = Some t -> vle (t_rel t) (t_caus t).
Proof. exact run_rel_le_caus. Qed.
Print Assumptions C03_run_rel_le_caus.

(* at most MAX_THREADS threads in every reachable state *)
Theorem C03_run_threads_bound :
  forall (p : prog) (pa : path) (e : exec),
       max_threads (p_cfg p) <= MAX_THREADS ->
       steps (init_exec p pa) e -> length (e_threads e) <= MAX_THREADS.
Proof. exact run_threads_bound. Qed.
Print Assumptions C03_run_threads_bound.

(* the two-hypothesis condition implies the four-hypothesis one *)
Theorem C03_RunOK2_RunOK :
  forall (p : prog) (pa : path) (a : nat),
       max_threads (p_cfg p) <= MAX_THREADS -> RunOK2 p pa a -> RunOK p pa a.
Proof. exact RunOK2_RunOK. Qed.
Print Assumptions C03_RunOK2_RunOK.

(* the headline under RunOK2 *)
Theorem C03_run_goodAt2 :
  forall (p : prog) (pa : path) (a : nat) (s0 : atomic_state) (e : exec),
       max_threads (p_cfg p) <= MAX_THREADS ->
       get_atomic (init_exec p pa) a = Some s0 ->
       RunOK2 p pa a -> steps (init_exec p pa) e -> GoodAt a e.
Proof. exact run_goodAt2. Qed.
Print Assumptions C03_run_goodAt2.

(* RMW atomicity in every reachable state under RunOK2 *)
Theorem C03_run_atomicity2 :
  forall (p : prog) (pa : path) (a : nat) (s0 : atomic_state) (e : exec) 
         (s : atomic_state) (r sl sid : nat),
       max_threads (p_cfg p) <= MAX_THREADS ->
       get_atomic (init_exec p pa) a = Some s0 ->
       RunOK2 p pa a ->
       steps (init_exec p pa) e ->
       get_atomic e a = Some s ->
       r < at_cnt s ->
       st_rmw_src (get_store s r) = Some (sl, sid) ->
       sl < at_cnt s /\
       vv_lt (mo s sl) (mo s r) = true /\
       (forall x : nat, x < at_cnt s -> vv_lt (mo s sl) (mo s x) && vv_lt (mo s x) (mo s r) = false).
Proof. exact run_atomicity2. Qed.
Print Assumptions C03_run_atomicity2.

(* no mo edge is lost along an execution, under RunOK2 *)
Theorem C03_steps_stable2 :
  forall (p : prog) (pa : path) (a : nat) (s0 : atomic_state) (e e' : exec) 
         (s : atomic_state) (x y : nat),
       max_threads (p_cfg p) <= MAX_THREADS ->
       get_atomic (init_exec p pa) a = Some s0 ->
       RunOK2 p pa a ->
       steps (init_exec p pa) e ->
       steps e e' ->
       get_atomic e a = Some s ->
       x < at_cnt s ->
       y < at_cnt s ->
       vv_lt (mo s x) (mo s y) = true ->
       exists s' : atomic_state,
         get_atomic e' a = Some s' /\
         x < at_cnt s' /\ y < at_cnt s' /\ vv_lt (mo s' x) (mo s' y) = true.
Proof. exact steps_stable2. Qed.
Print Assumptions C03_steps_stable2.

(* CoRR / CoWR over executions, under RunOK2 *)
Theorem C03_CoRR_CoWR_steps2 :
  forall (p : prog) (pa : path) (a : nat) (s0 : atomic_state) (e e' : exec) 
         (s : atomic_state) (t i j : nat),
       max_threads (p_cfg p) <= MAX_THREADS ->
       get_atomic (init_exec p pa) a = Some s0 ->
       RunOK2 p pa a ->
       steps (init_exec p pa) e ->
       steps e e' ->
       get_atomic e a = Some s ->
       t < MAX_THREADS ->
       i < at_cnt s ->
       j < at_cnt s ->
       vv_lt (mo s i) (mo s j) = true ->
       is_seen_by_current (st_seen (get_store s j)) (caus_of e t) = true ->
       exists s' : atomic_state,
         get_atomic e' a = Some s' /\
         (forall (ly : option nat) (o : ord) (l : list nat),
          match_load_to_stores s' t (vv_inc (caus_of e' t) t) ly o = Some l -> ~ In i l) /\
         (forall l : list nat, match_rmw_to_stores s' = Some l -> ~ In i l).
Proof. exact CoRR_CoWR_steps2. Qed.
Print Assumptions C03_CoRR_CoWR_steps2.


Require Import LV.Base LV.VV LV.VVFacts LV.Path LV.PathSpec LV.PathTerm LV.PathDistinct LV.PathApi LV.Prog LV.Objects LV.Exec LV.Atomic LV.Ops LV.Check LV.AtomicFacts LV.AtomicCoherence LV.AtomicCoRR LV.AtomicClosure LV.AtomicBridge LV.NotifyFacts LV.ClockFacts LV.SyncMono LV.ExecFacts LV.AtomicRun LV.AtomicRun2 LV.AtomicRun3.

(* THE REPLAY HYPOTHESIS (AtomicRun3.v). The clause says: the index a replayed Load entry answers is in the candidate list the access computes (for the non-empty list that access itself hands to choose_store -- an earlier formulation quantified over every list and was unsatisfiable, which made the run-level theorems vacuous; found while trying to discharge it, corrected in AtomicRun/AtomicRun2). Discharged outright for the first iteration of every program and for everything after the stored prefix of any iteration; for replayed entries reduced to `the recorded entry equals this access's candidate list` (RecordedOK), which a Coq function checks over a whole exploration (sound: explore_rec_sound) -- the general proof needs prefix determinism of iterations (a two-run simulation), which is not done *)
(* once the stored prefix is consumed it stays consumed along the steps *)
Theorem C03_steps_traversed :
  forall e e' : exec,
       steps e e' -> is_traversed (e_path e) = true -> is_traversed (e_path e') = true.
Proof. exact steps_traversed. Qed.
Print Assumptions C03_steps_traversed.

(* a freshly pushed Load entry answers a candidate, records exactly the candidate list, position 0 *)
Theorem C03_fresh_load_is_candidate :
  forall (e : exec) (l : list nat) (e2 : exec) (idx : nat),
       is_traversed (e_path e) = true ->
       choose_store e (Some l) = (e2, inl idx) ->
       l <> [] ->
       In idx l /\
       nth_error (branches (e_path e2)) (pos (e_path e)) =
       Some (ELoad {| l_vals := l; l_pos := 0; l_ex := exploring (e_path e) |}) /\
       pos (e_path e2) = S (pos (e_path e)).
Proof. exact fresh_load_is_candidate. Qed.
Print Assumptions C03_fresh_load_is_candidate.

(* THE FIRST ITERATION OF EVERY PROGRAM: the invariant of every declared atomic holds in every reachable state, with the ring hypothesis only (and max_threads <= MAX_THREADS) *)
Theorem C03_first_iteration_goodAt :
  forall (p : prog) (a : nat) (s0 : atomic_state) (e : exec),
       max_threads (p_cfg p) <= MAX_THREADS ->
       get_atomic (init_exec p (initial_path (p_cfg p))) a = Some s0 ->
       RunOK3 p (initial_path (p_cfg p)) a ->
       steps (init_exec p (initial_path (p_cfg p))) e -> GoodAt a e.
Proof. exact first_iteration_goodAt. Qed.
Print Assumptions C03_first_iteration_goodAt.

(* hence CoRR / CoWR / RMW coherence over the first iteration of every program *)
Theorem C03_first_iteration_coherence :
  forall (p : prog) (a : nat) (s0 : atomic_state) (e e' : exec) (s : atomic_state)
         (t i j : nat),
       max_threads (p_cfg p) <= MAX_THREADS ->
       get_atomic (init_exec p (initial_path (p_cfg p))) a = Some s0 ->
       RunOK3 p (initial_path (p_cfg p)) a ->
       steps (init_exec p (initial_path (p_cfg p))) e ->
       steps e e' ->
       get_atomic e a = Some s ->
       t < MAX_THREADS ->
       i < at_cnt s ->
       j < at_cnt s ->
       vv_lt (mo s i) (mo s j) = true ->
       is_seen_by_current (st_seen (get_store s j)) (caus_of e t) = true ->
       exists s' : atomic_state,
         get_atomic e' a = Some s' /\
         (forall (ly : option nat) (o : ord) (l : list nat),
          match_load_to_stores s' t (vv_inc (caus_of e' t) t) ly o = Some l -> ~ In i l) /\
         (forall l : list nat, match_rmw_to_stores s' = Some l -> ~ In i l).
Proof. exact first_iteration_coherence. Qed.
Print Assumptions C03_first_iteration_coherence.

(* in any iteration every access after the stored prefix satisfies the clause *)
Theorem C03_after_prefix_ReplayAt :
  forall (a : nat) (e0 e : exec) (me : nat) (t : thread) (m : micro) (rest : list micro),
       is_traversed (e_path e0) = true ->
       steps e0 e ->
       nth_error (e_threads e) me = Some t ->
       t_cont t = m :: rest ->
       ReplayAt a (upd_thread e me (fun t0 : thread => th_set_cont t0 rest)) me m.
Proof. exact after_prefix_ReplayAt. Qed.
Print Assumptions C03_after_prefix_ReplayAt.

(* a Load entry of the stack is never modified during an iteration *)
Theorem C03_steps_load_entry_fixed :
  forall (e e' : exec) (i : nat) (ld : load),
       steps e e' ->
       nth_error (branches (e_path e)) i = Some (ELoad ld) ->
       nth_error (branches (e_path e')) i = Some (ELoad ld).
Proof. exact steps_load_entry_fixed. Qed.
Print Assumptions C03_steps_load_entry_fixed.

(* Path::step keeps the values of every Load entry it keeps and advances the last one inside its list *)
Theorem C03_step_load_entry :
  forall (p p' : path) (i : nat) (ld' : load),
       step p = Some p' ->
       nth_error (branches p') i = Some (ELoad ld') ->
       exists ld : load,
         nth_error (branches p) i = Some (ELoad ld) /\
         l_vals ld' = l_vals ld /\
         (ld' = ld \/
          S i = length (branches p') /\ l_pos ld' = S (l_pos ld) /\ l_pos ld' < length (l_vals ld')).
Proof. exact step_load_entry. Qed.
Print Assumptions C03_step_load_entry.

(* if the entry under the cursor records this access's candidate list, the replayed answer is a candidate *)
Theorem C03_recorded_ReplayAt :
  forall (a : nat) (e : exec) (me : nat) (m : micro), Recorded a e me m -> ReplayAt a e me m.
Proof. exact recorded_ReplayAt. Qed.
Print Assumptions C03_recorded_ReplayAt.

(* the run-level theorem under RecordedOK and the ring hypothesis *)
Theorem C03_recorded_run_goodAt :
  forall (p : prog) (pa : path) (a : nat) (s0 : atomic_state) (e : exec),
       max_threads (p_cfg p) <= MAX_THREADS ->
       get_atomic (init_exec p pa) a = Some s0 ->
       RecordedOK p pa a -> RunOK3 p pa a -> steps (init_exec p pa) e -> GoodAt a e.
Proof. exact recorded_run_goodAt. Qed.
Print Assumptions C03_recorded_run_goodAt.

(* the checker is sound: if explore_rec answers (_, _, true, true), RecordedOK holds for every path of the exploration *)
Theorem C03_explore_rec_sound :
  forall (a ifuel fuel : nat) (p : prog) (pa0 : path) (its n its' n' : nat),
       explore_rec ifuel fuel p pa0 its n true = (its', n', true, true) ->
       forall pa : path,
       Explored fuel p pa0 pa ->
       RecordedOK p pa a /\
       (exists (k its1 n1 : nat) (e : exec),
          k <= ifuel /\
          explore_rec (S k) fuel p pa its1 n1 true = (its', n', true, true) /\
          fst (fst (run_rec fuel (init_exec p pa) n1 true)) = (e, IterDone)).
Proof. exact explore_rec_sound. Qed.
Print Assumptions C03_explore_rec_sound.

(* the begin path of every record of Builder::check is such a path *)
Theorem C03_check_records_Explored :
  forall (ifuel fuel : nat) (p : prog) (recs : list iter_record) (fin : run_end)
         (ck : option path) (r : iter_record),
       check ifuel fuel p = (recs, fin, ck) ->
       In r recs -> Explored fuel p (initial_path (p_cfg p)) (ir_begin r).
Proof. exact check_records_Explored. Qed.
Print Assumptions C03_check_records_Explored.

(* for a program whose exploration passes the checker: the invariant in every reachable state of every iteration *)
Theorem C03_explored_run_goodAt :
  forall (a ifuel fuel : nat) (p : prog) (its' n' : nat) (pa : path) 
         (s0 : atomic_state) (e : exec),
       max_threads (p_cfg p) <= MAX_THREADS ->
       explore_rec ifuel fuel p (initial_path (p_cfg p)) 0 0 true = (its', n', true, true) ->
       Explored fuel p (initial_path (p_cfg p)) pa ->
       get_atomic (init_exec p pa) a = Some s0 ->
       RunOK3 p pa a -> steps (init_exec p pa) e -> GoodAt a e.
Proof. exact explored_run_goodAt. Qed.
Print Assumptions C03_explored_run_goodAt.

(* computed: store/load race, 25 iterations, 28 replayed loads, all recorded entries agree *)
Theorem C03_p_sl_checked :
  explore_rec 2000 2000 p_sl (initial_path cfgT) 0 0 true = (25, 28, true, true).
Proof. exact p_sl_checked. Qed.
Print Assumptions C03_p_sl_checked.

(* computed: message passing with release store, RMW and relaxed loads, 72 iterations, 181 replayed loads *)
Theorem C03_p_mp_checked :
  explore_rec 2000 2000 p_mp (initial_path cfgT) 0 0 true = (72, 181, true, true).
Proof. exact p_mp_checked. Qed.
Print Assumptions C03_p_mp_checked.


Require Import LV.Base LV.VV LV.VVFacts LV.Path LV.PathSpec LV.PathTerm LV.PathDistinct LV.PathApi LV.Prog LV.Objects LV.Exec LV.Atomic LV.Ops LV.Check LV.AtomicFacts LV.AtomicCoherence LV.AtomicCoRR LV.AtomicClosure LV.AtomicBridge LV.NotifyFacts LV.ClockFacts LV.SyncMono LV.ExecFacts LV.AtomicRun LV.AtomicRun2 LV.AtomicRun3 LV.AtomicRun4.

(* NON-VACUITY (AtomicRun4.v): a generic checker over whole explorations with a soundness theorem, the ring hypothesis established by it, and for a concrete two-thread program the run theorems with NO remaining hypothesis -- in all 25 iterations, the replaying ones included *)
(* if the checker answers (true, true), the checked predicate holds at every micro-operation of every state reachable by steps in the iteration of every explored path *)
Theorem C03_explore_chk_sound :
  forall (chk : exec -> nat -> micro -> bool) (ifuel fuel : nat) (p : prog) (pa0 : path),
       explore_chk chk ifuel fuel p pa0 true = (true, true) ->
       forall pa : path,
       Explored fuel p pa0 pa ->
       forall (e : exec) (me : nat) (t : thread) (m : micro) (rest : list micro),
       steps (init_exec p pa) e ->
       e_active e = Some me ->
       nth_error (e_threads e) me = Some t ->
       t_cont t = m :: rest ->
       chk (upd_thread e me (fun t0 : thread => th_set_cont t0 rest)) me m = true.
Proof. exact explore_chk_sound. Qed.
Print Assumptions C03_explore_chk_sound.

(* ring room established by the checker *)
Theorem C03_ring_checked_RunOK3 :
  forall (a ifuel fuel : nat) (p : prog) (pa0 pa : path),
       explore_chk (ring_chk a) ifuel fuel p pa0 true = (true, true) ->
       Explored fuel p pa0 pa -> RunOK3 p pa a.
Proof. exact ring_checked_RunOK3. Qed.
Print Assumptions C03_ring_checked_RunOK3.

(* the hypotheses of run_goodAt2 hold on every explored path of the program (two threads, each a relaxed store and a relaxed load of one atomic) *)
Theorem C03_p_sl_RunOK2 :
  forall pa : path, Explored 2000 p_sl (initial_path cfgT) pa -> RunOK2 p_sl pa 0.
Proof. exact p_sl_RunOK2. Qed.
Print Assumptions C03_p_sl_RunOK2.

(* NO HYPOTHESIS LEFT: in every state reachable in every iteration of the exploration of that program the invariant holds *)
Theorem C03_p_sl_all_good :
  forall (pa : path) (e : exec),
       Explored 2000 p_sl (initial_path cfgT) pa -> steps (init_exec p_sl pa) e -> GoodAt 0 e.
Proof. exact p_sl_all_good. Qed.
Print Assumptions C03_p_sl_all_good.

(* RMW atomicity likewise *)
Theorem C03_p_sl_atomicity :
  forall (pa : path) (e : exec) (s : atomic_state) (r sl sid : nat),
       Explored 2000 p_sl (initial_path cfgT) pa ->
       steps (init_exec p_sl pa) e ->
       get_atomic e 0 = Some s ->
       r < at_cnt s ->
       st_rmw_src (get_store s r) = Some (sl, sid) ->
       sl < at_cnt s /\
       vv_lt (mo s sl) (mo s r) = true /\
       (forall x : nat, x < at_cnt s -> vv_lt (mo s sl) (mo s x) && vv_lt (mo s x) (mo s r) = false).
Proof. exact p_sl_atomicity. Qed.
Print Assumptions C03_p_sl_atomicity.

(* CoRR / CoWR / RMW coherence between any two states of any iteration *)
Theorem C03_p_sl_coherence :
  forall (pa : path) (e e' : exec) (s : atomic_state) (t i j : nat),
       Explored 2000 p_sl (initial_path cfgT) pa ->
       steps (init_exec p_sl pa) e ->
       steps e e' ->
       get_atomic e 0 = Some s ->
       t < MAX_THREADS ->
       i < at_cnt s ->
       j < at_cnt s ->
       vv_lt (mo s i) (mo s j) = true ->
       is_seen_by_current (st_seen (get_store s j)) (caus_of e t) = true ->
       exists s' : atomic_state,
         get_atomic e' 0 = Some s' /\
         (forall (ly : option nat) (o : ord) (l : list nat),
          match_load_to_stores s' t (vv_inc (caus_of e' t) t) ly o = Some l -> ~ In i l) /\
         (forall l : list nat, match_rmw_to_stores s' = Some l -> ~ In i l).
Proof. exact p_sl_coherence. Qed.
Print Assumptions C03_p_sl_coherence.

(* the same for the begin path of every record Builder::check returns *)
Theorem C03_p_sl_check_all_good :
  forall (ifuel : nat) (recs : list iter_record) (fin : run_end) (ck : option path)
         (r : iter_record) (e : exec),
       check ifuel 2000 p_sl = (recs, fin, ck) ->
       In r recs -> steps (init_exec p_sl (ir_begin r)) e -> GoodAt 0 e.
Proof. exact p_sl_check_all_good. Qed.
Print Assumptions C03_p_sl_check_all_good.

(* the same with NO hypothesis for a program with an RMW (message passing with a release store, fetch_add(AcqRel) and relaxed loads), for the atomic the RMW acts on: all 72 iterations *)
Theorem C03_p_mp_all_good :
  forall (pa : path) (e : exec),
       Explored 2000 p_mp (initial_path cfgT) pa -> steps (init_exec p_mp pa) e -> GoodAt 0 e.
Proof. exact p_mp_all_good. Qed.
Print Assumptions C03_p_mp_all_good.

(* RMW atomicity in every reachable state of every iteration of it *)
Theorem C03_p_mp_atomicity :
  forall (pa : path) (e : exec) (s : atomic_state) (r sl sid : nat),
       Explored 2000 p_mp (initial_path cfgT) pa ->
       steps (init_exec p_mp pa) e ->
       get_atomic e 0 = Some s ->
       r < at_cnt s ->
       st_rmw_src (get_store s r) = Some (sl, sid) ->
       sl < at_cnt s /\
       vv_lt (mo s sl) (mo s r) = true /\
       (forall x : nat, x < at_cnt s -> vv_lt (mo s sl) (mo s x) && vv_lt (mo s x) (mo s r) = false).
Proof. exact p_mp_atomicity. Qed.
Print Assumptions C03_p_mp_atomicity.

(* coherence between any two states of any iteration of it *)
Theorem C03_p_mp_coherence :
  forall (pa : path) (e e' : exec) (s : atomic_state) (t i j : nat),
       Explored 2000 p_mp (initial_path cfgT) pa ->
       steps (init_exec p_mp pa) e ->
       steps e e' ->
       get_atomic e 0 = Some s ->
       t < MAX_THREADS ->
       i < at_cnt s ->
       j < at_cnt s ->
       vv_lt (mo s i) (mo s j) = true ->
       is_seen_by_current (st_seen (get_store s j)) (caus_of e t) = true ->
       exists s' : atomic_state,
         get_atomic e' 0 = Some s' /\
         (forall (ly : option nat) (o : ord) (l : list nat),
          match_load_to_stores s' t (vv_inc (caus_of e' t) t) ly o = Some l -> ~ In i l) /\
         (forall l : list nat, match_rmw_to_stores s' = Some l -> ~ In i l).
Proof. exact p_mp_coherence. Qed.
Print Assumptions C03_p_mp_coherence.

(* a reachable state of it really contains a live RMW store (slot 2, source slot 1) *)
Theorem C03_e_mp_rmw_store :
  exists (s : atomic_state) (sid : nat),
         get_atomic e_mp 0 = Some s /\ at_cnt s = 3 /\ st_rmw_src (get_store s 2) = Some (1, sid).
Proof. exact e_mp_rmw_store. Qed.
Print Assumptions C03_e_mp_rmw_store.

(* and the atomicity conclusion instantiated at that state: the source is mo-before the RMW store and no live store is between them *)
Theorem C03_p_mp_atomicity_instance :
  exists (s : atomic_state) (sid : nat),
         steps (init_exec p_mp (initial_path cfgT)) e_mp /\
         get_atomic e_mp 0 = Some s /\
         2 < at_cnt s /\
         st_rmw_src (get_store s 2) = Some (1, sid) /\
         1 < at_cnt s /\
         vv_lt (mo s 1) (mo s 2) = true /\
         (forall x : nat,
          x < at_cnt s -> vv_lt (mo s 1) (mo s x) && vv_lt (mo s x) (mo s 2) = false).
Proof. exact p_mp_atomicity_instance. Qed.
Print Assumptions C03_p_mp_atomicity_instance.

(* one concrete reachable access at which every clause of SideOK holds non-trivially: a candidate list of length >= 2, the replayed index in it, three stores in the ring *)
Theorem C03_side_instance :
  steps (init_exec p_sl (initial_path cfgT)) e17 /\
       e_active e17 = Some 1 /\
       nth_error (e_threads e17) 1 = Some t17 /\
       t_cont t17 = MLoadPost 0 Relaxed None :: rest17 /\
       SideOK 0 e17p 1 (MLoadPost 0 Relaxed None) /\
       (exists (s : atomic_state) (t0 : thread) (l : list nat) (e2 : exec) 
        (idx : nat),
          get_atomic e17p 0 = Some s /\
          get_thread e17p 1 = Some t0 /\
          micro_seed s 1 t0 (MLoadPost 0 Relaxed None) = Some (Some l) /\
          2 <= length l /\
          choose_store (causality_inc e17p 1) (Some l) = (e2, inl idx) /\
          In idx l /\ at_cnt s = 3 /\ at_cnt s < MAX_ATOMIC_HISTORY).
Proof. exact side_instance. Qed.
Print Assumptions C03_side_instance.

