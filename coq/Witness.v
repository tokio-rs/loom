(* Refutation witnesses: concrete programs on which the faithful model L (and,
   by the correspondence, the implementation) deviates from the reference
   semantics R. Each is computed by vm_compute; the same programs are listed in
   known_findings.json and replayed on the real code by the checks. *)
Require Import LV.Base LV.Path LV.Prog LV.Objects LV.Exec LV.Check LV.CheckFacts LV.Ref LV.Outcome.
From Coq Require Import Lia.

Definition cfg0 : config := mkConfig 5 1000 None None None false.
Definition FUEL : nat := 100 * 100.

Definition run_of (p : prog) := check FUEL FUEL p.
Definition recs_of (p : prog) := fst (fst (run_of p)).
Definition fin_of (p : prog) := snd (fst (run_of p)).

(* evaluating a prefix of the exploration suffices for a positive claim *)
Lemma explored_in_prefix p o k : k <= FUEL ->
  mem_outcome o (explored p (fst (fst (check k FUEL p)))) = true ->
  mem_outcome o (explored p (recs_of p)) = true.
Proof.
  intros Hk H. unfold recs_of, run_of.
  destruct (check_records_prefix k FUEL FUEL p Hk) as [tl ->].
  unfold mem_outcome, explored in *. rewrite flat_map_app, existsb_app, H. reflexivity.
Qed.

(* [missing p o]: R produces outcome o, the exploration of p finishes normally,
   and no explored iteration has outcome o *)
Definition missing (p : prog) (o : outcome) : bool :=
  mem_outcome o (ref_finished (ref_outcomes false FUEL p)) &&
  match fin_of p with RunOk => true | _ => false end &&
  negb (mem_outcome o (explored p (recs_of p))).

Lemma outcome_eqb_eq (o x : outcome) : outcome_eqb o x = true -> x = o.
Proof.
  assert (Hr : forall r r' : result, result_eqb r r' = true -> r' = r).
  { intros r r' H. destruct r, r'; cbn in H; try discriminate; auto;
      try (apply N.eqb_eq in H; subst; reflexivity).
    apply Bool.eqb_prop in H; subst; reflexivity. }
  assert (Hl : forall a b : list (nat * result), list_eqb pcres_eqb a b = true -> b = a).
  { induction a as [|[pc r] a IH]; destruct b as [|[pc' r'] b]; cbn; intros H; try discriminate; auto.
    apply andb_prop in H; destruct H as [H1 H2]. apply andb_prop in H1; destruct H1 as [Hp Hq].
    cbn [fst snd] in Hp, Hq. apply Nat.eqb_eq in Hp. rewrite (Hr _ _ Hq), (IH _ H2), Hp. reflexivity. }
  unfold outcome_eqb. revert x. induction o as [|a o IH]; destruct x as [|b x]; cbn; intros H;
    try discriminate; auto.
  apply andb_prop in H; destruct H as [H1 H2]. rewrite (Hl _ _ H1), (IH _ H2). reflexivity.
Qed.

Lemma missing_spec p o : missing p o = true ->
  exists recs ck, check FUEL FUEL p = (recs, RunOk, ck) /\
    In o (ref_finished (ref_outcomes false FUEL p)) /\ mem_outcome o (explored p recs) = false.
Proof.
  unfold missing, fin_of, recs_of, run_of. generalize FUEL. intros F H.
  destruct (check F F p) as [[recs fin] ck]; cbn [fst snd] in H.
  apply andb_prop in H; destruct H as [H Hno]. apply andb_prop in H; destruct H as [Hin Hfin].
  destruct fin; try discriminate Hfin. exists recs, ck. split; [reflexivity|].
  split; [|apply Bool.negb_true_iff, Hno].
  apply existsb_exists in Hin. destruct Hin as (x & Hx & Heq).
  rewrite <- (outcome_eqb_eq _ _ Heq). exact Hx.
Qed.

(* [missing] with the exploration named once, so that evaluating it runs it once *)
Lemma missing_share p o :
  missing p o =
  let r := run_of p in
  mem_outcome o (ref_finished (ref_outcomes false FUEL p)) &&
  match snd (fst r) with RunOk => true | _ => false end &&
  negb (mem_outcome o (explored p (fst (fst r)))).
Proof. reflexivity. Qed.

(* D13: dropping a guard is not a scheduling point nor a DPOR access.
   main: lock; x.store(1); unlock      t1: x.load(); try_lock; ...
   R: t1 can read 1 and then see the lock still held; L never explores it. *)
Definition p_D13 : prog :=
  mkProg cfg0 [DMutex; DAtomic 0]
    [[ISpawn 1; ILock 0; IStore 1 1 SeqCst; IUnlock 0; IJoin 1];
     [ILoad 1 SeqCst; ITryLock 0; IStore 1 3 SeqCst; IUnlock 0]].
Definition o_D13 : outcome :=
  [[(0, RUnit); (1, RUnit); (2, RUnit); (3, RUnit); (4, RUnit)];
   [(0, RVal 1); (1, RBool false); (2, RUnit); (3, RX)]].
Lemma D13_missing : missing p_D13 o_D13 = true.
Proof. rewrite missing_share. vm_compute. reflexivity. Qed.

(* D14: park / unpark are not scheduling points: two unparks that coalesce
   before the first park leave the second park blocked for ever; R reaches that
   deadlock, L never does. *)
Definition p_D14 : prog :=
  mkProg cfg0 [DAtomic 0]
    [[ISpawn 1; IPark; IPark; IJoin 1]; [IUnpark 0; IUnpark 0]].
Lemma D14_deadlock_missed :
  ref_can_deadlock (ref_outcomes false FUEL p_D14) = true /\
  run_reports_deadlock (fin_of p_D14) = false /\ fin_of p_D14 = RunOk.
Proof. vm_compute. repeat split; reflexivity. Qed.

(* D5, repaired: unparking a thread that is blocked in join used to make it runnable
   although the join notification had not arrived (loom's own assertion failed). The
   park token is now kept apart from the thread state: the program finishes, as R says. *)
Definition p_D5 : prog :=
  mkProg cfg0 [DAtomic 0] [[ISpawn 1; IJoin 1]; [IUnpark 0]].
Lemma D5_repaired :
  fin_of p_D5 = RunOk /\
  ref_can_deadlock (ref_outcomes false FUEL p_D5) = false /\
  existsb (fun o => match o with OPanic => true | _ => false end) (ref_outcomes false FUEL p_D5) = false.
Proof. vm_compute. repeat split; reflexivity. Qed.

(* D11, repaired: a park token delivered before the thread blocks on a mutex survives
   the blocking: main parks after its critical section and finds the token. *)
Definition p_D11 : prog :=
  mkProg cfg0 [DAtomic 0; DMutex]
    [[ISpawn 1; ILock 1; IStore 0 1 SeqCst; IUnlock 1; IPark; IJoin 1];
     [IUnpark 0; ILock 1; IStore 0 2 SeqCst; IUnlock 1]].
Lemma D11_repaired :
  fin_of p_D11 = RunOk /\ ref_can_deadlock (ref_outcomes false FUEL p_D11) = false.
Proof. vm_compute. repeat split; reflexivity. Qed.

(* D4 (C03): read-modify-write atomicity / coherence. T1: x.store(1); r1 = x.load()
   T2: r2 = x.fetch_add(2); r3 = x.load().  Outcome r1 = 2, r2 = 0, r3 = 2: the RMW read
   the initial value, so its write 2 immediately follows 0 in modification order and 1
   comes after 2; T1 reading 2 after writing 1 violates coherence. RC11 (even the
   weakest instance) forbids it; before the repair of the RMW-atomicity rule L explored
   it, now it does not. *)
Require Import LV.RC11.
Definition p_D4 : prog :=
  mkProg cfg0 [DAtomic 0]
    [[ISpawn 1; ISpawn 2; IJoin 1; IJoin 2];
     [IStore 0 1 Relaxed; ILoad 0 Relaxed];
     [IRmw 0 RAdd 2 Relaxed; ILoad 0 Relaxed]].
Definition o_D4 : outcome :=
  [[(0, RUnit); (1, RUnit); (2, RUnit); (3, RUnit)];
   [(0, RUnit); (1, RVal 2)];
   [(0, RVal 0); (1, RVal 2)]].
Definition litmus_D4 : list (list instr) := tl (p_bodies p_D4).
Lemma D4_repaired :
  rc11_allows false true (fun _ => 0%N) litmus_D4 (S (rc11_enough_fuel litmus_D4))
              [[0%N; 2%N]; [0%N; 2%N]] = false /\
  rc11_allows true false (fun _ => 0%N) litmus_D4 (S (rc11_enough_fuel litmus_D4))
              [[0%N; 2%N]; [0%N; 2%N]] = false /\
  fin_of p_D4 = RunOk /\
  mem_outcome o_D4 (explored p_D4 (recs_of p_D4)) = false.
Proof. vm_compute. repeat split; reflexivity. Qed.

(* D2 (C02), repaired: the outcome that the fence_acq over-synchronisation used to hide
   is allowed by RC11 and is now explored by L. *)
Definition p_D2 : prog :=
  mkProg cfg0 [DAtomic 0; DAtomic 0; DAtomic 0]
    [[ISpawn 1; ISpawn 2; ISpawn 3; IJoin 1; IJoin 2; IJoin 3];
     [IStore 0 1 Relaxed; IStore 1 1 Release];
     [ILoad 1 Relaxed; IStore 2 1 Release];
     [ILoad 2 Acquire; IFence Acquire; ILoad 0 Relaxed]].
Definition o_D2 : outcome :=
  [[(0, RUnit); (1, RUnit); (2, RUnit); (3, RUnit); (4, RUnit); (5, RUnit)];
   [(0, RUnit); (1, RUnit)];
   [(0, RVal 1); (1, RUnit)];
   [(0, RVal 1); (1, RUnit); (2, RVal 0)]].
Definition litmus_D2 : list (list instr) := tl (p_bodies p_D2).
Lemma D2_allowed_and_explored :
  rc11_allows true false (fun _ => 0%N) litmus_D2 (S (rc11_enough_fuel litmus_D2))
              [[0%N; 0%N]; [1%N; 0%N]; [1%N; 0%N; 0%N]] = true /\
  mem_outcome o_D2 (explored p_D2 (recs_of p_D2)) = true.
Proof.
  split; [vm_compute; reflexivity|].
  (* the outcome first appears in iteration 33 of 2372 *)
  apply (explored_in_prefix _ _ 33); [apply Nat.leb_le; reflexivity|].
  vm_compute. reflexivity.
Qed.

(* D24: yield_now is invisible to DPOR although it constrains scheduling.
   main: x.fetch_add(1); x.store(5)      t1: yield_now(); x.load()
   R: t1 can read 1 (yield before the fetch_add, load between the two writes).
   L (unbounded) never explores it: DPOR reverses the load/store race at the
   store's point, where t1 first has to yield, which forces main's store. *)
Definition p_D24 : prog :=
  mkProg cfg0 [DAtomic 0]
    [[ISpawn 1; IRmw 0 RAdd 1 SeqCst; IStore 0 5 SeqCst; IJoin 1];
     [IYield; ILoad 0 SeqCst]].
Definition o_D24 : outcome :=
  [[(0, RUnit); (1, RVal 0); (2, RUnit); (3, RUnit)];
   [(0, RUnit); (1, RVal 1)]].
Lemma D24_missing : missing p_D24 o_D24 = true.
Proof. rewrite missing_share. vm_compute. reflexivity. Qed.

(* ... while the run with preemption_bound = 2 explores it (conservative
   backtrack points): the bounded result set is not a subset of the unbounded one *)
Definition p_D24_b2 : prog :=
  mkProg (mkConfig 5 1000 (Some 2) None None false) (p_decls p_D24) (p_bodies p_D24).
Lemma D24_bounded_not_subset :
  fin_of p_D24_b2 = RunOk /\ fin_of p_D24 = RunOk /\
  mem_outcome o_D24 (explored p_D24_b2 (recs_of p_D24_b2)) = true /\
  mem_outcome o_D24 (explored p_D24 (recs_of p_D24)) = false.
Proof. vm_compute. repeat split; reflexivity. Qed.
