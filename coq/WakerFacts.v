(* WakerFacts: future::block_on and future::AtomicWaker (property C20).

   "block_on returns the future's output in every explored execution in which
    the future is woken after (or while) returning Pending, re-polls only after
    a wake or the one modelled spurious return, and reports a deadlock if no
    wake can ever arrive; AtomicWaker::wake wakes the most recently registered
    waker or none if a registration is in flight that will itself observe the
    wake."

   The model (Ops.v): block_on = MBlockOn (Notify n with spurious wake-ups, Arc
   k around it), then rounds MBoPoll (LPoll line) / MBoLoad .. true (first poll
   of the round; Pending: clone the waker and MBoRegister) / MBoLoad .. false
   (second poll; Pending: [MNotifyWait1 n; MBoPoll ..]); AtomicWaker::register =
   try-acquire of the rt::Mutex w + MBoRegister; AtomicWaker::wake / take_waker =
   blocking acquire + MWakeTake w true / false.  [slot e w] := ho_waker (get_h e w)
   is the std Mutex<Option<Waker>> inside the AtomicWaker.

   Contents
     0. slot, popc (the popped state), cont_at
     1. the frame [fk me e e']: waker slots, LPoll lines of the log,
        continuations of the OTHER threads; framing lemmas in continuation
        style for every helper of Ops.v; schedule, post_acquire and release_lock
        keep all continuations, e_h and the log (frame_eq: schedule_frame_eq,
        post_acquire_frame_eq, release_lock_frame_eq); exec_micro_fk by ONE tactic for all
        micro-ops other than MBoRegister / MWakeTake and the polls MBoPoll /
        MBsPoll (same structure as SyncMono / NotifyFacts);
        exec_micro_keeps_slots: slots and other threads, the polls included
     2. EXACT STEP LEMMAS
          exec_micro_register, exec_micro_wake_take    the two micro-ops as equations
          register_success_effect     slot := Some (n, k) (for a declared w), lock word
                                      Some me, continuation = [drop of the replaced
                                      waker] ++ MWakerRelease w :: second poll
          waker_release_effect        the lock word is None afterwards, slots unchanged
          register_contended_effect   e_h and e_objects unchanged, continuation =
                                      MBranch n; MNotifyPost n; drop of the clone;
                                      MYield; second poll      (register_contended_iff:
                                      exactly when the lock word is taken / no mutex)
          register_contended_next_wait_not_blocking   (NotifyFacts.wake_wait1_not_blocking)
          wake_take_effect, take_waker_effect (take_effect, from take_released:
                                      the state after the release, and
                                      take_from_released)   lock free before AND
                                      after, slot := None, no Notify touched by the
                                      take; Some (n, k): continuation = MBranch n
                                      AOpaque BNever :: MNotifyPost n :: drop of k ::
                                      MLog RUnit; None: continuation unchanged
          take_fails_while_locked
     3. ALL MICRO-OPS:  slot_step (slot_after): the slot changes only in a
        successful MBoRegister (to the caller's own (n, k)) and in MWakeTake (to
        None), for MOk and MFail results alike; others_cont_step; h_length_step.
        Traces: wsteps w e evs e' (any thread, any micro-op; evs = the slot
        events WReg t n k / WTake t old on w) and
          wake_wakes_latest            slot e' w = replay evs (slot e w)
          slot_is_latest_registration, slot_empty_after_take,
          slot_unchanged_without_event
          wake_notifies_latest         the waking thread's next micro-ops are the
                                       scheduling point + MNotifyPost n for the n of
                                       the LATEST registration not yet taken, or
                                       nothing
     4. RUNS (rsteps P: SyncMono.steps with a predicate on the executed micro-ops)
          step_conts                   one step of the run, seen from a thread
          wake_in_flight_or_delivered  run-level invariant: from the take on, the
                                       wake sits in the waking thread's continuation
                                       (nobody else can remove it) or the flag of n
                                       is set, as long as nobody consumes it
          wait1_cases                  the three ways through MNotifyWait1
          delivered_wait1_not_blocking, delivered_wait2_succeeds
          registered_then_woken_not_lost   the composition, + NotifyFacts.no_lost_wakeup
     5. wake() RACING WITH register()
          register_cs_frozen           ExclFacts: the critical section is opaque
          contended_holder, taker_not_in_cs
          register_step_success, take_hands_over   the two steps of the race
          wake_during_registration_b (+ _not_lost), wake_during_registration_a
     6. block_on: exec_micro_block_on / _bo_poll / _bo_load / _bo_done,
          repoll_only_after_wake, block_on_returns_when_ready, wait2_needs_flag,
          poll_lines_step, poll_logs_one_line (LPoll lines come from polls only)
     7. witnesses (vm_compute): wake_after_registration_finishes,
          nobody_wakes_deadlock, wake_never_lost_exhaustive,
          wake_blocked_during_registration_reachable,
          contended_registration_reachable, two_tasks_one_waker_deadlock,
          register_success_needs_declared

   DEVIATIONS / FINDINGS

   W1  register_success_effect: "slot := Some (n, k)" needs [w < length (e_h e)]
       (w is a declared object).  On a state whose harness table is shorter than
       its object table the lock is taken and nothing is stored
       (register_success_needs_declared); such a state is not reachable
       (CountFacts.run_h_length: length (e_h e) = length (p_decls p), and no
       micro-operation creates a mutex).  slot_step carries the test inside
       slot_after and is unconditional; wake_wakes_latest and the run theorems
       have the hypothesis for the start state only (h_length_step).
   W2  "WAKE FIRST" AS REQUESTED CANNOT HAPPEN, in the model and in loom: "the waker's
       blocking acquire comes first, so the registration's try-acquire fails".
       AtomicWaker::take_waker is acquire_lock (a scheduling point BEFORE it),
       take, release_lock, with no scheduling point in between; MWakeTake is one
       micro-operation and leaves the lock word as it found it: free
       (take_effect).  The only holder that can be observed is a thread INSIDE a
       registration (contended_holder: ExclFacts.mutex_lock_owner), and a
       registration holds the lock across a scheduling point only while it drops
       the waker it replaced (MBranch k' ARefDec).  Hence a contended
       registration needs TWO tasks registering in one AtomicWaker
       (contended_registration_reachable), and then the task does notify itself
       and its next wait does not block (register_contended_effect,
       register_contended_next_wait_not_blocking).  What "the registration in
       flight observes the wake" means when the wake comes first is proved as
       wake_during_registration_a: the registration succeeds, stores its waker
       AFTER the take (this wake will not notify it), and ACQUIRES THE WAKING
       THREAD'S CLOCK through the lock word (SyncMono.mutex_handover_mono):
       everything done before wake() happens-before the second poll of the
       round, which therefore cannot miss a value stored before the wake
       (coherence: AtomicCoherence.coherence_write_read).  Checked exhaustively
       on the canonical program for SeqCst / Release / Relaxed stores
       (wake_never_lost_exhaustive: 205 schedules, no deadlock).
   W3  NO LOST WAKE-UP WAS FOUND.  Two behaviours that look like one and are
       inherent to AtomicWaker (real loom behaves the same):
       - two tasks on one AtomicWaker: the second registration DROPS the first
         task's waker; a later wake notifies the second task only and the first
         one blocks for ever (two_tasks_one_waker_deadlock).
         That is wake_wakes_latest ("the most recently registered").
       - a waker clone that is still registered when block_on returns is never
         dropped: "Arc leaked" (LeakFacts F2; 13 of the 205 schedules of p_wake).
   W4  "Not lost" is stated at two levels: registered_then_woken_not_lost over runs
       (rsteps; the conclusion is the invariant "in flight or delivered" plus
       what "delivered" gives), and its last conjunct is
       NotifyFacts.no_lost_wakeup over steps_without_wait2 for the moment the
       pending MNotifyPost n runs.  No liveness is claimed: whether the waking
       thread is scheduled again is the scheduler's business (DeadlockFacts).
   W5  repoll_only_after_wake is the local statement asked for (continuation
       shape + the three ways through Notify::wait: wait1_cases), plus
       poll_lines_step / poll_logs_one_line: an
       LPoll line is written by MBoPoll / MBsPoll and by nothing else.  The
       global reading ("between two LPoll lines of one block_on the task went
       through Notify::wait") is not proved as a trace theorem.
   W6  "reports a deadlock if no wake can ever arrive" is served by the witness
       nobody_wakes_deadlock and by DeadlockFacts (blocked_forever_is_reported);
       NotifyFacts.unnotified_waiter_blocked_until_post says that the task stays
       Blocked until some MNotifyPost n. *)
Require Import LV.Base LV.VV LV.VVFacts LV.Path LV.PathSpec LV.PathApi LV.Prog LV.Objects
               LV.Exec LV.Atomic LV.Ops LV.Check LV.SyncFacts LV.ExecFacts LV.SyncMono
               LV.NotifyFacts LV.CountFacts LV.ExclFacts.
From Coq Require Import List Arith Lia Bool.
Import ListNotations.

(* ================================================================== *)
(* 0. The waker slot, the popped state, small facts                    *)
(* ================================================================== *)

(* the content of the AtomicWaker w: (Notify, Arc) of the registered waker *)
Definition slot (e : exec) (w : nat) : option (nat * nat) := ho_waker (get_h e w).

Definition wslots (e : exec) : list (option (nat * nat)) := map ho_waker (e_h e).

Lemma slot_wslots e w : slot e w = nth w (wslots e) None.
Proof.
  unfold slot, wslots, get_h. change (@None (nat * nat)) with (ho_waker hobj_default).
  symmetry. apply map_nth.
Qed.

(* the state on which Check.run executes the head of a continuation *)
Definition popc (e : exec) (me : nat) (rest : list micro) : exec :=
  upd_thread e me (fun t => th_set_cont t rest).

Definition cont_at (e : exec) (a : nat) : list micro :=
  match nth_error (e_threads e) a with Some t => t_cont t | None => [] end.

Lemma slot_upd_hobj_same e w f :
  w < length (e_h e) -> slot (upd_hobj e w f) w = ho_waker (f (get_h e w)).
Proof.
  intros Hw. unfold slot, get_h, upd_hobj. cbn [e_h ex_set_h]. f_equal.
  apply nth_error_nth. rewrite nth_error_list_upd_same.
  rewrite (nth_error_nth' (e_h e) hobj_default Hw). reflexivity.
Qed.

Lemma slot_upd_hobj_other e w w' f : w' <> w -> slot (upd_hobj e w f) w' = slot e w'.
Proof.
  intros Hne. unfold slot, get_h, upd_hobj. cbn [e_h ex_set_h]. f_equal.
  destruct (nth_list_upd_same_or _ (e_h e) w f hobj_default w') as [H|[H _]]; [exact H|destruct (Hne H)].
Qed.

Lemma slot_upd_hobj_out e w f : length (e_h e) <= w -> upd_hobj e w f = e.
Proof.
  intros Hw. unfold upd_hobj, list_upd. apply nth_error_None in Hw. rewrite Hw. destruct e; reflexivity.
Qed.

Lemma slot_out e w : length (e_h e) <= w -> slot e w = None.
Proof. intros Hw. unfold slot, get_h. rewrite nth_overflow by exact Hw. reflexivity. Qed.

Lemma slot_h_eq e e' w : e_h e' = e_h e -> slot e' w = slot e w.
Proof. intros H. unfold slot, get_h. rewrite H. reflexivity. Qed.

Lemma slot_push_cont e me ms w : slot (push_cont e me ms) w = slot e w.
Proof. reflexivity. Qed.

(* ================================================================== *)
(* 1. The frame: what every micro-operation other than the two slot    *)
(*    operations and the polls keeps -- the waker slots, the LPoll     *)
(*    lines of the log, the continuations of the OTHER threads         *)
(* ================================================================== *)

Lemma conts_length e e' : conts e' = conts e -> length (e_threads e') = length (e_threads e).
Proof. intros H. apply (f_equal (@length _)) in H. unfold conts in H. rewrite !map_length in H. exact H. Qed.

Definition is_poll (l : logline) : bool := match l with LPoll _ _ => true | _ => false end.
Definition polls (e : exec) : list logline := filter is_poll (e_log e).

Definition ock (me : nat) (ths ths' : list thread) : Prop :=
  forall a t, a <> me -> nth_error ths a = Some t ->
    exists t', nth_error ths' a = Some t' /\ t_cont t' = t_cont t.

Definition fk (me : nat) (e e' : exec) : Prop :=
  wslots e' = wslots e /\ polls e' = polls e /\ ock me (e_threads e) (e_threads e').

Lemma ock_refl me ths : ock me ths ths.
Proof. intros a t _ H. eauto. Qed.

Lemma ock_trans me a b c : ock me a b -> ock me b c -> ock me a c.
Proof.
  intros H1 H2 i t Hne Hi. destruct (H1 i t Hne Hi) as (t1 & Ht1 & Hc1).
  destruct (H2 i t1 Hne Ht1) as (t2 & Ht2 & Hc2). exists t2. split; [exact Ht2|congruence].
Qed.

Lemma fk_refl me e : fk me e e.
Proof. split; [reflexivity|]. split; [reflexivity|apply ock_refl]. Qed.

Lemma fk_trans me e1 e2 e3 : fk me e1 e2 -> fk me e2 e3 -> fk me e1 e3.
Proof.
  intros (A1 & B1 & C1) (A2 & B2 & C2). split; [congruence|]. split; [congruence|].
  eapply ock_trans; eassumption.
Qed.

Lemma fk_k me e0 e e' : fk me e e' -> fk me e0 e -> fk me e0 e'.
Proof. intros H1 H0. eapply fk_trans; eassumption. Qed.

(* what the scheduler, the lock operations and most helpers of Ops.v keep *)
Definition frame_eq (e e' : exec) : Prop :=
  conts e' = conts e /\ e_h e' = e_h e /\ e_log e' = e_log e.

Lemma fk_frame_eq me e e' : frame_eq e e' -> fk me e e'.
Proof.
  intros (Hc & Hh & Hl). unfold fk, wslots, polls. rewrite Hh, Hl.
  split; [reflexivity|]. split; [reflexivity|].
  intros a t _ Ha. pose proof (f_equal (fun l => nth_error l a) Hc) as H.
  unfold conts in H. cbv beta in H. rewrite !nth_error_map, Ha in H.
  destruct (nth_error (e_threads e') a) as [t'|]; [|discriminate H].
  injection H as H. eauto.
Qed.

Lemma fk_frame_eq_k me e0 e e' : frame_eq e e' -> fk me e0 e -> fk me e0 e'.
Proof. intros H. apply fk_k, fk_frame_eq, H. Qed.

Lemma fk_set_threads me e ths' : ock me (e_threads e) ths' -> fk me e (ex_set_threads e ths').
Proof. intros H. split; [reflexivity|]. split; [reflexivity|exact H]. Qed.

Lemma fk_upd_thread_me_k me e0 e f : fk me e0 e -> fk me e0 (upd_thread e me f).
Proof.
  apply fk_k, fk_set_threads. intros a t Hne Ha. exists t. split; [|reflexivity].
  rewrite nth_error_list_upd_other by exact (not_eq_sym Hne). exact Ha.
Qed.

Lemma fk_append_threads_k me e0 e l : fk me e0 e -> fk me e0 (ex_set_threads e (e_threads e ++ l)).
Proof.
  apply fk_k, fk_set_threads. intros a t _ Ha. exists t. split; [|reflexivity].
  rewrite nth_error_app1; [exact Ha|]. apply nth_error_Some. congruence.
Qed.

Lemma fk_upd_thread_cont_k me e0 e i f :
  (forall t, t_cont (f t) = t_cont t) -> fk me e0 e -> fk me e0 (upd_thread e i f).
Proof.
  intros Hf. apply fk_frame_eq_k. split; [apply conts_upd_thread_keep, Hf|split; reflexivity].
Qed.

Lemma fk_map_others_k me e0 e me' p f :
  (forall t, t_cont (f t) = t_cont t) -> fk me e0 e -> fk me e0 (map_others e me' p f).
Proof.
  intros Hf. apply fk_frame_eq_k. split; [apply conts_map_others, Hf|split; reflexivity].
Qed.

Lemma fk_upd_hobj_k me e0 e i f :
  (forall h, ho_waker (f h) = ho_waker h) -> fk me e0 e -> fk me e0 (upd_hobj e i f).
Proof.
  intros Hf. apply fk_k. split; [|split; [reflexivity|apply ock_refl]].
  unfold wslots, upd_hobj. cbn [e_h ex_set_h].
  apply map_list_upd_id. exact Hf.
Qed.

Lemma fk_log_k me e0 e l :
  forallb (fun x => negb (is_poll x)) l = true -> fk me e0 e -> fk me e0 (ex_set_log e (l ++ e_log e)).
Proof.
  intros Hl. apply fk_k. split; [reflexivity|]. split; [|apply ock_refl].
  unfold polls. cbn [e_log ex_set_log]. rewrite filter_app.
  replace (filter is_poll l) with (@nil logline); [reflexivity|].
  induction l as [|x l IH]; [reflexivity|]. cbn [forallb] in Hl. apply andb_prop in Hl. destruct Hl as [Hx Hl].
  cbn [filter]. destruct (is_poll x); [discriminate Hx|]. apply IH, Hl.
Qed.

Lemma fk_log1_k me e0 e x : is_poll x = false -> fk me e0 e -> fk me e0 (ex_set_log e (x :: e_log e)).
Proof. intros Hx. apply (fk_log_k me e0 e [x]). cbn [forallb]. rewrite Hx. reflexivity. Qed.

Lemma fk_log_op_k me e0 e me' r : fk me e0 e -> fk me e0 (log_op e me' r).
Proof.
  intros H. unfold log_op. destruct (get_thread e me'); [|exact H]. apply fk_log1_k; [reflexivity|exact H].
Qed.

Lemma fk_threads_unpark_k me e0 e me' id : fk me e0 e -> fk me e0 (threads_unpark e me' id).
Proof.
  intros H. unfold threads_unpark. destruct (Nat.eqb id me'); (apply fk_upd_thread_cont_k; [tcont_tac|exact H]).
Qed.

Lemma fk_fold_unpark_k me me' l : forall e0 e,
  fk me e0 e -> fk me e0 (fold_left (fun e t => threads_unpark e me' t) l e).
Proof.
  induction l as [|x l IH]; intros e0 e H; cbn [fold_left]; [exact H|].
  apply IH, fk_threads_unpark_k, H.
Qed.

Lemma schedule_frame_eq e : frame_eq e (res_exec (fst (schedule e))).
Proof.
  destruct (schedule_shape e) as (Ht & _ & Hh & _ & _ & _ & _ & Hl & _).
  split; [|split; assumption]. apply (pointwise_map sched_thread t_cont _ _ Ht).
  intros t t' (t1 & [->|[d ->]] & [->|[_ ->]]); reflexivity.
Qed.

Lemma schedule_fk_k me e0 e : fk me e0 e -> fk me e0 (res_exec (fst (schedule e))).
Proof. apply fk_frame_eq_k, schedule_frame_eq. Qed.

Lemma post_acquire_frame_eq e me m : frame_eq e (fst (post_acquire e me m)).
Proof.
  unfold post_acquire. destruct (get_mutex e m) as [s|]; [|repeat split].
  destruct (is_some (mx_lock s)); cbn [fst]; [repeat split|].
  split; [|split; reflexivity]. rewrite conts_map_others by tcont_tac. unfold set_caus.
  rewrite conts_upd_thread_keep by (intros t; reflexivity). reflexivity.
Qed.

Lemma release_lock_frame_eq e me m : frame_eq e (release_lock e me m).
Proof.
  unfold release_lock. destruct (get_mutex e m) as [s|]; [|repeat split]. cbv zeta.
  destruct (e_active _); [|repeat split]. split; [|split; reflexivity]. rewrite conts_map_others by tcont_tac. reflexivity.
Qed.

Lemma do_branch_fk_k me e0 e obj act blk :
  fk me e0 e -> fk me e0 (res_exec (do_branch e me obj act blk)).
Proof. intros H. unfold do_branch. apply schedule_fk_k, fk_upd_thread_me_k, H. Qed.

Lemma do_park_fk_k me e0 e : fk me e0 e -> fk me e0 (res_exec (do_park e me)).
Proof.
  intros H. unfold do_park. destruct (get_thread e me) as [t|]; [|exact H].
  destruct (t_token t); cbn [res_exec].
  - apply fk_upd_thread_me_k, H.
  - apply schedule_fk_k, fk_upd_thread_me_k, H.
Qed.

Lemma do_yield_fk_k me e0 e : fk me e0 e -> fk me e0 (res_exec (do_yield e me)).
Proof. intros H. unfold do_yield. apply schedule_fk_k, fk_upd_thread_me_k, H. Qed.

Lemma fk_upd_object_k me e0 e i f : fk me e0 e -> fk me e0 (upd_object e i f).
Proof. apply fk_frame_eq_k. repeat split. Qed.

Lemma release_lock_fk_k me e0 e me' m : fk me e0 e -> fk me e0 (release_lock e me' m).
Proof. apply fk_frame_eq_k, release_lock_frame_eq. Qed.

Lemma post_acquire_fk me e m : fk me e (fst (post_acquire e me m)).
Proof. apply fk_frame_eq, post_acquire_frame_eq. Qed.

(* ---- one tactic for all micro-operations ----
   The goal is [fk me e0 G], G the result of a micro-operation: matches over
   calls of helpers of Ops.v around the states of the outcomes.  fstep works
   from the outside: a scheduling helper in tail position is peeled off by its
   _k lemma; a call of a helper that returns more than a state is replaced by
   a variable, with its frame lemma as hypothesis Hfr; otherwise the innermost
   scrutinee is destructed.  fclose_step then peels the outermost update off a
   state, down to e0 or to a variable with its Hfr. *)
Ltac fclose_step :=
  match goal with
  | |- fk _ ?e ?e => apply fk_refl
  | H : fk ?me ?E ?x |- fk ?me _ ?x => apply (fk_trans me _ E x); [|exact H]
  | |- fk _ _ (log_op _ _ _) => apply fk_log_op_k
  | |- fk _ _ (ex_set_log ?e (_ :: e_log ?e)) => apply fk_log1_k; [reflexivity|]
  | |- fk _ _ (ex_set_log ?e (_ ++ e_log ?e)) => apply fk_log_k
  | |- fk _ _ (release_lock _ _ _) => apply release_lock_fk_k
  | |- fk _ _ (threads_unpark _ _ _) => apply fk_threads_unpark_k
  | |- fk _ _ (fold_left _ _ _) => apply fk_fold_unpark_k
  | |- fk _ _ (ex_set_threads ?e (e_threads ?e ++ _)) => apply fk_append_threads_k
  | |- fk _ _ (upd_object _ _ _) => apply fk_upd_object_k
  | |- fk ?me _ (push_cont _ ?me _) => unfold push_cont at 1; apply fk_upd_thread_me_k
  | |- fk ?me _ (push_guard _ ?me _ _) => unfold push_guard at 1; apply fk_upd_thread_me_k
  | |- fk ?me _ (drop_guard _ ?me _ _) => unfold drop_guard at 1; apply fk_upd_thread_me_k
  | |- fk ?me _ (causality_inc _ ?me) => unfold causality_inc at 1; apply fk_upd_thread_me_k
  | |- fk ?me _ (set_caus _ ?me _) => unfold set_caus at 1; apply fk_upd_thread_me_k
  | |- fk ?me _ (upd_thread _ ?me _) => apply fk_upd_thread_me_k
  | |- fk _ _ (map_others _ _ _ _) => apply fk_map_others_k; [tcont_tac|]
  | |- fk _ _ (set_slot _ _ _ _) => unfold set_slot at 1; apply fk_upd_hobj_k; [intros ?; reflexivity|]
  | |- fk _ _ (upd_hobj _ _ _) => apply fk_upd_hobj_k; [intros ?; reflexivity|]
  (* a record update of a field that fk does not read *)
  | |- fk _ _ (ex_set_objects ?e _) => apply (fk_frame_eq_k _ _ e); [exact (conj eq_refl (conj eq_refl eq_refl))|]
  | |- fk _ _ ?x =>
      let e := under_setter x in apply (fk_frame_eq_k _ _ e); [exact (conj eq_refl (conj eq_refl eq_refl))|]
  end.

Ltac fclose := cbn [res_exec lp_exec]; repeat fclose_step.

Lemma post_acquire_read_fk me e r : fk me e (fst (post_acquire_read e me r)).
Proof. unfold post_acquire_read. destr_all. all: cbn [fst]; fclose. Qed.

Lemma post_acquire_write_fk me e r : fk me e (fst (post_acquire_write e me r)).
Proof. unfold post_acquire_write. destr_all. all: cbn [fst]; fclose. Qed.

Lemma release_read_fk me e me' r : fk me e (res_exec (release_read e me' r)).
Proof. unfold release_read. cbv zeta. destr_all. all: fclose. Qed.

Lemma release_write_fk me e me' r : fk me e (res_exec (release_write e me' r)).
Proof. unfold release_write. cbv zeta. destr_all. all: fclose. Qed.

Lemma choose_store_fk me e seed : fk me e (fst (choose_store e seed)).
Proof. unfold choose_store. destr_all; cbn [fst]; apply fk_frame_eq; repeat split. Qed.

Ltac fstep :=
  match goal with
  | |- fk _ _ (res_exec (fst (schedule _))) => apply schedule_fk_k
  | |- fk _ _ (res_exec (do_branch _ _ _ _ _)) => apply do_branch_fk_k
  | |- fk _ _ (res_exec (do_park _ _)) => apply do_park_fk_k
  | |- fk _ _ (res_exec (do_yield _ _)) => apply do_yield_fk_k
  | |- fk ?me0 _ ?G =>
      match G with
      | context [post_acquire ?e ?me ?m] => frame_call (post_acquire_fk me e m) (post_acquire e me m)
      | context [post_acquire_read ?e ?me ?m] =>
          frame_call (post_acquire_read_fk me e m) (post_acquire_read e me m)
      | context [post_acquire_write ?e ?me ?m] =>
          frame_call (post_acquire_write_fk me e m) (post_acquire_write e me m)
      | context [release_read ?e ?me ?m] => frame_call (release_read_fk me0 e me m) (release_read e me m)
      | context [release_write ?e ?me ?m] => frame_call (release_write_fk me0 e me m) (release_write e me m)
      | context [choose_store ?e ?s] => frame_call (choose_store_fk me0 e s) (choose_store e s)
      end
  | |- context [match ?x with _ => _ end] =>
      lazymatch x with
      | context [match _ with _ => _ end] => fail
      | _ => destruct x
      end
  end; cbv beta iota.

Lemma load_post_fk me e a o : fk me e (lp_exec (load_post e me a o)).
Proof. unfold load_post. repeat fstep. all: fclose. Qed.

Ltac fstep' :=
  first [ match goal with
          | |- fk ?me0 _ ?G =>
              match G with
              | context [load_post ?e ?me ?a ?o] =>
                  let H := fresh "Hfr" in
                  pose proof (load_post_fk me e a o) as H;
                  destruct (load_post e me a o) as [[? ?]|[? ?]]; cbn [lp_exec] in H; cbv beta iota
              end
          end
        | fstep ].

Ltac fk_tac :=
  cbn [exec_micro]; unfold lift_path, mbind; cbv beta iota;
  repeat fstep'; fclose.

Definition slot_op (m : micro) : bool :=
  match m with MBoRegister _ _ _ _ _ | MWakeTake _ _ => true | _ => false end.
Definition poll_op (m : micro) : bool :=
  match m with MBoPoll _ _ _ _ _ | MBsPoll _ _ _ _ _ _ _ => true | _ => false end.

Lemma exec_micro_fk e me m :
  slot_op m = false -> poll_op m = false -> fk me e (res_exec (exec_micro e me m)).
Proof.
  intros Hs Hp. destruct m; try discriminate Hs; try discriminate Hp; clear Hs Hp.
  all: fk_tac.
  (* the lines of MLazyDrop and of MDropLocals are no LPoll lines *)
  - apply forallb_forall. intros x Hx. apply in_rev, in_map_iff in Hx. destruct Hx as (y & <- & _). reflexivity.
  - apply forallb_forall. intros x Hx. apply in_rev, in_flat_map in Hx. destruct Hx as (k & _ & Hk).
    apply in_app_or in Hk. destruct Hk as [Hk|[<-|[]]]; [|reflexivity].
    destruct (Nat.eqb k 2); [destruct Hk as [<-|[]]; reflexivity|destruct Hk].
Qed.

Lemma exec_micro_poll e me m :
  poll_op m = true -> exists ms, exec_micro e me m = MOk (push_cont (log_poll e me) me ms).
Proof. destruct m; try discriminate; intros _; eexists; reflexivity. Qed.

Lemma exec_micro_keeps_slots e me m :
  slot_op m = false ->
  wslots (res_exec (exec_micro e me m)) = wslots e /\
  ock me (e_threads e) (e_threads (res_exec (exec_micro e me m))).
Proof.
  intros Hs. destruct (poll_op m) eqn:Hp.
  - destruct (exec_micro_poll e me m Hp) as (ms & ->). cbn [res_exec].
    assert (H : fk me e (push_cont e me ms)) by (apply fk_upd_thread_me_k, fk_refl).
    unfold log_poll. destruct (get_thread e me); split; apply H.
  - split; apply (exec_micro_fk e me m Hs Hp).
Qed.

(* ================================================================== *)
(* 2. The exact step lemmas                                            *)
(* ================================================================== *)

Lemma cont_at_conts e a : cont_at e a = nth a (conts e) [].
Proof.
  unfold cont_at, conts. destruct (nth_error (e_threads e) a) as [t|] eqn:Ha.
  - symmetry. apply nth_error_nth. rewrite nth_error_map, Ha. reflexivity.
  - apply nth_error_None in Ha. rewrite nth_overflow; [reflexivity|]. rewrite map_length. exact Ha.
Qed.

Lemma cont_at_conts_eq e e' a : conts e' = conts e -> cont_at e' a = cont_at e a.
Proof. intros H. rewrite !cont_at_conts, H. reflexivity. Qed.

Lemma conts_log_op e me r : conts (log_op e me r) = conts e.
Proof. unfold log_op. destruct (get_thread e me); reflexivity. Qed.

Lemma cont_at_upd_thread_same e me f c :
  (forall t, t_cont (f t) = c (t_cont t)) -> me < length (e_threads e) ->
  cont_at (upd_thread e me f) me = c (cont_at e me).
Proof.
  intros Hf Hme. unfold cont_at, upd_thread. cbn [e_threads ex_set_threads].
  rewrite nth_error_list_upd_same.
  destruct (nth_error (e_threads e) me) as [t|] eqn:Ht; [apply Hf|].
  apply nth_error_None in Ht. lia.
Qed.

Lemma cont_at_upd_thread_other e me f a : a <> me -> cont_at (upd_thread e me f) a = cont_at e a.
Proof.
  intros Hne. unfold cont_at, upd_thread. cbn [e_threads ex_set_threads].
  rewrite nth_error_list_upd_other by exact (not_eq_sym Hne). reflexivity.
Qed.

Lemma cont_at_push_cont_same e me ms :
  me < length (e_threads e) -> cont_at (push_cont e me ms) me = ms ++ cont_at e me.
Proof. apply (cont_at_upd_thread_same e me _ (app ms)). intros t. reflexivity. Qed.

Lemma cont_at_push_cont_other e me ms a : a <> me -> cont_at (push_cont e me ms) a = cont_at e a.
Proof. apply cont_at_upd_thread_other. Qed.

Lemma cont_at_popc_same e me rest :
  me < length (e_threads e) -> cont_at (popc e me rest) me = rest.
Proof. apply (cont_at_upd_thread_same e me _ (fun _ => rest)). intros t. reflexivity. Qed.

Lemma cont_at_popc_other e me rest a : a <> me -> cont_at (popc e me rest) a = cont_at e a.
Proof. apply cont_at_upd_thread_other. Qed.

(* ---- post_acquire / release_lock on the lock word ---- *)
Lemma post_acquire_ok_iff e me m :
  snd (post_acquire e me m) = true <-> exists s, get_mutex e m = Some s /\ mx_lock s = None.
Proof.
  unfold post_acquire. destruct (get_mutex e m) as [s|].
  - destruct (mx_lock s) as [t|] eqn:Hl; cbn [is_some snd]; split.
    + discriminate.
    + intros (s' & Hs' & Hn). injection Hs' as <-. congruence.
    + intros _. eauto.
    + reflexivity.
  - cbn [snd]. split; [discriminate|]. intros (s & Hs & _). discriminate Hs.
Qed.

Lemma post_acquire_ok_lock e me m e1 :
  post_acquire e me m = (e1, true) ->
  exists s s1, get_mutex e m = Some s /\ mx_lock s = None /\
               get_mutex e1 m = Some s1 /\ mx_lock s1 = Some me /\ mx_sync s1 = mx_sync s.
Proof.
  intros Hpa. unfold post_acquire in Hpa. destruct (get_mutex e m) as [s|] eqn:Hg; [|discriminate Hpa].
  destruct (mx_lock s) as [t|] eqn:Hl; cbn [is_some] in Hpa; [discriminate Hpa|].
  injection Hpa as <-. exists s. eexists. split; [reflexivity|]. split; [exact Hl|].
  split.
  { rewrite (get_mutex_objects_eq _ _ m (e_objects_map_others _ _ _ _)).
    rewrite (get_mutex_objects_eq _ _ m (e_objects_set_caus _ _ _)).
    eapply get_mutex_upd_const. apply get_mutex_nth. exact Hg. }
  split; reflexivity.
Qed.

Lemma post_acquire_held e me m s t :
  get_mutex e m = Some s -> mx_lock s = Some t -> post_acquire e me m = (e, false).
Proof. intros Hg Hl. unfold post_acquire. rewrite Hg, Hl. reflexivity. Qed.

Lemma post_acquire_fail_cases e me m :
  snd (post_acquire e me m) = false ->
  get_mutex e m = None \/ exists s t, get_mutex e m = Some s /\ mx_lock s = Some t.
Proof.
  unfold post_acquire. destruct (get_mutex e m) as [s|]; [|left; reflexivity].
  destruct (mx_lock s) as [t|] eqn:Hl; cbn [is_some snd]; [|discriminate]. intros _. right. eauto.
Qed.

Lemma release_lock_unlocks e me m s :
  get_mutex e m = Some s ->
  exists s', get_mutex (release_lock e me m) m = Some s' /\ mx_lock s' = None.
Proof.
  intros Hg. pose proof (get_mutex_nth e m s Hg) as Hn.
  unfold release_lock. rewrite Hg. cbv zeta. rewrite e_active_upd_object.
  destruct (e_active e).
  - eexists. split.
    + rewrite (get_mutex_objects_eq _ _ m (e_objects_map_others _ _ _ _)).
      eapply get_mutex_upd_const. rewrite nth_error_objects_upd_same, Hn. reflexivity.
    + reflexivity.
  - eexists. split; [eapply get_mutex_upd_const; exact Hn|]. reflexivity.
Qed.

(* a Notify is not touched by operations on the lock word of a mutex *)
Lemma get_notify_upd_mutex e m s o n :
  get_mutex e m = Some s -> get_notify (upd_object e m (fun _ => OMutex o)) n = get_notify e n.
Proof.
  intros Hg. apply get_mutex_nth in Hg. unfold get_notify.
  destruct (Nat.eq_dec m n) as [<-|Hne].
  - rewrite nth_error_objects_upd_same, Hg. reflexivity.
  - rewrite nth_error_objects_upd_other by exact Hne. reflexivity.
Qed.

Lemma get_notify_post_acquire e me m n :
  get_notify (fst (post_acquire e me m)) n = get_notify e n.
Proof.
  unfold post_acquire. destruct (get_mutex e m) as [s|] eqn:Hg; [|reflexivity].
  destruct (is_some (mx_lock s)); cbn [fst]; [reflexivity|].
  rewrite (get_notify_objects_eq _ _ n (e_objects_map_others _ _ _ _)).
  rewrite (get_notify_objects_eq _ _ n (e_objects_set_caus _ _ _)).
  eapply get_notify_upd_mutex. exact Hg.
Qed.

Lemma get_notify_release_lock e me m n :
  get_notify (release_lock e me m) n = get_notify e n.
Proof.
  unfold release_lock. destruct (get_mutex e m) as [s|] eqn:Hg; [|reflexivity]. cbv zeta.
  rewrite e_active_upd_object. destruct (e_active e).
  - rewrite (get_notify_objects_eq _ _ n (e_objects_map_others _ _ _ _)).
    erewrite get_notify_upd_mutex.
    + eapply get_notify_upd_mutex. exact Hg.
    + eapply get_mutex_upd_const. apply get_mutex_nth. exact Hg.
  - eapply get_notify_upd_mutex. exact Hg.
Qed.

(* ---- the continuations pushed by the AtomicWaker operations ---- *)
Definition again (a : nat) (v : N) (w n k : nat) : list micro :=
  [MBranch a ALoad BNever; MBoLoad a v w n k false].
(* dropping a waker: the reference count of its Arc<Notify> goes down *)
Definition drop_waker (k : nat) : list micro := [MBranch k ARefDec BNever; MArcDecRaw k].
(* waker.wake(): notify, then the waker is consumed *)
Definition wake_waker (n k : nat) : list micro :=
  [MBranch n AOpaque BNever; MNotifyPost n] ++ drop_waker k.

Definition reg_cont (old : option (nat * nat)) (a : nat) (v : N) (w n k : nat) : list micro :=
  match old with Some (_, k') => drop_waker k' | None => [] end ++ MWakerRelease w :: again a v w n k.
Definition contended_cont (a : nat) (v : N) (w n k : nat) : list micro :=
  wake_waker n k ++ MYield :: again a v w n k.

Lemma slot_post_acquire e me w e1 ok : post_acquire e me w = (e1, ok) -> ho_waker (get_h e1 w) = slot e w.
Proof. intros Hpa. unfold slot, get_h. rewrite <- (proj1 (proj2 (post_acquire_frame_eq e me w))), Hpa. reflexivity. Qed.

Lemma exec_micro_register e me a v w n k :
  exec_micro e me (MBoRegister a v w n k) =
  if snd (post_acquire e me w)
  then MOk (push_cont (upd_hobj (fst (post_acquire e me w)) w (fun h => ho_set_waker h (Some (n, k))))
                      me (reg_cont (slot e w) a v w n k))
  else MOk (push_cont e me (contended_cont a v w n k)).
Proof.
  cbn [exec_micro]. destruct (post_acquire e me w) as [e1 ok] eqn:Hpa. cbn [fst snd]. destruct ok.
  - rewrite (slot_post_acquire e me w e1 true Hpa). unfold reg_cont. destruct (slot e w) as [[n' k']|]; reflexivity.
  - apply post_acquire_fail_id in Hpa. subst e1. reflexivity.
Qed.

Definition take_cont (wake : bool) (n k : nat) : list micro :=
  if wake then wake_waker n k ++ [MLog RUnit] else drop_waker k ++ [MLog (RVal 1)].

(* MWakeTake before its release: the lock acquired, the slot emptied *)
Definition take_held (e : exec) (me w : nat) : exec :=
  upd_hobj (fst (post_acquire e me w)) w (fun h => ho_set_waker h None).

Lemma exec_micro_wake_take e me w wake :
  exec_micro e me (MWakeTake w wake) =
  if snd (post_acquire e me w)
  then
    let e2 := release_lock (take_held e me w) me w in
    match slot e w with
    | None => MOk (log_op e2 me (if wake then RUnit else RVal 0))
    | Some (n, k) => MOk (push_cont e2 me (take_cont wake n k))
    end
  else MFail e PanicExpectLock.
Proof.
  unfold take_held, take_cont. cbn [exec_micro].
  destruct (post_acquire e me w) as [e1 ok] eqn:Hpa. cbn [fst snd]. destruct ok; cbn [negb].
  - rewrite (slot_post_acquire e me w e1 true Hpa). destruct (slot e w) as [[n k]|]; [destruct wake|]; reflexivity.
  - apply post_acquire_fail_id in Hpa. subst e1. reflexivity.
Qed.

(* ---- AtomicWaker::register, the try-acquire succeeds ---- *)
Theorem register_success_effect : forall e me a v w n k e1,
  post_acquire e me w = (e1, true) ->
  exists e2,
    exec_micro e me (MBoRegister a v w n k) = MOk e2 /\
    e2 = push_cont (upd_hobj e1 w (fun h => ho_set_waker h (Some (n, k)))) me (reg_cont (slot e w) a v w n k) /\
    (* the slot now holds the caller's waker *)
    (w < length (e_h e) -> slot e2 w = Some (n, k)) /\
    (forall w', w' <> w -> slot e2 w' = slot e w') /\
    (* the lock was free and is now held by the caller *)
    (exists s s2, get_mutex e w = Some s /\ mx_lock s = None /\
                  get_mutex e2 w = Some s2 /\ mx_lock s2 = Some me) /\
    (* the caller goes on with: drop of the replaced waker (if any), release, second poll;
       nobody else's continuation changes *)
    (me < length (e_threads e) -> cont_at e2 me = reg_cont (slot e w) a v w n k ++ cont_at e me) /\
    (forall b, b <> me -> cont_at e2 b = cont_at e b).
Proof.
  intros e me a v w n k e1 Hpa.
  pose proof (exec_micro_register e me a v w n k) as Hx. rewrite Hpa in Hx. cbn [fst snd] in Hx.
  eexists. split; [exact Hx|]. split; [reflexivity|].
  destruct (post_acquire_frame_eq e me w) as (Hc & Hh & _). rewrite Hpa in Hc, Hh. cbn [fst] in Hc, Hh.
  split; [|split; [|split; [|split]]].
  - intros Hw. rewrite slot_push_cont.
    rewrite slot_upd_hobj_same by (rewrite Hh; exact Hw). reflexivity.
  - intros w' Hne. rewrite slot_push_cont.
    rewrite slot_upd_hobj_other by exact Hne. apply slot_h_eq, Hh.
  - destruct (post_acquire_ok_lock e me w e1 Hpa) as (s & s1 & Hg & Hl & Hg1 & Hl1 & _).
    exists s, s1. split; [exact Hg|]. split; [exact Hl|]. split; [|exact Hl1].
    rewrite (get_mutex_objects_eq _ e1 w); [exact Hg1|reflexivity].
  - intros Hme. rewrite cont_at_push_cont_same.
    + f_equal. exact (cont_at_conts_eq e e1 me Hc).
    + change (e_threads (upd_hobj e1 w (fun h => ho_set_waker h (Some (n, k))))) with (e_threads e1).
      rewrite (conts_length _ _ Hc). exact Hme.
  - intros b Hne. rewrite cont_at_push_cont_other by exact Hne. exact (cont_at_conts_eq e e1 b Hc).
Qed.

(* "lock released afterwards": the MWakerRelease w of that continuation *)
Theorem waker_release_effect : forall e me w,
  exec_micro e me (MWakerRelease w) = MOk (release_lock e me w) /\
  (forall w', slot (release_lock e me w) w' = slot e w') /\
  (forall s, get_mutex e w = Some s ->
     exists s', get_mutex (release_lock e me w) w = Some s' /\ mx_lock s' = None) /\
  (forall b, cont_at (release_lock e me w) b = cont_at e b).
Proof.
  intros e me w. split; [reflexivity|]. split; [|split].
  - intros w'. apply slot_h_eq, release_lock_frame_eq.
  - intros s Hg. exact (release_lock_unlocks e me w s Hg).
  - intros b. apply cont_at_conts_eq, release_lock_frame_eq.
Qed.

(* ---- AtomicWaker::register, the try-acquire fails ---- *)
Theorem register_contended_effect : forall e me a v w n k,
  snd (post_acquire e me w) = false ->
  exec_micro e me (MBoRegister a v w n k) = MOk (push_cont e me (contended_cont a v w n k)) /\
  (* the slot (every slot) and the lock word are unchanged *)
  e_h (push_cont e me (contended_cont a v w n k)) = e_h e /\
  e_objects (push_cont e me (contended_cont a v w n k)) = e_objects e /\
  (* the task wakes itself: MNotifyPost n comes before the second poll *)
  (me < length (e_threads e) ->
   cont_at (push_cont e me (contended_cont a v w n k)) me =
     MBranch n AOpaque BNever :: MNotifyPost n :: drop_waker k ++ MYield :: again a v w n k ++ cont_at e me) /\
  (forall b, b <> me -> cont_at (push_cont e me (contended_cont a v w n k)) b = cont_at e b).
Proof.
  intros e me a v w n k Hf.
  pose proof (exec_micro_register e me a v w n k) as Hx. rewrite Hf in Hx.
  split; [exact Hx|]. split; [reflexivity|]. split; [reflexivity|]. split.
  - intros Hme. rewrite cont_at_push_cont_same by exact Hme. reflexivity.
  - intros b Hne. apply cont_at_push_cont_other, Hne.
Qed.

(* the try-acquire fails exactly when the lock word is taken (or w is no mutex) *)
Lemma register_contended_iff e me w :
  snd (post_acquire e me w) = false <->
  (get_mutex e w = None \/ exists s t, get_mutex e w = Some s /\ mx_lock s = Some t).
Proof.
  split; [apply post_acquire_fail_cases|].
  intros [Hn|(s & t & Hg & Hl)].
  - unfold post_acquire. rewrite Hn. reflexivity.
  - rewrite (post_acquire_held e me w s t Hg Hl). reflexivity.
Qed.

(* after the self-wake the task's next Notify::wait does not block
   (NotifyFacts.wake_wait1_not_blocking with waker = waiter): it pushes the
   non-blocking branch + the consuming MNotifyWait2, or takes the one spurious
   return (MYield), or the path itself panics in branch_spurious *)
Corollary register_contended_next_wait_not_blocking : forall e me n e1 e2,
  track_ok e -> exec_micro e me (MNotifyPost n) = MOk e1 -> steps_without_wait2 n e1 e2 ->
  me < length (e_threads e2) ->
  exists s2, get_notify e2 n = Some s2 /\ nt_notified s2 = true /\
    ((exists e3, exec_micro e2 me (MNotifyWait1 n) = MOk e3 /\
        (cont_at e3 me = MBranch n AOpaque BNever :: MNotifyWait2 n :: cont_at e2 me \/
         cont_at e3 me = MYield :: cont_at e2 me)) \/
     (exists x, exec_micro e2 me (MNotifyWait1 n) = MFail e2 (PanicPath x))).
Proof.
  intros e me n e1 e2 Htr Hp Hs Hlt.
  destruct (wake_wait1_not_blocking e me n e1 e2 me Htr Hp Hs) as (s2 & Hg & Hn & Hcases).
  exists s2. split; [exact Hg|]. split; [exact Hn|].
  destruct Hcases as [[_ Hx]|[_ [(p & _ & Hx)|[(p & _ & Hx)|(x & _ & Hx)]]]].
  - left. eexists. split; [exact Hx|]. left. rewrite cont_at_push_cont_same by exact Hlt. reflexivity.
  - left. eexists. split; [exact Hx|]. left. rewrite cont_at_push_cont_same by exact Hlt. reflexivity.
  - left. eexists. split; [exact Hx|]. right. rewrite cont_at_push_cont_same by exact Hlt. reflexivity.
  - right. eauto.
Qed.

(* ---- AtomicWaker::wake and AtomicWaker::take_waker ---- *)
Lemma take_released e me w :
  snd (post_acquire e me w) = true ->
  let e2 := release_lock (take_held e me w) me w in
  (exists s s', get_mutex e w = Some s /\ mx_lock s = None /\
                get_mutex e2 w = Some s' /\ mx_lock s' = None) /\
  slot e2 w = None /\
  (forall w', w' <> w -> slot e2 w' = slot e w') /\
  (forall n, get_notify e2 n = get_notify e n) /\
  conts e2 = conts e.
Proof.
  intros Hok e2.
  assert (Hpa : post_acquire e me w = (fst (post_acquire e me w), true))
    by (rewrite <- Hok; apply surjective_pairing).
  destruct (post_acquire_ok_lock e me w _ Hpa) as (s & s1 & Hg & Hl & Hg1 & _).
  destruct (release_lock_unlocks (take_held e me w) me w s1 Hg1) as (s2 & Hg2 & Hl2).
  destruct (post_acquire_frame_eq e me w) as (Hc1 & Hh1 & _).
  destruct (release_lock_frame_eq (take_held e me w) me w) as (Hc2 & Hh2 & _). fold e2 in Hc2, Hh2.
  split; [exists s, s2; repeat split; assumption|]. split; [|split; [|split]].
  - rewrite (slot_h_eq _ _ w Hh2). unfold take_held.
    destruct (Nat.lt_ge_cases w (length (e_h (fst (post_acquire e me w))))) as [Hlt|Hge].
    + rewrite slot_upd_hobj_same by exact Hlt. reflexivity.
    + rewrite slot_upd_hobj_out by exact Hge. apply slot_out, Hge.
  - intros w' Hne. rewrite (slot_h_eq _ _ w' Hh2). unfold take_held.
    rewrite slot_upd_hobj_other by exact Hne. apply slot_h_eq, Hh1.
  - intros n. unfold e2. rewrite get_notify_release_lock. exact (get_notify_post_acquire e me w n).
  - rewrite Hc2. exact Hc1.
Qed.

Lemma take_from_released e me w wake e' :
  exec_micro e me (MWakeTake w wake) = MOk e' ->
  let e2 := release_lock (take_held e me w) me w in
  snd (post_acquire e me w) = true /\ mono e2 e' /\
  e_objects e' = e_objects e2 /\ e_h e' = e_h e2 /\
  (forall b, b <> me -> cont_at e' b = cont_at e2 b) /\
  match slot e w with
  | Some (n, k) => e' = push_cont e2 me (take_cont wake n k)
  | None => cont_at e' me = cont_at e2 me
  end.
Proof.
  intros Hx e2. rewrite exec_micro_wake_take in Hx.
  destruct (snd (post_acquire e me w)); [|discriminate Hx]. cbv zeta in Hx. fold e2 in Hx.
  split; [reflexivity|]. destruct (slot e w) as [[n k]|]; injection Hx as <-.
  - split; [apply mono_push_cont_k, mono_refl|]. split; [apply e_objects_push_cont|].
    split; [reflexivity|]. split; [|reflexivity]. intros b Hne. apply cont_at_push_cont_other, Hne.
  - split; [apply mono_log_op_k, mono_refl|]. split; [apply e_objects_log_op|].
    split; [unfold log_op; destruct (get_thread e2 me); reflexivity|].
    split; [intros b _|]; apply cont_at_conts_eq, conts_log_op.
Qed.

Lemma take_effect : forall e me w wake e',
  exec_micro e me (MWakeTake w wake) = MOk e' ->
  (* the blocking acquire found the lock free; it is free again afterwards:
     acquire, take and release are ONE micro-operation (no scheduling point) *)
  (exists s s', get_mutex e w = Some s /\ mx_lock s = None /\
                get_mutex e' w = Some s' /\ mx_lock s' = None) /\
  slot e' w = None /\
  (forall w', w' <> w -> slot e' w' = slot e w') /\
  (* the take itself touches no Notify *)
  (forall n, get_notify e' n = get_notify e n) /\
  (forall b, b <> me -> cont_at e' b = cont_at e b) /\
  match slot e w with
  | Some (n, k) => me < length (e_threads e) -> cont_at e' me = take_cont wake n k ++ cont_at e me
  | None => cont_at e' me = cont_at e me
  end.
Proof.
  intros e me w wake e' Hx.
  destruct (take_from_released e me w wake e' Hx) as (Hok & _ & Ho & Hh & Hb & Hme).
  destruct (take_released e me w Hok) as ((s & s2 & Hg & Hl & Hg2 & Hl2) & Hslot & Hoth & Hnot & Hc2).
  set (e2 := release_lock (take_held e me w) me w) in *.
  split; [exists s, s2; rewrite (get_mutex_objects_eq _ _ w Ho); repeat split; assumption|].
  split; [rewrite (slot_h_eq _ _ w Hh); exact Hslot|].
  split; [intros w' Hne; rewrite (slot_h_eq _ _ w' Hh); apply Hoth, Hne|].
  split; [intros n; rewrite (get_notify_objects_eq _ _ n Ho); apply Hnot|].
  split; [intros b Hne; rewrite (Hb b Hne); apply cont_at_conts_eq, Hc2|].
  destruct (slot e w) as [[n k]|].
  - intros Hlt. subst e'. rewrite cont_at_push_cont_same by (rewrite (conts_length _ _ Hc2); exact Hlt).
    f_equal. apply cont_at_conts_eq, Hc2.
  - rewrite Hme. apply cont_at_conts_eq, Hc2.
Qed.

(* AtomicWaker::wake: the stored waker (if any) is taken out and woken: the
   next micro-operations of the waking thread are the scheduling point of
   Notify::notify and MNotifyPost n, for the Notify n of the stored waker;
   with an empty slot nobody is notified *)
Theorem wake_take_effect : forall e me w e',
  exec_micro e me (MWakeTake w true) = MOk e' ->
  (exists s s', get_mutex e w = Some s /\ mx_lock s = None /\
                get_mutex e' w = Some s' /\ mx_lock s' = None) /\
  slot e' w = None /\
  (forall w', w' <> w -> slot e' w' = slot e w') /\
  (forall n, get_notify e' n = get_notify e n) /\
  (forall b, b <> me -> cont_at e' b = cont_at e b) /\
  match slot e w with
  | Some (n, k) =>
      me < length (e_threads e) ->
      cont_at e' me = MBranch n AOpaque BNever :: MNotifyPost n :: drop_waker k ++ MLog RUnit :: cont_at e me
  | None => cont_at e' me = cont_at e me
  end.
Proof. intros e me w e' Hx. exact (take_effect e me w true e' Hx). Qed.

(* AtomicWaker::take_waker: the same without the wake; the waker is dropped *)
Theorem take_waker_effect : forall e me w e',
  exec_micro e me (MWakeTake w false) = MOk e' ->
  (exists s s', get_mutex e w = Some s /\ mx_lock s = None /\
                get_mutex e' w = Some s' /\ mx_lock s' = None) /\
  slot e' w = None /\
  (forall w', w' <> w -> slot e' w' = slot e w') /\
  (forall n, get_notify e' n = get_notify e n) /\
  (forall b, b <> me -> cont_at e' b = cont_at e b) /\
  match slot e w with
  | Some (n, k) =>
      me < length (e_threads e) -> cont_at e' me = drop_waker k ++ MLog (RVal 1) :: cont_at e me
  | None => cont_at e' me = cont_at e me
  end.
Proof. intros e me w e' Hx. exact (take_effect e me w false e' Hx). Qed.

(* while the lock word of w is taken, no take can happen: the micro-operation
   fails (and the blocking branch before it keeps the thread from getting
   there: see wake_branch_blocks_while_locked) *)
Lemma take_fails_while_locked e me w wake :
  snd (post_acquire e me w) = false -> exec_micro e me (MWakeTake w wake) = MFail e PanicExpectLock.
Proof. intros H. rewrite exec_micro_wake_take, H. reflexivity. Qed.

(* register_success_effect needs [w < length (e_h e)] (w is a declared object):
   on a state whose harness table is shorter than its object table the lock is
   taken and nothing is stored.  Not a reachable state: e_h and the declared
   part of e_objects are built together by init_exec, and no micro-operation
   creates a mutex. *)
Definition cex_reg_state : exec :=
  ex_set_h (init_exec (mkProg (mkConfig 5 1000 None None None false) [DWaker] [[]])
                      (path_new 1000 None true)) [].

Lemma register_success_needs_declared :
  snd (post_acquire cex_reg_state 0 0) = true /\
  match exec_micro cex_reg_state 0 (MBoRegister 0 1 0 7 8) with
  | MOk e2 => slot e2 0 = None /\ option_map mx_lock (get_mutex e2 0) = Some (Some 0)
  | MFail _ _ => False
  end.
Proof. vm_compute. repeat split; reflexivity. Qed.

(* ================================================================== *)
(* 3. The slot under ALL micro-operations; wake_wakes_latest           *)
(* ================================================================== *)

(* the content of slot w after micro-operation m of thread me in state e *)
Definition slot_after (e : exec) (me : nat) (m : micro) (w : nat) : option (nat * nat) :=
  match m with
  | MBoRegister _ _ w' n k =>
      if Nat.eqb w' w && snd (post_acquire e me w') && Nat.ltb w (length (e_h e))
      then Some (n, k) else slot e w
  | MWakeTake w' _ => if Nat.eqb w' w && snd (post_acquire e me w') then None else slot e w
  | _ => slot e w
  end.

(* THE INVARIANT: the slot changes only in a successful registration (to the
   registering task's own waker) and in a take (to None).  All micro-ops,
   successful or panicking. *)
Theorem slot_step : forall e me m w,
  slot (res_exec (exec_micro e me m)) w = slot_after e me m w.
Proof.
  intros e me m w. destruct (slot_op m) eqn:Hop.
  - destruct m; try discriminate Hop; clear Hop; cbn [slot_after].
    + (* MBoRegister *)
      rewrite exec_micro_register. destruct (post_acquire e me w0) as [e1 ok] eqn:Hpa. cbn [fst snd].
      pose proof (proj1 (proj2 (post_acquire_frame_eq e me w0))) as Hh. rewrite Hpa in Hh. cbn [fst] in Hh.
      destruct ok; cbn [res_exec]; [|rewrite andb_false_r; reflexivity].
      rewrite andb_true_r.
      rewrite slot_push_cont.
      destruct (Nat.eqb_spec w0 w) as [->|Hne]; cbn [andb].
      * destruct (Nat.ltb_spec w (length (e_h e))) as [Hlt|Hge].
        -- rewrite slot_upd_hobj_same by (rewrite Hh; exact Hlt). reflexivity.
        -- rewrite slot_upd_hobj_out by (rewrite Hh; exact Hge). apply slot_h_eq, Hh.
      * rewrite slot_upd_hobj_other by exact (not_eq_sym Hne). apply slot_h_eq, Hh.
    + (* MWakeTake *)
      destruct (exec_micro e me (MWakeTake w0 wake)) as [e'|e' pn] eqn:Hx; cbn [res_exec].
      * destruct (take_effect e me w0 wake e' Hx) as (_ & Hs & Ho & _).
        rewrite (proj1 (take_from_released e me w0 wake e' Hx)), andb_true_r. destruct (Nat.eqb_spec w0 w) as [->|Hne]; [exact Hs|].
        apply Ho. intros H. apply Hne. symmetry. exact H.
      * rewrite exec_micro_wake_take in Hx. destruct (snd (post_acquire e me w0)) eqn:Hok.
        -- cbv zeta in Hx. destruct (slot e w0) as [[n k]|]; discriminate Hx.
        -- injection Hx as <- _. rewrite andb_false_r. reflexivity.
  - destruct (exec_micro_keeps_slots e me m Hop) as [Hw _].
    rewrite slot_wslots, Hw, <- slot_wslots. destruct m; try discriminate Hop; reflexivity.
Qed.

(* the declared objects: e_h never changes its length *)
Lemma h_length_step e me m : length (e_h (res_exec (exec_micro e me m))) = length (e_h e).
Proof. destruct (exec_micro_mono e me m) as (_ & _ & [Hl _] & _). exact Hl. Qed.

(* the continuations of the other threads: all micro-ops *)
Theorem others_cont_step : forall e me m a,
  a <> me -> a < length (e_threads e) -> cont_at (res_exec (exec_micro e me m)) a = cont_at e a.
Proof.
  intros e me m a Hne Ha. destruct (slot_op m) eqn:Hop.
  - destruct m; try discriminate Hop; clear Hop.
    + rewrite exec_micro_register. destruct (snd (post_acquire e me w)); cbn [res_exec];
        rewrite cont_at_push_cont_other by exact Hne; [|reflexivity].
      apply cont_at_conts_eq, (post_acquire_frame_eq e me w).
    + rewrite exec_micro_wake_take. destruct (snd (post_acquire e me w)); [|reflexivity]. cbv zeta.
      assert (Hc : conts (release_lock (take_held e me w) me w) = conts e).
      { rewrite (proj1 (release_lock_frame_eq _ me w)). apply (post_acquire_frame_eq e me w). }
      destruct (slot e w) as [[n k]|]; cbn [res_exec].
      * rewrite cont_at_push_cont_other by exact Hne. apply cont_at_conts_eq, Hc.
      * apply cont_at_conts_eq. rewrite conts_log_op. exact Hc.
  - destruct (exec_micro_keeps_slots e me m Hop) as [_ Ho].
    destruct (nth_error (e_threads e) a) as [t|] eqn:Ht; [|apply nth_error_None in Ht; lia].
    destruct (Ho a t Hne Ht) as (t' & Ht' & Hc). unfold cont_at. rewrite Ht, Ht'. exact Hc.
Qed.

(* ---- traces: which slot events happened ---- *)
Inductive wev :=
  | WReg (t n k : nat)                      (* thread t registered the waker (n, k) *)
  | WTake (t : nat) (old : option (nat * nat)). (* thread t took [old] out of the slot *)

Definition wev_of (e : exec) (me : nat) (m : micro) (w : nat) : list wev :=
  match m with
  | MBoRegister _ _ w' n k =>
      if Nat.eqb w' w && snd (post_acquire e me w') then [WReg me n k] else []
  | MWakeTake w' _ => if Nat.eqb w' w then [WTake me (slot e w)] else []
  | _ => []
  end.

Definition replay1 (s : option (nat * nat)) (ev : wev) : option (nat * nat) :=
  match ev with WReg _ n k => Some (n, k) | WTake _ _ => None end.
Definition replay (evs : list wev) (s : option (nat * nat)) : option (nat * nat) :=
  fold_left replay1 evs s.

(* the closure of: any thread executes any micro-operation (successfully); the
   runtime pops a continuation.  Larger than the runs of the model. *)
Inductive wsteps (w : nat) : exec -> list wev -> exec -> Prop :=
  | ws_refl e : wsteps w e [] e
  | ws_micro e me m e1 evs e2 :
      exec_micro e me m = MOk e1 -> wsteps w e1 evs e2 -> wsteps w e (wev_of e me m w ++ evs) e2
  | ws_pop e me rest evs e2 : wsteps w (popc e me rest) evs e2 -> wsteps w e evs e2.

Lemma slot_after_replay e me m w e1 :
  w < length (e_h e) -> exec_micro e me m = MOk e1 ->
  slot_after e me m w = replay (wev_of e me m w) (slot e w).
Proof.
  intros Hw Hx. destruct m; try reflexivity; cbn [slot_after wev_of].
  - apply Nat.ltb_lt in Hw. rewrite Hw, andb_true_r.
    destruct (Nat.eqb w0 w && snd (post_acquire e me w0)); reflexivity.
  - destruct (Nat.eqb w0 w) eqn:Hww; [|reflexivity]. cbn [andb replay fold_left replay1].
    rewrite (proj1 (take_from_released e me w0 wake e1 Hx)). reflexivity.
Qed.

(* the slot holds the waker of the LATEST successful registration, unless a
   take came after it *)
Theorem wake_wakes_latest : forall w e evs e',
  wsteps w e evs e' -> w < length (e_h e) ->
  slot e' w = replay evs (slot e w) /\ length (e_h e') = length (e_h e).
Proof.
  intros w e evs e' H. induction H as [e|e me m e1 evs e2 Hx Hs IH|e me rest evs e2 Hs IH]; intros Hw.
  - split; reflexivity.
  - pose proof (h_length_step e me m) as Hl. rewrite Hx in Hl. cbn [res_exec] in Hl.
    destruct (IH ltac:(rewrite Hl; exact Hw)) as [IH1 IH2]. split; [|congruence].
    rewrite IH1. unfold replay. rewrite fold_left_app. f_equal.
    pose proof (slot_step e me m w) as Hst. rewrite Hx in Hst. cbn [res_exec] in Hst.
    rewrite Hst. apply (slot_after_replay e me m w e1 Hw Hx).
  - destruct (IH Hw) as [IH1 IH2]. split; [exact IH1|exact IH2].
Qed.

(* the last event decides *)
Lemma replay_last evs ev s : replay (evs ++ [ev]) s = replay1 None ev.
Proof. unfold replay. rewrite fold_left_app. cbn [fold_left]. destruct ev; reflexivity. Qed.

Corollary slot_is_latest_registration : forall w e evs t n k e',
  wsteps w e (evs ++ [WReg t n k]) e' -> w < length (e_h e) -> slot e' w = Some (n, k).
Proof.
  intros w e evs t n k e' H Hw. destruct (wake_wakes_latest w e _ e' H Hw) as [Hs _].
  rewrite Hs, replay_last. reflexivity.
Qed.

Corollary slot_empty_after_take : forall w e evs t old e',
  wsteps w e (evs ++ [WTake t old]) e' -> w < length (e_h e) -> slot e' w = None.
Proof.
  intros w e evs t old e' H Hw. destruct (wake_wakes_latest w e _ e' H Hw) as [Hs _].
  rewrite Hs, replay_last. reflexivity.
Qed.

Corollary slot_unchanged_without_event : forall w e e',
  wsteps w e [] e' -> w < length (e_h e) -> slot e' w = slot e w.
Proof. intros w e e' H Hw. destruct (wake_wakes_latest w e _ e' H Hw) as [Hs _]. exact Hs. Qed.

(* hence AtomicWaker::wake notifies the Notify of the most recently registered
   task, or nobody: the waking thread's next micro-operations are the
   scheduling point of Notify::notify and MNotifyPost n for that n, or its
   continuation is unchanged and no Notify is touched *)
Theorem wake_notifies_latest : forall w e evs e' a e'',
  wsteps w e evs e' -> w < length (e_h e) -> a < length (e_threads e') ->
  exec_micro e' a (MWakeTake w true) = MOk e'' ->
  slot e'' w = None /\ (forall n, get_notify e'' n = get_notify e' n) /\
  match replay evs (slot e w) with
  | Some (n, k) =>
      cont_at e'' a = MBranch n AOpaque BNever :: MNotifyPost n :: drop_waker k ++ MLog RUnit :: cont_at e' a
  | None => cont_at e'' a = cont_at e' a
  end.
Proof.
  intros w e evs e' a e'' Hs Hw Ha Hx. destruct (wake_wakes_latest w e evs e' Hs Hw) as [Hsl _].
  destruct (wake_take_effect e' a w e'' Hx) as (_ & H1 & _ & H2 & _ & H3).
  split; [exact H1|]. split; [exact H2|]. rewrite <- Hsl.
  destruct (slot e' w) as [[n k]|]; [apply H3, Ha|exact H3].
Qed.

(* the runs of the model are such sequences *)
Lemma steps_wsteps w e e' : steps e e' -> exists evs, wsteps w e evs e'.
Proof.
  intros H. induction H as [e|e me t m rest e1 e2 Ha Ht Hc Hx Hs (evs & IH)].
  - exists []. apply ws_refl.
  - eexists. eapply ws_pop, ws_micro; [exact Hx|exact IH].
Qed.

(* ================================================================== *)
(* 4. Runs: a registered waker that is woken is not lost               *)
(* ================================================================== *)

(* the steps of Scheduler::run (SyncMono.steps) whose micro-operations satisfy
   P (P sees the popped state, the thread and the micro-operation) *)
Inductive rsteps (P : exec -> nat -> micro -> Prop) : exec -> exec -> Prop :=
  | rs_refl e : rsteps P e e
  | rs_step e me t m rest e1 e2 :
      e_active e = Some me -> nth_error (e_threads e) me = Some t -> t_cont t = m :: rest ->
      P (popc e me rest) me m ->
      exec_micro (popc e me rest) me m = MOk e1 -> rsteps P e1 e2 -> rsteps P e e2.

Lemma rsteps_steps P e e' : rsteps P e e' -> steps e e'.
Proof.
  intros H. induction H as [e|e me t m rest e1 e2 Ha Ht Hc Hp Hx Hs IH]; [apply steps_refl|].
  eapply steps_step; eassumption.
Qed.

Lemma steps_rsteps e e' : steps e e' -> rsteps (fun _ _ _ => True) e e'.
Proof.
  intros H. induction H as [e|e me t m rest e1 e2 Ha Ht Hc Hx Hs IH]; [apply rs_refl|].
  eapply rs_step; eauto.
Qed.

Lemma rsteps_weaken (P Q : exec -> nat -> micro -> Prop) e e' :
  (forall e me m, P e me m -> Q e me m) -> rsteps P e e' -> rsteps Q e e'.
Proof.
  intros HPQ H. induction H as [e|e me t m rest e1 e2 Ha Ht Hc Hp Hx Hs IH]; [apply rs_refl|].
  eapply rs_step; eauto.
Qed.

Lemma rsteps_trans P e1 e2 e3 : rsteps P e1 e2 -> rsteps P e2 e3 -> rsteps P e1 e3.
Proof. intros H12 H23. induction H12; [exact H23|]. eapply rs_step; eauto. Qed.

(* micro-operations that are no slot event on w *)
Definition quiet (w : nat) : exec -> nat -> micro -> Prop := fun e me m => wev_of e me m w = [].

Lemma rsteps_quiet_wsteps w e e' : rsteps (quiet w) e e' -> wsteps w e [] e'.
Proof.
  intros H. induction H as [e|e me t m rest e1 e2 Ha Ht Hc Hp Hx Hs IH]; [apply ws_refl|].
  eapply ws_pop. unfold quiet in Hp.
  pose proof (ws_micro w _ me m e1 [] e2 Hx IH) as H'. rewrite Hp in H'. exact H'.
Qed.

Theorem quiet_steps_keep_slot : forall w e e',
  rsteps (quiet w) e e' -> w < length (e_h e) -> slot e' w = slot e w.
Proof. intros w e e' H Hw. apply slot_unchanged_without_event; [apply rsteps_quiet_wsteps, H|exact Hw]. Qed.

Lemma do_branch_conts e me obj act blk : conts (res_exec (do_branch e me obj act blk)) = conts e.
Proof.
  unfold do_branch. rewrite (proj1 (schedule_frame_eq _)). apply conts_upd_thread_keep.
  intros t. destruct (block_now e obj blk); reflexivity.
Qed.

Lemma skip_conts e me m : is_skip m = true -> conts (res_exec (exec_micro e me m)) = conts e.
Proof.
  intros Hs. destruct m; try discriminate Hs; clear Hs; cbn [exec_micro].
  - apply do_branch_conts.
  - unfold do_park. destruct (get_thread e me) as [t|]; [|reflexivity].
    destruct (t_token t); cbn [res_exec].
    + apply conts_upd_thread_keep. intros t0. reflexivity.
    + rewrite (proj1 (schedule_frame_eq _)). apply conts_upd_thread_keep. intros t0. reflexivity.
  - destruct (get_arc e k) as [s|]; [|reflexivity]. destruct (arc_cnt s) as [|cnt]; [reflexivity|].
    cbn [res_exec]. destruct (Nat.eqb cnt 0); [|reflexivity].
    unfold set_caus. rewrite conts_upd_thread_keep by (intros t; reflexivity). reflexivity.
Qed.

(* ---- the wake in flight ---- *)

(* thread a is about to notify n: the tail of AtomicWaker::wake *)
Definition wake_pending (e : exec) (a n : nat) : Prop :=
  exists c, cont_at e a = MBranch n AOpaque BNever :: MNotifyPost n :: c \/
            cont_at e a = MNotifyPost n :: c.
(* the notification has been posted and not consumed *)
Definition delivered (e : exec) (n : nat) : Prop :=
  exists s, get_notify e n = Some s /\ nt_notified s = true.

Definition no_wait2 (n : nat) : exec -> nat -> micro -> Prop := fun _ _ m => m <> MNotifyWait2 n.

Lemma track_ok_popc e me rest : track_ok e -> track_ok (popc e me rest).
Proof. intros H. eapply track_ok_same; [| |exact H]; reflexivity. Qed.

Lemma popc_threads_length e me rest : length (e_threads (popc e me rest)) = length (e_threads e).
Proof. unfold popc, upd_thread. cbn [e_threads ex_set_threads]. apply list_upd_length. Qed.

Lemma cont_at_nth e a t : nth_error (e_threads e) a = Some t -> cont_at e a = t_cont t.
Proof. intros H. unfold cont_at. rewrite H. reflexivity. Qed.

Lemma step_conts e me rest m e1 a :
  exec_micro (popc e me rest) me m = MOk e1 -> a < length (e_threads e) ->
  a < length (e_threads e1) /\
  (a <> me -> cont_at e1 a = cont_at e a) /\
  (a = me -> is_skip m = true -> cont_at e1 a = rest).
Proof.
  intros Hx Ha. pose proof (exec_micro_threads_length _ _ _ _ Hx) as Hlen.
  rewrite popc_threads_length in Hlen. split; [lia|]. split.
  - intros Hne. pose proof (others_cont_step (popc e me rest) me m a Hne) as Ho.
    rewrite Hx, popc_threads_length in Ho. cbn [res_exec] in Ho.
    rewrite (Ho Ha). apply cont_at_popc_other, Hne.
  - intros -> Hsk. pose proof (skip_conts (popc e me rest) me m Hsk) as Hk. rewrite Hx in Hk. cbn [res_exec] in Hk.
    rewrite (cont_at_conts_eq _ _ me Hk). apply cont_at_popc_same, Ha.
Qed.

(* THE RUN-LEVEL INVARIANT: from the moment the waking thread has the tail of
   wake() in its continuation, and as long as nobody consumes a notification
   of n, either the wake is still in flight in THAT thread's continuation
   (nobody else can remove it) or the flag of n is set *)
Theorem wake_in_flight_or_delivered : forall a n e e',
  rsteps (no_wait2 n) e e' ->
  track_ok e -> a < length (e_threads e) -> wake_pending e a n \/ delivered e n ->
  track_ok e' /\ a < length (e_threads e') /\ (wake_pending e' a n \/ delivered e' n).
Proof.
  intros a n e e' H. induction H as [e|e me t m rest e1 e2 Hact Ht Hc Hp Hx Hs IH]; intros Htr Ha Hinv.
  - auto.
  - pose proof (track_ok_popc e me rest Htr) as Htrp.
    pose proof (exec_micro_track_ok _ _ _ _ Htrp Hx) as Htr1.
    destruct (step_conts e me rest m e1 a Hx Ha) as (Ha1 & Hoth & Hskip).
    apply IH; [exact Htr1|exact Ha1|].
    destruct Hinv as [Hpend|(s & Hg & Hn)].
    + destruct (Nat.eq_dec a me) as [->|Hne].
      * (* the waking thread itself moves: its head is the branch or the post *)
        destruct Hpend as (c & Hpd). rewrite (cont_at_nth e me t Ht), Hc in Hpd. destruct Hpd as [Hpd|Hpd].
        -- injection Hpd as -> ->. left. exists c. right. exact (Hskip eq_refl eq_refl).
        -- injection Hpd as -> ->. right.
           assert (Hg : exists s, get_notify (popc e me c) n = Some s).
           { rewrite exec_micro_notify_post in Hx. destruct (get_notify (popc e me c) n) as [s|]; [eauto|discriminate Hx]. }
           destruct Hg as (s & Hg).
           destruct (notify_post_publishes _ me n s e1 Hg Hx) as (s1 & Hg1 & _ & _ & Hn1).
           exists s1. auto.
      * left. destruct Hpend as (c & Hpd). exists c. rewrite (Hoth Hne). exact Hpd.
    + right. assert (Hgp : get_notify (popc e me rest) n = Some s) by exact Hg.
      destruct (notified_persists _ me m e1 n s Htrp Hgp Hn Hx Hp) as (s' & Hg' & Hn' & _).
      exists s'. auto.
Qed.

(* the three ways through the first half of Notify::wait: the flag is set, the
   one spurious return, the flag is clear *)
Lemma wait1_cases e b n s e3 :
  get_notify e n = Some s -> b < length (e_threads e) ->
  exec_micro e b (MNotifyWait1 n) = MOk e3 ->
  (nt_notified s = true /\
   cont_at e3 b = MBranch n AOpaque BNever :: MNotifyWait2 n :: cont_at e b) \/
  (nt_spurious s = true /\ nt_did_spur s = false /\ cont_at e3 b = MYield :: cont_at e b /\
   exists s3, get_notify e3 n = Some s3 /\ nt_did_spur s3 = true /\ nt_notified s3 = nt_notified s) \/
  (nt_notified s = false /\
   cont_at e3 b = MBranch n AOpaque BAlways :: MNotifyWait2 n :: cont_at e b).
Proof.
  intros Hg Hb Hw1. rewrite (exec_micro_notify_wait1 e b n s Hg) in Hw1. unfold wait1_cont in Hw1.
  assert (Hpush : forall (e0 : exec) ms, e_threads e0 = e_threads e -> cont_at (push_cont e0 b ms) b = ms ++ cont_at e b).
  { intros e0 ms He0. rewrite cont_at_push_cont_same by (rewrite He0; exact Hb).
    unfold cont_at. rewrite He0. reflexivity. }
  assert (Hplain : forall (e0 : exec), e_threads e0 = e_threads e ->
            MOk (push_cont e0 b [MBranch n AOpaque (if nt_notified s then BNever else BAlways); MNotifyWait2 n]) = MOk e3 ->
            (nt_notified s = true /\ cont_at e3 b = MBranch n AOpaque BNever :: MNotifyWait2 n :: cont_at e b) \/
            (nt_notified s = false /\ cont_at e3 b = MBranch n AOpaque BAlways :: MNotifyWait2 n :: cont_at e b)).
  { intros e0 He0 H. injection H as <-. rewrite (Hpush e0 _ He0).
    destruct (nt_notified s); [left|right]; split; reflexivity. }
  destruct (nt_spurious s && negb (nt_did_spur s)) eqn:Hsd.
  - apply andb_prop in Hsd. destruct Hsd as [Hsp Hds]. apply negb_true_iff in Hds.
    destruct (branch_spurious (e_path e)) as [[p [|]]|y]; [| |discriminate Hw1].
    + injection Hw1 as <-. right. left. split; [exact Hsp|]. split; [exact Hds|]. split.
      * apply (Hpush (upd_object (ex_set_path e p) n _) [MYield]). reflexivity.
      * eexists. split.
        { unfold push_cont. rewrite (get_notify_objects_eq _ _ n (e_objects_upd_thread _ _ _)).
          eapply get_notify_upd_const. apply get_notify_nth. exact Hg. }
        split; reflexivity.
    + destruct (Hplain (ex_set_path e p) eq_refl Hw1) as [H|H]; [left; exact H|right; right; exact H].
  - destruct (Hplain e eq_refl Hw1) as [H|H]; [left; exact H|right; right; exact H].
Qed.

(* with the flag set, Notify::wait never pushes the blocking branch ... *)
Theorem delivered_wait1_not_blocking : forall e n b e3,
  delivered e n -> b < length (e_threads e) -> exec_micro e b (MNotifyWait1 n) = MOk e3 ->
  cont_at e3 b = MBranch n AOpaque BNever :: MNotifyWait2 n :: cont_at e b \/
  cont_at e3 b = MYield :: cont_at e b.
Proof.
  intros e n b e3 (s & Hg & Hn) Hb Hx.
  destruct (wait1_cases e b n s e3 Hg Hb Hx) as [[_ H]|[(_ & _ & H & _)|[Hn' _]]]; [left; exact H|right; exact H|].
  congruence.
Qed.

(* ... and the consuming MNotifyWait2 n succeeds in every state reached without
   another consuming wait *)
Theorem delivered_wait2_succeeds : forall e n e4 b,
  track_ok e -> delivered e n -> steps_without_wait2 n e e4 ->
  exists e5, exec_micro e4 b (MNotifyWait2 n) = MOk e5.
Proof.
  intros e n e4 b Htr (s & Hg & Hn) Hs.
  destruct (sw2_notified_persists n e e4 s Htr Hs Hg Hn) as (s4 & Hg4 & Hn4 & _).
  rewrite exec_micro_notify_wait2, Hg4, Hn4. cbn [negb]. eauto.
Qed.

Lemma rsteps_nw2_sw2 n e e' : rsteps (no_wait2 n) e e' -> steps_without_wait2 n e e'.
Proof.
  intros H. induction H as [e|e me t m rest e1 e2 Ha Ht Hc Hp Hx Hs IH]; [apply ms_refl|].
  eapply ms_pop, ms_micro; eauto.
Qed.

(* THE COMPOSED THEOREM.  A registration stored (n, k) in the AtomicWaker w
   (state e0); the run goes on with steps that are no slot event on w; then
   the active thread a executes the MWakeTake of AtomicWaker::wake (state e,
   result e1); the run goes on (nobody consumes a notification of n) to e2.
   Then: the take found (n, k) and emptied the slot; in e2 the wake is either
   still in flight in a's continuation or the flag of n is set; once it is
   set, Notify::wait on n does not block and its consuming half succeeds; and
   when a's MNotifyPost n runs, NotifyFacts.no_lost_wakeup applies. *)
Theorem registered_then_woken_not_lost : forall w n k e0 e a t rest e1 e2,
  track_ok e0 -> w < length (e_h e0) ->
  slot e0 w = Some (n, k) ->
  rsteps (quiet w) e0 e ->
  e_active e = Some a -> nth_error (e_threads e) a = Some t -> t_cont t = MWakeTake w true :: rest ->
  exec_micro (popc e a rest) a (MWakeTake w true) = MOk e1 ->
  rsteps (no_wait2 n) e1 e2 ->
  (* the take *)
  slot e1 w = None /\
  cont_at e1 a = MBranch n AOpaque BNever :: MNotifyPost n :: drop_waker k ++ MLog RUnit :: rest /\
  (* not lost *)
  (wake_pending e2 a n \/ delivered e2 n) /\
  (delivered e2 n ->
     (forall b e3, b < length (e_threads e2) -> exec_micro e2 b (MNotifyWait1 n) = MOk e3 ->
        cont_at e3 b = MBranch n AOpaque BNever :: MNotifyWait2 n :: cont_at e2 b \/
        cont_at e3 b = MYield :: cont_at e2 b) /\
     (forall e4 b, steps_without_wait2 n e2 e4 -> exists e5, exec_micro e4 b (MNotifyWait2 n) = MOk e5)) /\
  (* the wake itself, whenever it runs (NotifyFacts.no_lost_wakeup) *)
  (forall ep e3 e4 b e5 e6,
     track_ok ep -> exec_micro ep a (MNotifyPost n) = MOk e3 -> steps_without_wait2 n e3 e4 ->
     exec_micro e4 b (MNotifyWait1 n) = MOk e5 -> steps_without_wait2 n e5 e6 ->
     exists e7, exec_micro e6 b (MNotifyWait2 n) = MOk e7 /\
       (forall e' pn, exec_micro e6 b (MNotifyWait2 n) <> MFail e' pn) /\
       (b < length (e_threads e6) -> vle (caus_of ep a) (caus_of e7 b))).
Proof.
  intros w n k e0 e a t rest e1 e2 Htr0 Hw Hs0 Hq Hact Ht Hc Hx H12.
  pose proof (quiet_steps_keep_slot w e0 e Hq Hw) as Hse. rewrite Hs0 in Hse.
  pose proof (steps_track_ok _ _ (rsteps_steps _ _ _ Hq) Htr0) as Htr.
  assert (Ha : a < length (e_threads e)) by (apply nth_error_Some; congruence).
  assert (Hap : a < length (e_threads (popc e a rest))) by (rewrite popc_threads_length; exact Ha).
  destruct (wake_take_effect _ a w e1 Hx) as (_ & Hs1 & _ & _ & _ & Hcont).
  rewrite (slot_h_eq e (popc e a rest) w eq_refl), Hse in Hcont. specialize (Hcont Hap).
  rewrite cont_at_popc_same in Hcont by exact Ha.
  pose proof (exec_micro_track_ok _ _ _ _ (track_ok_popc e a rest Htr) Hx) as Htr1.
  pose proof (exec_micro_threads_length _ _ _ _ Hx) as Hlen1.
  assert (Hpend1 : wake_pending e1 a n) by (eexists; left; exact Hcont).
  destruct (wake_in_flight_or_delivered a n e1 e2 H12 Htr1 ltac:(lia) (or_introl Hpend1)) as (Htr2 & Ha2 & Hinv2).
  split; [exact Hs1|]. split; [exact Hcont|]. split; [exact Hinv2|]. split.
  - intros Hd. split.
    + intros b e3 Hb Hx3. exact (delivered_wait1_not_blocking e2 n b e3 Hd Hb Hx3).
    + intros e4 b Hs4. exact (delivered_wait2_succeeds e2 n e4 b Htr2 Hd Hs4).
  - intros ep e3 e4 b e5 e6 Htrp Hp H34 Hw1 H56.
    exact (no_lost_wakeup ep a n e3 e4 b e5 e6 Htrp Hp H34 Hw1 H56).
Qed.

(* ================================================================== *)
(* 5. wake() racing with register()                                    *)
(* ================================================================== *)

(* thread b is inside the critical section of AtomicWaker::register on w *)
Definition in_cs (e : exec) (b w : nat) : Prop :=
  b < length (e_threads e) /\ inwaker (cont_at e b) w.

Lemma in_cs_thread e b w :
  in_cs e b w -> exists th, get_thread e b = Some th /\ inside th w.
Proof.
  intros [Hb Hin]. unfold get_thread. destruct (nth_error (e_threads e) b) as [th|] eqn:Ht;
    [|apply nth_error_None in Ht; lia].
  exists th. split; [reflexivity|]. right. rewrite (cont_at_nth e b th Ht) in Hin. exact Hin.
Qed.

Lemma post_acquire_snd_objects e e' me me' w :
  e_objects e' = e_objects e -> snd (post_acquire e' me' w) = snd (post_acquire e me w).
Proof.
  intros Ho. unfold post_acquire. rewrite (get_mutex_objects_eq e' e w Ho).
  destruct (get_mutex e w) as [s|]; [|reflexivity]. destruct (is_some (mx_lock s)); reflexivity.
Qed.

(* ExclFacts: while b is inside, the lock word says so: every acquisition fails *)
Lemma cs_locked e b w :
  excl_inv e -> in_cs e b w ->
  (forall s, get_mutex e w = Some s -> mx_lock s = Some b) /\
  (forall me, snd (post_acquire e me w) = false).
Proof.
  intros Hinv Hcs. destruct (in_cs_thread e b w Hcs) as (th & Hth & Hin).
  assert (H1 : forall s, get_mutex e w = Some s -> mx_lock s = Some b).
  { intros s Hg. exact (mutex_inside_owner e w s b th Hinv Hg Hth Hin). }
  split; [exact H1|]. intros me. apply register_contended_iff.
  destruct (get_mutex e w) as [s|] eqn:Hg; [right|left; reflexivity].
  exists s, b. split; [reflexivity|apply H1; reflexivity].
Qed.

(* ... and nobody else is inside (ExclFacts.mutex_inside_unique) *)
Lemma cs_unique e b b' w s :
  excl_inv e -> get_mutex e w = Some s -> in_cs e b w -> in_cs e b' w -> b = b'.
Proof.
  intros Hinv Hg H1 H2. destruct (in_cs_thread e b w H1) as (th & Hth & Hin).
  destruct (in_cs_thread e b' w H2) as (th' & Hth' & Hin').
  exact (mutex_inside_unique e w s b b' th th' Hinv Hg Hth Hth' Hin Hin').
Qed.

(* who can make a try-acquire fail: a thread that is INSIDE w -- in the critical
   section of a registration (or, for an untyped program that locks a DWaker
   object as a mutex, the owner of that guard).  Never a waking thread: a thread
   whose next micro-operation is the take is not inside, and the take leaves
   the lock free (take_effect). *)
Lemma contended_holder e me w s :
  excl_inv e -> get_mutex e w = Some s -> snd (post_acquire e me w) = false ->
  exists t th, mx_lock s = Some t /\ get_thread e t = Some th /\ inside th w.
Proof.
  intros Hinv Hg Hf. destruct (post_acquire_fail_cases e me w Hf) as [Hn|(s' & t & Hg' & Hl)]; [congruence|].
  assert (s' = s) by congruence. subst s'.
  destruct (mutex_lock_owner e w s t Hinv Hg Hl) as (th & Hth & Hin). eauto.
Qed.

Lemma taker_not_in_cs w wake rest w' : ~ inwaker (MWakeTake w wake :: rest) w'.
Proof. intros H. exact H. Qed.

Lemma inwaker_cons m rest w :
  inwaker (m :: rest) w -> (is_skip m = true /\ inwaker rest w) \/ m = MWakerRelease w.
Proof.
  unfold inwaker. cbn [skipc]. destruct (is_skip m) eqn:Hs; [auto|].
  intros H. right. destruct m; try destruct H. reflexivity.
Qed.

Definition not_release (b w : nat) : exec -> nat -> micro -> Prop :=
  fun _ me m => ~ (me = b /\ m = MWakerRelease w).

(* THE CRITICAL SECTION IS OPAQUE: until b executes its MWakerRelease w the
   slot does not change, b stays inside, and the mutual-exclusion invariant
   keeps holding: takes fail, other registrations are contended *)
Theorem register_cs_frozen : forall b w e e',
  rsteps (not_release b w) e e' -> excl_inv e -> in_cs e b w ->
  excl_inv e' /\ in_cs e' b w /\ slot e' w = slot e w.
Proof.
  intros b w e e' H. induction H as [e|e me t m rest e1 e2 Hact Ht Hc Hp Hx Hs IH]; intros Hinv Hcs.
  - auto.
  - pose proof (run_step_excl_inv e me t m rest e1 Hinv Ht Hc Hx) as Hinv1.
    destruct (cs_locked e b w Hinv Hcs) as [_ Hlk].
    assert (Hlkp : forall me', snd (post_acquire (popc e me rest) me' w) = false).
    { intros me'. rewrite (post_acquire_snd_objects e (popc e me rest) me' me' w eq_refl). apply Hlk. }
    pose proof (slot_step (popc e me rest) me m w) as Hsl. rewrite Hx in Hsl. cbn [res_exec] in Hsl.
    destruct Hcs as [Hb Hin]. destruct (step_conts e me rest m e1 b Hx Hb) as (Hb1 & Hoth & Hskip).
    assert (Hstep : in_cs e1 b w /\ slot e1 w = slot e w).
    { destruct (Nat.eq_dec me b) as [->|Hne].
      - rewrite (cont_at_nth e b t Ht), Hc in Hin.
        destruct (inwaker_cons m rest w Hin) as [[Hsk Hin']| ->].
        + split.
          * split; [exact Hb1|]. rewrite (Hskip eq_refl Hsk). exact Hin'.
          * rewrite Hsl. destruct m; try discriminate Hsk; reflexivity.
        + exfalso. apply Hp. split; reflexivity.
      - split.
        + split; [exact Hb1|]. rewrite (Hoth (not_eq_sym Hne)). exact Hin.
        + rewrite Hsl. destruct m; try reflexivity; cbn [slot_after].
          * destruct (Nat.eqb_spec w0 w) as [->|Hw]; cbn [andb]; [|reflexivity].
            rewrite Hlkp. reflexivity.
          * destruct (Nat.eqb_spec w0 w) as [->|Hw]; cbn [andb]; [|reflexivity].
            rewrite (take_fails_while_locked _ me w wake (Hlkp me)) in Hx. discriminate Hx. }
    destruct Hstep as [Hcs1 Hs1]. destruct (IH Hinv1 Hcs1) as (A & B & C).
    split; [exact A|]. split; [exact B|]. congruence.
Qed.

(* a successful registration enters the critical section *)
Lemma inwaker_reg_cont old a v w n k rest : inwaker (reg_cont old a v w n k ++ rest) w.
Proof. unfold reg_cont, inwaker. destruct old as [[n' k']|]; reflexivity. Qed.

(* the blocking branch of wake() / take_waker() while the lock word is taken *)
Lemma wake_branch_blocks_while_locked e a w s t :
  get_mutex e w = Some s -> mx_lock s = Some t ->
  exec_micro e a (MBranch w AOpaque BMutexLocked) =
  fst (schedule (upd_thread e a (fun t => set_blocked (th_set_op t (Some (mkOp w AOpaque)))))).
Proof.
  intros Hg Hl. cbn [exec_micro]. unfold do_branch, block_now.
  rewrite (get_mutex_nth e w s Hg), Hl. reflexivity.
Qed.

(* MWakerRelease makes the threads blocked on w runnable again *)
Lemma release_unblocks e me w s a ta :
  get_mutex e w = Some s -> e_active e <> None -> a <> me ->
  nth_error (e_threads e) a = Some ta -> pending_on w ta = true ->
  nth_error (e_threads (release_lock e me w)) a = Some (set_runnable ta).
Proof.
  intros Hg Hact Hne Ha Hp. unfold release_lock. rewrite Hg. cbv zeta. rewrite e_active_upd_object.
  destruct (e_active e) as [x|]; [|destruct (Hact eq_refl)].
  unfold map_others. cbn [e_threads ex_set_threads upd_object ex_set_objects].
  rewrite nth_error_mapi, Ha. cbn [option_map].
  apply Nat.eqb_neq in Hne. rewrite Hne, Hp. reflexivity.
Qed.

Lemma mutex_stays e e' w s :
  track_ok e -> mono e e' -> get_mutex e w = Some s -> exists s', get_mutex e' w = Some s'.
Proof.
  intros Htr Hm Hg. apply get_mutex_nth in Hg.
  destruct (omono_strict e e' Hm Htr w _ Hg) as (o' & Ho' & Hle).
  destruct o'; cbn [obj_le view_le] in Hle; try contradiction.
  exists s0. unfold get_mutex. rewrite Ho'. reflexivity.
Qed.

Lemma register_step_success e b a0 v w n k rest :
  b < length (e_threads e) -> w < length (e_h e) -> snd (post_acquire (popc e b rest) b w) = true ->
  exists e1, exec_micro (popc e b rest) b (MBoRegister a0 v w n k) = MOk e1 /\
    slot e1 w = Some (n, k) /\ cont_at e1 b = reg_cont (slot e w) a0 v w n k ++ rest /\
    caus_of e1 b = caus_of (fst (post_acquire (popc e b rest) b w)) b.
Proof.
  intros Hb Hw Hok. destruct (post_acquire (popc e b rest) b w) as [ep ok] eqn:Hpa. cbn [snd] in Hok. subst ok.
  destruct (register_success_effect (popc e b rest) b a0 v w n k ep Hpa)
    as (e1 & Hx & He1 & Hs1 & _ & _ & Hcont & _).
  exists e1. split; [exact Hx|]. split; [exact (Hs1 Hw)|]. split.
  - rewrite Hcont by (rewrite popc_threads_length; exact Hb). rewrite cont_at_popc_same by exact Hb. reflexivity.
  - subst e1. rewrite caus_of_push_cont, caus_of_upd_hobj. reflexivity.
Qed.

(* THE REGISTRATION HOLDS THE LOCK FIRST.  b's MBoRegister succeeds
   (state e, result e1); the run goes on, b not yet at its MWakerRelease w, to
   e2.  Then in e2 the slot holds b's fresh waker, b is still inside, every
   take fails, every other registration is contended (and self-wakes), the
   blocking branch of wake() blocks its thread; when b releases (e3) the slot
   still holds (n, k), the lock is free and the blocked wakers are runnable. *)
Theorem wake_during_registration_b : forall e b t a0 v w n k rest e1 e2,
  excl_inv e -> w < length (e_h e) ->
  e_active e = Some b -> nth_error (e_threads e) b = Some t -> t_cont t = MBoRegister a0 v w n k :: rest ->
  snd (post_acquire (popc e b rest) b w) = true ->
  exec_micro (popc e b rest) b (MBoRegister a0 v w n k) = MOk e1 ->
  rsteps (not_release b w) e1 e2 ->
  slot e2 w = Some (n, k) /\ in_cs e2 b w /\ excl_inv e2 /\
  (forall me wake, exec_micro e2 me (MWakeTake w wake) = MFail e2 PanicExpectLock) /\
  (forall me a' v' n' k',
     exec_micro e2 me (MBoRegister a' v' w n' k') = MOk (push_cont e2 me (contended_cont a' v' w n' k'))) /\
  (forall s2 a, get_mutex e2 w = Some s2 ->
     mx_lock s2 = Some b /\
     exec_micro e2 a (MBranch w AOpaque BMutexLocked) =
       fst (schedule (upd_thread e2 a (fun t => set_blocked (th_set_op t (Some (mkOp w AOpaque))))))) /\
  (* the release *)
  (forall t2 rest2 e3,
     e_active e2 = Some b -> nth_error (e_threads e2) b = Some t2 -> t_cont t2 = MWakerRelease w :: rest2 ->
     exec_micro (popc e2 b rest2) b (MWakerRelease w) = MOk e3 ->
     slot e3 w = Some (n, k) /\
     (forall s2, get_mutex e2 w = Some s2 -> exists s3, get_mutex e3 w = Some s3 /\ mx_lock s3 = None) /\
     (forall s2 a ta, get_mutex e2 w = Some s2 -> a <> b -> nth_error (e_threads e2) a = Some ta ->
        pending_on w ta = true -> nth_error (e_threads e3) a = Some (set_runnable ta))).
Proof.
  intros e b t a0 v w n k rest e1 e2 Hinv Hw Hact Ht Hc Hok Hx H12.
  assert (Hb : b < length (e_threads e)) by (apply nth_error_Some; congruence).
  destruct (register_step_success e b a0 v w n k rest Hb Hw Hok) as (e1' & Hx' & Hs1 & Hcont & _).
  assert (e1' = e1) by congruence. subst e1'.
  pose proof (run_step_excl_inv e b t _ rest e1 Hinv Ht Hc Hx) as Hinv1.
  assert (Hcs1 : in_cs e1 b w).
  { split; [apply (step_conts e b rest _ e1 b Hx Hb)|]. rewrite Hcont. apply inwaker_reg_cont. }
  destruct (register_cs_frozen b w e1 e2 H12 Hinv1 Hcs1) as (Hinv2 & Hcs2 & Hs2).
  destruct (cs_locked e2 b w Hinv2 Hcs2) as [Hown Hlk].
  split; [congruence|]. split; [exact Hcs2|]. split; [exact Hinv2|].
  split; [intros me wake; apply take_fails_while_locked, Hlk|].
  split; [intros me a' v' n' k'; apply register_contended_effect, Hlk|].
  split.
  - intros s2 a Hg2. split; [apply Hown, Hg2|].
    eapply wake_branch_blocks_while_locked; [exact Hg2|apply Hown, Hg2].
  - intros t2 rest2 e3 Hact2 Ht2 Hc2 Hx3. cbn [exec_micro] in Hx3. injection Hx3 as <-.
    split; [|split].
    + rewrite (slot_h_eq (popc e2 b rest2) _ w) by apply release_lock_frame_eq.
      rewrite (slot_h_eq e2 _ w) by reflexivity. congruence.
    + intros s2 Hg2. apply (release_lock_unlocks _ b w s2). exact Hg2.
    + intros s2 a ta Hg2 Hne Ha Hp.
      apply (release_unblocks (popc e2 b rest2) b w s2 a ta); try assumption.
      * change (e_active (popc e2 b rest2)) with (e_active e2). rewrite Hact2. discriminate.
      * unfold popc, upd_thread. cbn [e_threads ex_set_threads].
        rewrite nth_error_list_upd_other by exact (not_eq_sym Hne). exact Ha.
Qed.

(* ... and then the wake that had to wait takes the freshly stored waker and
   is not lost (section 4) *)
Corollary wake_during_registration_b_not_lost : forall e b t a0 v w n k rest e1 e2 t2 rest2 e3 e4 a ta resta e5 e6,
  excl_inv e -> track_ok e -> w < length (e_h e) ->
  e_active e = Some b -> nth_error (e_threads e) b = Some t -> t_cont t = MBoRegister a0 v w n k :: rest ->
  snd (post_acquire (popc e b rest) b w) = true ->
  exec_micro (popc e b rest) b (MBoRegister a0 v w n k) = MOk e1 ->
  rsteps (not_release b w) e1 e2 ->
  e_active e2 = Some b -> nth_error (e_threads e2) b = Some t2 -> t_cont t2 = MWakerRelease w :: rest2 ->
  exec_micro (popc e2 b rest2) b (MWakerRelease w) = MOk e3 ->
  rsteps (quiet w) e3 e4 ->
  e_active e4 = Some a -> nth_error (e_threads e4) a = Some ta -> t_cont ta = MWakeTake w true :: resta ->
  exec_micro (popc e4 a resta) a (MWakeTake w true) = MOk e5 ->
  rsteps (no_wait2 n) e5 e6 ->
  slot e5 w = None /\
  cont_at e5 a = MBranch n AOpaque BNever :: MNotifyPost n :: drop_waker k ++ MLog RUnit :: resta /\
  (wake_pending e6 a n \/ delivered e6 n).
Proof.
  intros e b t a0 v w n k rest e1 e2 t2 rest2 e3 e4 a ta resta e5 e6
         Hinv Htr Hw Hact Ht Hc Hok Hx H12 Hact2 Ht2 Hc2 Hx3 H34 Hact4 Hta Hca Hx5 H56.
  destruct (wake_during_registration_b e b t a0 v w n k rest e1 e2 Hinv Hw Hact Ht Hc Hok Hx H12)
    as (_ & _ & _ & _ & _ & _ & Hrel).
  destruct (Hrel t2 rest2 e3 Hact2 Ht2 Hc2 Hx3) as (Hs3 & _).
  assert (H03 : steps e e3).
  { eapply steps_step; [exact Hact|exact Ht|exact Hc|exact Hx|].
    eapply steps_trans; [apply (rsteps_steps _ _ _ H12)|].
    eapply steps_step; [exact Hact2|exact Ht2|exact Hc2|exact Hx3|apply steps_refl]. }
  pose proof (steps_track_ok _ _ H03 Htr) as Htr3.
  assert (Hw3 : w < length (e_h e3)).
  { destruct (steps_mono _ _ H03) as (_ & _ & [Hl _] & _). rewrite Hl. exact Hw. }
  destruct (registered_then_woken_not_lost w n k e3 e4 a ta resta e5 e6 Htr3 Hw3 Hs3 H34 Hact4 Hta Hca Hx5 H56)
    as (A & B & C & _).
  auto.
Qed.

(* THE WAKE COMES FIRST.  Acquire, take and release of wake() are one
   micro-operation (take_effect: the lock is free before AND after), so the
   registration's try-acquire cannot fail because of a wake: it succeeds (if no
   other registration is inside), stores the waker AFTER the take -- this wake
   will not notify it -- and ACQUIRES THE WAKER'S CLOCK through the lock word:
   everything the waking thread did before wake() happens-before the second
   poll, which follows the registration in b's continuation.  That is how the
   registration in flight observes the wake.  (When the try-acquire does fail,
   the lock is held by another registration, and the task notifies itself:
   register_contended_effect.) *)
(* a take hands the taker's clock to whoever finds the lock free later: the
   lock word was released by the take (SyncMono.mutex_handover_mono) *)
Lemma take_hands_over e a w wake e1 e2 b s2 :
  e_active e <> None -> exec_micro e a (MWakeTake w wake) = MOk e1 ->
  mono e1 e2 -> get_mutex e2 w = Some s2 -> mx_lock s2 = None -> b < length (e_threads e2) ->
  snd (post_acquire e2 b w) = true /\ vle (caus_of e a) (caus_of (fst (post_acquire e2 b w)) b).
Proof.
  intros Hact Hx Hm Hg2 Hfree Hb.
  (* the state on which the take released the lock *)
  set (E := take_held e a w).
  destruct (take_from_released e a w wake e1 Hx) as (Hok & HmE & _). fold E in HmE.
  assert (Hpa : post_acquire e a w = (fst (post_acquire e a w), true))
    by (rewrite <- Hok; apply surjective_pairing).
  destruct (post_acquire_ok_lock e a w _ Hpa) as (s0 & sq & _ & _ & HgE & _).
  assert (HactE : e_active E <> None).
  { change (e_active E) with (e_active (fst (post_acquire e a w))). rewrite post_acquire_act. exact Hact. }
  assert (Hm2 : mono (release_lock E a w) e2) by (eapply mono_trans; eassumption).
  destruct (mutex_handover_mono E a w sq e2 b s2 HgE HactE Hm2 Hg2 Hfree Hb) as [Hok2 Hvle].
  split; [exact Hok2|]. eapply vle_trans; [|exact Hvle].
  unfold E, take_held. rewrite caus_of_upd_hobj.
  destruct (post_acquire_mono e a w) as (_ & Hcm & _). apply (Hcm a).
Qed.

Theorem wake_during_registration_a : forall e a ta w resta e1 e2 b tb a0 v n k restb,
  track_ok e -> w < length (e_h e) ->
  e_active e = Some a -> nth_error (e_threads e) a = Some ta -> t_cont ta = MWakeTake w true :: resta ->
  exec_micro (popc e a resta) a (MWakeTake w true) = MOk e1 ->
  steps e1 e2 ->
  nth_error (e_threads e2) b = Some tb -> t_cont tb = MBoRegister a0 v w n k :: restb ->
  (forall s2, get_mutex e2 w = Some s2 -> mx_lock s2 = None) ->
  (* the wake left the lock free and took whatever was there *)
  slot e1 w = None /\
  (exists s1, get_mutex e1 w = Some s1 /\ mx_lock s1 = None) /\
  exists e3,
    exec_micro (popc e2 b restb) b (MBoRegister a0 v w n k) = MOk e3 /\
    slot e3 w = Some (n, k) /\
    cont_at e3 b = reg_cont (slot e2 w) a0 v w n k ++ restb /\
    vle (caus_of e a) (caus_of e3 b).
Proof.
  intros e a ta w resta e1 e2 b tb a0 v n k restb Htr Hw Hact Hta Hca Hx H12 Htb Hcb Hfree.
  set (ep := popc e a resta) in *.
  assert (Htrp : track_ok ep) by (apply track_ok_popc, Htr).
  destruct (wake_take_effect ep a w e1 Hx) as ((s & s1 & Hg & Hl & Hg1 & Hl1) & Hs1 & _).
  split; [exact Hs1|]. split; [eauto|].
  set (e2p := popc e2 b restb).
  assert (Hm2 : mono e1 e2p) by (unfold e2p, popc; apply mono_pre, steps_mono, H12).
  pose proof (exec_micro_track_ok _ _ _ _ Htrp Hx) as Htr1.
  destruct (mutex_stays e1 e2 w s1 Htr1 (steps_mono _ _ H12) Hg1) as (s2 & Hg2).
  assert (Hb : b < length (e_threads e2)) by (apply nth_error_Some; congruence).
  assert (Hbp : b < length (e_threads e2p)) by (unfold e2p; rewrite popc_threads_length; exact Hb).
  assert (Hactp : e_active ep <> None) by (change (e_active ep) with (e_active e); rewrite Hact; discriminate).
  destruct (take_hands_over ep a w true e1 e2p b s2 Hactp Hx Hm2 Hg2 (Hfree s2 Hg2) Hbp) as [Hok2 Hvle].
  assert (Hw2 : w < length (e_h e2)).
  { destruct (steps_mono _ _ H12) as (_ & _ & [Hl2 _] & _). rewrite Hl2.
    pose proof (h_length_step ep a (MWakeTake w true)) as Hlh. rewrite Hx in Hlh. cbn [res_exec] in Hlh.
    rewrite Hlh. exact Hw. }
  destruct (register_step_success e2 b a0 v w n k restb Hb Hw2 Hok2) as (e3 & Hx3 & Hs3 & Hc3 & H3).
  exists e3. split; [exact Hx3|]. split; [exact Hs3|]. split; [exact Hc3|].
  rewrite H3. eapply vle_trans; [|exact Hvle].
  unfold ep, popc. rewrite caus_of_upd_thread_keep by (intros t0; reflexivity). apply vle_refl.
Qed.

(* ================================================================== *)
(* 6. block_on: the poll loop                                          *)
(* ================================================================== *)

Definition register_seq (a : nat) (v : N) (w n k : nat) : list micro :=
  [MBranch k ARefInc BNever; MArcIncRaw k; MBranch w AOpaqueTry BNever; MBoRegister a v w n k].

(* block_on creates its Notify (spurious wake-ups allowed, flag clear) and the
   Arc around it, then polls *)
Lemma exec_micro_block_on e me a v w :
  exec_micro e me (MBlockOn a v w) =
  MOk (push_cont
         (ex_set_objects e (e_objects e ++
            [ONotify (mkNotify true false false false None vv_new);
             OArc (mkArc 1 vv_new (repeat None MAX_THREADS) None (repeat None MAX_THREADS))]))
         me [MBoPoll a v w (length (e_objects e)) (S (length (e_objects e)))]).
Proof. reflexivity. Qed.

(* a poll: one LPoll line, then the load of the future's atomic *)
Lemma exec_micro_bo_poll e me a v w n k :
  exec_micro e me (MBoPoll a v w n k) =
  MOk (push_cont (log_poll e me) me [MBranch a ALoad BNever; MBoLoad a v w n k true]).
Proof. reflexivity. Qed.

Lemma exec_micro_bo_load e me a v w n k first :
  exec_micro e me (MBoLoad a v w n k first) =
  match load_post e me a Acquire with
  | inr (e1, p) => MFail e1 p
  | inl (e1, x) =>
      MOk (push_cont e1 me
             (if N.eqb x v then [MBoDone n k]
              else if first then register_seq a v w n k
              else [MNotifyWait1 n; MBoPoll a v w n k]))
  end.
Proof.
  cbn [exec_micro]. destruct (load_post e me a Acquire) as [[e1 x]|[e1 p]]; [|reflexivity].
  destruct (N.eqb x v); [reflexivity|]. destruct first; reflexivity.
Qed.

(* Ready: block_on returns (its result line is logged after the handle of the
   Arc<Notify> is dropped) *)
Lemma exec_micro_bo_done e me n k :
  exec_micro e me (MBoDone n k) = MOk (push_cont e me (drop_waker k ++ [MLog RUnit])).
Proof. reflexivity. Qed.

Lemma conts_load_post e me a o : conts (lp_exec (load_post e me a o)) = conts e.
Proof.
  unfold load_post.
  destruct (get_atomic (causality_inc e me) a) as [s|]; [|cbn [lp_exec]; apply conts_upd_thread_keep; intros t; reflexivity].
  destruct (get_thread (causality_inc e me) me) as [t|]; [|cbn [lp_exec]; apply conts_upd_thread_keep; intros t; reflexivity].
  destruct (choose_store_frame (causality_inc e me) (match_load_to_stores s me (t_caus t) (t_last_yield t) o)) as (Hct & _ & _).
  destruct (choose_store (causality_inc e me) (match_load_to_stores s me (t_caus t) (t_last_yield t) o)) as [e1 [idx|p]];
    cbn [fst] in Hct.
  - destruct (atomic_load s me (t_caus t) idx o) as [[[s' c'] x]|p]; cbn [lp_exec].
    + unfold set_caus. rewrite conts_upd_thread_keep by (intros t0; reflexivity).
      unfold conts. cbn [e_threads upd_object ex_set_objects]. rewrite Hct.
      apply conts_upd_thread_keep. intros t0. reflexivity.
    + unfold conts. rewrite Hct. apply conts_upd_thread_keep. intros t0. reflexivity.
  - cbn [lp_exec]. unfold conts. rewrite Hct. apply conts_upd_thread_keep. intros t0. reflexivity.
Qed.

Lemma cont_at_load_push e b a o e1 x ms :
  load_post e b a o = inl (e1, x) -> b < length (e_threads e) ->
  cont_at (push_cont e1 b ms) b = ms ++ cont_at e b.
Proof.
  intros Hlp Hb. pose proof (conts_load_post e b a o) as Hc. rewrite Hlp in Hc. cbn [lp_exec] in Hc.
  rewrite cont_at_push_cont_same by (rewrite (conts_length _ _ Hc); exact Hb).
  rewrite (cont_at_conts_eq _ _ b Hc). reflexivity.
Qed.

(* MNotifyWait2 passes only with the flag set *)
Lemma wait2_needs_flag e b n e' :
  exec_micro e b (MNotifyWait2 n) = MOk e' -> delivered e n.
Proof.
  rewrite exec_micro_notify_wait2. destruct (get_notify e n) as [s|] eqn:Hg; [|discriminate].
  destruct (nt_notified s) eqn:Hn; cbn [negb]; [|discriminate]. intros _. exists s. auto.
Qed.

(* BETWEEN TWO POLLS.  The second load of a round returns Pending (x <> v):
   the continuation up to the next poll is exactly [MNotifyWait1 n; MBoPoll ..]
   (the first load of a round never leads to a poll directly: it registers).
   And Notify::wait lets the task through to that MBoPoll in three ways only:
   (i)   the flag is set (a wake: its own after a contended registration, or
         a foreign one): non-blocking branch, then the consuming half;
   (ii)  the one modelled spurious return: did_spur was clear and is set now
         (NotifyFacts.spurious_at_most_once: never again for this Notify);
   (iii) the flag is clear: the blocking branch; the thread is Blocked until
         some thread executes MNotifyPost n
         (NotifyFacts.unnotified_waiter_blocked_until_post), and the consuming
         half passes only with the flag set (wait2_needs_flag). *)
Theorem repoll_only_after_wake : forall e b a v w n k e1 x,
  load_post e b a Acquire = inl (e1, x) -> N.eqb x v = false -> b < length (e_threads e) ->
  exec_micro e b (MBoLoad a v w n k false) = MOk (push_cont e1 b [MNotifyWait1 n; MBoPoll a v w n k]) /\
  cont_at (push_cont e1 b [MNotifyWait1 n; MBoPoll a v w n k]) b =
    MNotifyWait1 n :: MBoPoll a v w n k :: cont_at e b /\
  exec_micro e b (MBoLoad a v w n k true) = MOk (push_cont e1 b (register_seq a v w n k)) /\
  forall e2 s e3,
    get_notify e2 n = Some s -> b < length (e_threads e2) ->
    exec_micro e2 b (MNotifyWait1 n) = MOk e3 ->
    (nt_notified s = true /\
     cont_at e3 b = MBranch n AOpaque BNever :: MNotifyWait2 n :: cont_at e2 b) \/
    (nt_spurious s = true /\ nt_did_spur s = false /\ cont_at e3 b = MYield :: cont_at e2 b /\
     exists s3, get_notify e3 n = Some s3 /\ nt_did_spur s3 = true /\ nt_notified s3 = nt_notified s) \/
    (nt_notified s = false /\
     cont_at e3 b = MBranch n AOpaque BAlways :: MNotifyWait2 n :: cont_at e2 b).
Proof.
  intros e b a v w n k e1 x Hlp Hx Hb.
  split; [rewrite exec_micro_bo_load, Hlp, Hx; reflexivity|].
  split; [exact (cont_at_load_push e b a Acquire e1 x _ Hlp Hb)|].
  split; [rewrite exec_micro_bo_load, Hlp, Hx; reflexivity|].
  intros e2 s e3. apply wait1_cases.
Qed.

(* the Ready case: block_on returns *)
Theorem block_on_returns_when_ready : forall e b a v w n k first e1 x,
  load_post e b a Acquire = inl (e1, x) -> N.eqb x v = true -> b < length (e_threads e) ->
  exec_micro e b (MBoLoad a v w n k first) = MOk (push_cont e1 b [MBoDone n k]) /\
  cont_at (push_cont e1 b [MBoDone n k]) b = MBoDone n k :: cont_at e b /\
  forall e2, exec_micro e2 b (MBoDone n k) = MOk (push_cont e2 b (drop_waker k ++ [MLog RUnit])).
Proof.
  intros e b a v w n k first e1 x Hlp Hx Hb.
  split; [rewrite exec_micro_bo_load, Hlp, Hx; reflexivity|].
  split; [exact (cont_at_load_push e b a Acquire e1 x _ Hlp Hb)|].
  intros e2. reflexivity.
Qed.

(* ---- LPoll lines are written by the polls of block_on only ---- *)
(* every micro-operation other than a poll of block_on leaves the LPoll lines
   of the log alone; a poll adds exactly one, for the polling thread's current
   instruction *)
Theorem poll_lines_step : forall e me m,
  poll_op m = false -> polls (res_exec (exec_micro e me m)) = polls e.
Proof.
  intros e me m Hp. destruct (slot_op m) eqn:Hs; [|exact (proj1 (proj2 (exec_micro_fk e me m Hs Hp)))].
  (* the two slot operations log at most the result line of the take *)
  destruct m; try discriminate Hs.
  - rewrite exec_micro_register. destruct (snd (post_acquire e me w)); [|reflexivity].
    exact (f_equal (filter is_poll) (proj2 (proj2 (post_acquire_frame_eq e me w)))).
  - rewrite exec_micro_wake_take. destruct (snd (post_acquire e me w)); [|reflexivity]. cbv zeta.
    set (e2 := release_lock _ me w).
    assert (H2 : polls e2 = polls e).
    { unfold polls, e2. rewrite (proj2 (proj2 (release_lock_frame_eq _ me w))).
      exact (f_equal (filter is_poll) (proj2 (proj2 (post_acquire_frame_eq e me w)))). }
    destruct (slot e w) as [[n k]|]; cbn [res_exec]; [exact H2|].
    rewrite <- H2. unfold log_op. destruct (get_thread e2 me); reflexivity.
Qed.

Theorem poll_logs_one_line : forall e me a v w n k t,
  get_thread e me = Some t ->
  polls (res_exec (exec_micro e me (MBoPoll a v w n k))) = LPoll (t_body t) (t_pc t) :: polls e.
Proof.
  intros e me a v w n k t Ht. cbn [exec_micro res_exec]. unfold polls, push_cont, log_poll. rewrite Ht. reflexivity.
Qed.

(* ================================================================== *)
(* 7. Witnesses (vm_compute)                                           *)
(* ================================================================== *)

Definition cfgW : config := mkConfig 5 1000 None None None false.

(* one block_on, one waking thread *)
Definition p_wake (o : ord) : prog := mkProg cfgW [DAtomic 0; DWaker]
  [[ISpawn 1; IBlockOn 0 1 1; IJoin 1]; [IStore 0 1 o; IWake 1]].

Definition stw (k : nat) : exec := fst (run k (init_exec (p_wake SeqCst) (initial_path cfgW))).
Definition flag_of (e : exec) (n : nat) : option bool :=
  match get_notify e n with Some s => Some (nt_notified s) | None => None end.

(* first iteration: main polls (Pending), registers (3, 4), polls again
   (Pending), blocks in Notify::wait; thread 1 stores, wakes: the take finds
   (3, 4), the post sets the flag and makes main runnable; main consumes the
   notification and polls again (second LPoll line): Ready; block_on returns;
   the run finishes without leak *)
Example wake_after_registration_finishes :
  snd (iteration 1000 (p_wake SeqCst) (initial_path cfgW)) = IterDone /\
  rev (e_log (fst (iteration 1000 (p_wake SeqCst) (initial_path cfgW)))) =
    [LOp 0 0 RUnit; LPoll 0 1; LOp 1 0 RUnit; LOp 1 1 RUnit; LPoll 0 1; LOp 0 1 RUnit; LOp 0 2 RUnit] /\
  (* the registration *)
  hd MSkip (cont_at (stw 10) 0) = MBoRegister 0 1 1 3 4 /\ slot (stw 10) 1 = None /\
  slot (stw 11) 1 = Some (3, 4) /\ hd MSkip (cont_at (stw 11) 0) = MWakerRelease 1 /\
  (* main blocks in Notify::wait with the flag clear *)
  firstn 2 (cont_at (stw 15) 0) = [MBranch 3 AOpaque BAlways; MNotifyWait2 3] /\
  map t_state (e_threads (stw 16)) = [Blocked; Runnable] /\
  (* the wake, after the registration *)
  hd MSkip (cont_at (stw 21) 1) = MWakeTake 1 true /\ slot (stw 21) 1 = Some (3, 4) /\
  slot (stw 22) 1 = None /\
  firstn 2 (cont_at (stw 22) 1) = [MBranch 3 AOpaque BNever; MNotifyPost 3] /\
  flag_of (stw 23) 3 = Some false /\ flag_of (stw 24) 3 = Some true /\
  map t_state (e_threads (stw 24)) = [Runnable; Runnable] /\
  (* main consumes the notification, polls again, Ready *)
  hd MSkip (cont_at (stw 34) 0) = MNotifyWait2 3 /\ flag_of (stw 35) 3 = Some false /\
  hd MSkip (cont_at (stw 35) 0) = MBoPoll 0 1 1 3 4 /\ hd MSkip (cont_at (stw 38) 0) = MBoDone 3 4.
Proof. vm_compute. repeat split; reflexivity. Qed.

(* nobody wakes: the task blocks in Notify::wait for ever; the model reports
   the deadlock (after the single poll) *)
Definition p_nowake : prog := mkProg cfgW [DAtomic 0; DWaker] [[IBlockOn 0 1 1]].

Example nobody_wakes_deadlock :
  snd (fst (check 100 1000 p_nowake)) = RunPanic (PanicDeadlock [Blocked]) /\
  map (fun r => (ir_result r, ir_log r)) (fst (fst (check 100 1000 p_nowake))) =
    [(IterPanic (PanicDeadlock [Blocked]), [LPoll 0 0])].
Proof. vm_compute. split; reflexivity. Qed.

(* the exploration of the model, continued past panicking iterations *)
Fixpoint explore_all (ifuel fuel : nat) (p : prog) (pa : path) (acc : list (path * iter_end))
  : list (path * iter_end) :=
  match ifuel with
  | 0 => rev acc
  | S i =>
      let '(e, r) := iteration fuel p pa in
      match step (e_path e) with
      | Some pa' => explore_all i fuel p pa' ((pa, r) :: acc)
      | None => rev ((pa, r) :: acc)
      end
  end.

Definition iter_kind (r : iter_end) : nat :=
  match r with
  | IterDone => 0 | IterPanic (PanicLeak _ _) => 1 | IterPanic (PanicDeadlock _) => 2
  | IterPanic _ => 3 | IterFuel => 4
  end.
Definition kinds (p : prog) : nat * list nat :=
  let l := explore_all 5000 3000 p (initial_path cfgW) [] in
  (length l, map (fun k => length (filter (fun r => Nat.eqb (iter_kind (snd r)) k) l)) [0; 1; 2; 3; 4]).

(* NO LOST WAKE-UP on this program, whatever the ordering of the store: all
   205 schedules explored (the exploration is exhausted: 205 < 5000), block_on
   returns in every one of them; 13 of them end with the leak report of
   LeakFacts F2 (the wake came before the registration, the task saw the value
   at its second poll, the clone stays registered); no deadlock *)
Example wake_never_lost_exhaustive :
  kinds (p_wake SeqCst) = (205, [192; 13; 0; 0; 0]) /\
  kinds (p_wake Release) = (205, [192; 13; 0; 0; 0]) /\
  kinds (p_wake Relaxed) = (205, [192; 13; 0; 0; 0]).
Proof. vm_compute. repeat split; reflexivity. Qed.

(* a monitor: does some executed step satisfy f (f sees the popped state)? *)
Fixpoint run_obs (f : exec -> nat -> micro -> bool) (fuel : nat) (e : exec) : bool :=
  match fuel with
  | 0 => false
  | S fuel' =>
      match e_active e with
      | None => false
      | Some me =>
          match nth_error (e_threads e) me with
          | None => false
          | Some t =>
              match t_cont t with
              | [] => false
              | m :: rest =>
                  let e1 := popc e me rest in
                  f e1 me m ||
                  match exec_micro e1 me m with
                  | MOk e2 => run_obs f fuel' e2
                  | MFail _ _ => false
                  end
              end
          end
      end
  end.

Definition blocked_wake (w : nat) (e : exec) (me : nat) (m : micro) : bool :=
  match m with
  | MBranch w' AOpaque BMutexLocked => Nat.eqb w' w && block_now e w' BMutexLocked
  | _ => false
  end.
Definition contended_reg (w : nat) (e : exec) (me : nat) (m : micro) : bool :=
  match m with
  | MBoRegister _ _ w' _ _ => Nat.eqb w' w && negb (snd (post_acquire e me w'))
  | _ => false
  end.

(* wake_during_registration_b is reachable: in iteration 21 of the model's own exploration of
   p_wake the task re-registers after its spurious return (the replaced waker
   is dropped inside the critical section: a scheduling point), thread 1
   stores and its wake() blocks on the lock word; main's second poll of that
   round is Ready, block_on returns; thread 1's wake then takes the waker that
   was registered meanwhile; the iteration finishes without leak *)
Definition recsW : list iter_record := fst (fst (check 300 2000 (p_wake SeqCst))).
Definition rec20 : iter_record :=
  nth 20 recsW (mkIter (initial_path cfgW) (initial_path cfgW) [] IterFuel).

Example wake_blocked_during_registration_reachable :
  length recsW = 25 /\
  run_obs (blocked_wake 1) 2000 (init_exec (p_wake SeqCst) (ir_begin rec20)) = true /\
  ir_result rec20 = IterDone /\
  ir_log rec20 = [LOp 0 0 RUnit; LPoll 0 1; LPoll 0 1; LOp 1 0 RUnit; LOp 0 1 RUnit; LOp 1 1 RUnit;
                  LOp 0 2 RUnit].
Proof. vm_compute. repeat split; reflexivity. Qed.

(* the contended registration (register_contended_effect) is reachable only with TWO tasks on
   one AtomicWaker (the lock is held across a scheduling point only while a
   registration drops the waker it replaced).  main and thread 1 both block_on
   through AtomicWaker 1 (nobody ever stores: the run ends in a deadlock, which
   does not matter here).  On the 5th path of the exploration: main registers
   (3, 4); thread 1 replaces it by (5, 6); main (spurious return) replaces that
   by (3, 4) and is descheduled INSIDE the critical section (step 39, at the
   drop of (5, 6)); thread 1 (spurious return) polls, its try-acquire fails
   (step 46), it notifies its own Notify 5 (steps 47, 48) and yields; later its
   Notify::wait finds the flag set and does not block (step 61: BNever) *)
Definition p_two : prog := mkProg cfgW [DAtomic 0; DWaker]
  [[ISpawn 1; IBlockOn 0 1 1; IJoin 1]; [IBlockOn 0 1 1]].
Definition pa_two : path :=
  fst (nth 4 (explore_all 10 2000 p_two (initial_path cfgW) []) (initial_path cfgW, IterDone)).
Definition st2 (k : nat) : exec := fst (run k (init_exec p_two pa_two)).

Example contended_registration_reachable :
  run_obs (contended_reg 1) 2000 (init_exec p_two pa_two) = true /\
  (* main is inside the critical section, holding the lock word *)
  e_active (st2 39) = Some 0 /\ slot (st2 39) 1 = Some (3, 4) /\
  firstn 3 (cont_at (st2 46) 0) = [MArcDecRaw 6; MWakerRelease 1; MBranch 0 ALoad BNever] /\
  option_map mx_lock (get_mutex (st2 46) 1) = Some (Some 0) /\
  (* thread 1's registration is contended: it wakes itself; the slot is unchanged *)
  hd MSkip (cont_at (st2 46) 1) = MBoRegister 0 1 1 5 6 /\
  firstn 5 (cont_at (st2 47) 1) =
    [MBranch 5 AOpaque BNever; MNotifyPost 5; MBranch 6 ARefDec BNever; MArcDecRaw 6; MYield] /\
  slot (st2 47) 1 = Some (3, 4) /\
  flag_of (st2 48) 5 = Some false /\ flag_of (st2 49) 5 = Some true /\
  (* its next wait does not block and it polls again *)
  hd MSkip (cont_at (st2 60) 1) = MNotifyWait1 5 /\
  firstn 3 (cont_at (st2 61) 1) = [MBranch 5 AOpaque BNever; MNotifyWait2 5; MBoPoll 0 1 1 5 6] /\
  hd MSkip (cont_at (st2 63) 1) = MBoPoll 0 1 1 5 6.
Proof. vm_compute. repeat split; reflexivity. Qed.

(* W3: two tasks on ONE AtomicWaker.  main registers (4, 5) and blocks; thread 1
   registers (6, 7), which DROPS main's waker; thread 2 stores and wakes twice:
   the first wake notifies 6, the second finds the slot empty; thread 1
   returns, main blocks for ever.  "The most recently registered waker" is
   meant literally (tokio's AtomicWaker is a single-task cell). *)
Definition p_shared : prog := mkProg cfgW [DAtomic 0; DWaker]
  [[ISpawn 1; ISpawn 2; IBlockOn 0 1 1; IJoin 1; IJoin 2]; [IBlockOn 0 1 1];
   [IStore 0 1 SeqCst; IWake 1; IWake 1]].
Definition st3 (k : nat) : exec := fst (run k (init_exec p_shared (initial_path cfgW))).

Example two_tasks_one_waker_deadlock :
  snd (fst (check 100 2000 p_shared)) = RunPanic (PanicDeadlock [Blocked; Terminated; Terminated]) /\
  slot (st3 26) 1 = Some (4, 5) /\ hd MSkip (cont_at (st3 26) 1) = MBoRegister 0 1 1 6 7 /\
  slot (st3 27) 1 = Some (6, 7) /\ firstn 2 (cont_at (st3 27) 1) = [MBranch 5 ARefDec BNever; MArcDecRaw 5] /\
  hd MSkip (cont_at (st3 39) 2) = MWakeTake 1 true /\
  firstn 2 (cont_at (st3 40) 2) = [MBranch 6 AOpaque BNever; MNotifyPost 6] /\
  hd MSkip (cont_at (st3 47) 2) = MWakeTake 1 true /\ slot (st3 47) 1 = None /\
  hd MSkip (cont_at (st3 48) 2) = MReleaseAll /\
  hd MSkip (cont_at (st3 59) 1) = MBoDone 6 7 /\
  hd MSkip (cont_at (st3 70) 0) = MNotifyWait2 4 /\ flag_of (st3 70) 4 = Some false.
Proof. vm_compute. repeat split; reflexivity. Qed.

Print Assumptions exec_micro_fk.
Print Assumptions register_success_effect.
Print Assumptions waker_release_effect.
Print Assumptions register_contended_effect.
Print Assumptions register_contended_iff.
Print Assumptions register_contended_next_wait_not_blocking.
Print Assumptions take_effect.
Print Assumptions wake_take_effect.
Print Assumptions take_waker_effect.
Print Assumptions take_fails_while_locked.
Print Assumptions register_success_needs_declared.
Print Assumptions slot_step.
Print Assumptions others_cont_step.
Print Assumptions wake_wakes_latest.
Print Assumptions slot_is_latest_registration.
Print Assumptions slot_empty_after_take.
Print Assumptions slot_unchanged_without_event.
Print Assumptions wake_notifies_latest.
Print Assumptions steps_wsteps.
Print Assumptions quiet_steps_keep_slot.
Print Assumptions wake_in_flight_or_delivered.
Print Assumptions delivered_wait1_not_blocking.
Print Assumptions delivered_wait2_succeeds.
Print Assumptions registered_then_woken_not_lost.
Print Assumptions register_cs_frozen.
Print Assumptions contended_holder.
Print Assumptions wake_during_registration_b.
Print Assumptions wake_during_registration_b_not_lost.
Print Assumptions wake_during_registration_a.
Print Assumptions repoll_only_after_wake.
Print Assumptions block_on_returns_when_ready.
Print Assumptions wait2_needs_flag.
Print Assumptions poll_lines_step.
Print Assumptions poll_logs_one_line.
Print Assumptions wake_after_registration_finishes.
Print Assumptions nobody_wakes_deadlock.
Print Assumptions wake_never_lost_exhaustive.
Print Assumptions wake_blocked_during_registration_reachable.
Print Assumptions contended_registration_reachable.
Print Assumptions two_tasks_one_waker_deadlock.
