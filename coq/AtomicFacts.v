(* Property C12, second half: one thread operating on one atomic cell.

   "For every sequence of atomic operations by one thread, a load returns the
   latest store, also after the 7-slot ring wraps, and the modification-order
   assertion never fires."

   What is proved here (all closed under the global context):

   - [sstep]/[srun]: a single-thread driver that mirrors Ops.v: the thread
     increments its own clock component ([vv_inc caus me]) before every
     operation; a load calls [match_load_to_stores] (last_yield = None) and
     [atomic_load]; a store calls [track_store] and [atomic_store] (sync0 =
     vv_new, as Ops.v does); an rmw calls [match_rmw_to_stores] and
     [atomic_rmw].  [released] is the constant [vv_new] (no release fences).
     The driver is STRICT: it returns None when the candidate list is not a
     singleton, when the assertion `mo_i != mo_j` fires (the match functions
     return None) and when a track_* check panics.

   - [Inv me s caus] and [single_thread_invariant]: the invariant holds for
     [atomic_new] and is preserved by every [sstep].  Content: 7 slots,
     cnt >= 1, not mutating, the unsync clocks are below the thread's clock,
     dead slots are [store_default], every slot's st_mo component [me] (its
     "key") is <= the thread's clock component, every live slot is marked seen
     by [me] with a version <= the thread's clock component, the newest slot
     [aindex (cnt - 1)] has the strictly largest key and its st_mo dominates
     every live st_mo, live keys are pairwise different, live st_mo are
     ordered (vle) like their keys, and the store of an RMW immediately follows
     the store it read ([inv_rmw]: the source slot is live and no other live key
     lies between the key of the source slot and the key of the RMW's slot).
     Corollary [single_thread_mo_total]: two
     different live slots are strictly ordered by vv_lt one way or the other,
     and never vv_eqb.

   - [g_inner]/[g_outer]: the loop of which match_load_to_stores and
     match_rmw_to_stores are instances ([mlts_outer_g], [mrts_outer_g]), and
     what it returns in an arbitrary state ([g_candidates_spec],
     [g_candidates_NoDup], [g_candidates_none]).
     [single_thread_load_candidates], [single_thread_rmw_candidates]: under
     Inv the candidate list is exactly [aindex (at_cnt s - 1)]: never None (the
     assertion does not fire), exactly one candidate, the newest slot
     ([g_candidates_newest]).

   - [single_thread_reads_latest]: for every list of operations run from
     [atomic_new me caus0 vv_new init], [srun] succeeds (never None) and the
     list of values read is exactly [ref_run init ops], the reference
     interpreter over a single N cell.  Since the list of operations is
     arbitrary this covers any number of stores, i.e. the ring wrapping any
     number of times: [sstep_store_cnt] shows that every store advances the
     ring (cnt + 1, the written and then newest slot is [aindex cnt], which
     wraps modulo 7), [sstep_load_cnt] that a load does not;
     [ring_wrap_example] additionally runs a concrete 20-store sequence (cnt
     ends at 21) by computation.

   - [last_yield_irrelevant_without_yield]: with last_yield = None the "seen
     before yield" clause is false.

   - RMW atomicity ([atomic_store_from], [rmw_atomicity]): a pass changes
     nothing when the modification order already dominates every st_mo of the
     ring ([rmw_atomicity_pass_id], [rmw_atomicity_id]); in a single-thread run
     it does ([store_mo_dominates]), so State::store_from writes the same
     st_mo as before whatever the source ([atomic_store_from_eq]) and
     [atomic_store_from_inv] preserves the invariant when [src] is None or names
     the newest slot (what State::rmw passes: it reads the newest store);
     [atomic_store_inv] is the instance src = None.

   - the RMW-atomicity closure at the end of apply_load_coherence
     ([close_rmw_atomicity]): under the invariant neither rule of [close_step]
     fires ([close_step_id], [close_rmw_atomicity_id]), so a single-thread load
     only replaces the newest slot's st_mo ([alc_stores_newest]).

   Not stated: the suggested "ordered according to store AGE" formulation of
   the invariant (slot of the k-th most recent store).  The invariant orders
   the live slots by their key (the thread's clock component at store time)
   instead, which is what the matching functions depend on; that the newest
   slot is the maximum is part of Inv.  The suggested "other components are
   those of caus0" is not needed and not stated. *)
Require Import LV.Base LV.VV LV.VVFacts LV.Path LV.Prog LV.Objects LV.Atomic.
From Coq Require Import Lia.

Set Implicit Arguments.

(* ------------------------------------------------------------------ *)
(* list utilities                                                      *)

Lemma list_set_nth_error_same : forall (A : Type) (l : list A) n x,
  n < length l -> nth_error (list_set l n x) n = Some x.
Proof. intros A l n x. apply nth_error_list_set_same. Qed.

Lemma list_set_nth : forall (A : Type) (l : list A) n x i d,
  n < length l ->
  nth i (list_set l n x) d = if Nat.eqb i n then x else nth i l d.
Proof.
  intros A l n x i d Hlt.
  destruct (Nat.eqb_spec i n) as [Heq|Hne].
  - subst i. apply list_set_nth_same. exact Hlt.
  - apply list_set_nth_other. lia.
Qed.

Lemma list_upd_nth : forall (A : Type) (l : list A) n f i d,
  n < length l ->
  nth i (list_upd l n f) d = if Nat.eqb i n then f (nth n l d) else nth i l d.
Proof.
  intros A l n f i d Hlt. unfold list_upd.
  rewrite (nth_error_nth' l d Hlt). apply list_set_nth. exact Hlt.
Qed.

Lemma list_upd_fix : forall (A : Type) (f : A -> A) (l : list A) n d,
  f (nth n l d) = nth n l d -> list_upd l n f = l.
Proof.
  intros A f l n d Hf. unfold list_upd.
  destruct (nth_error l n) as [x|] eqn:Hx; [|reflexivity].
  rewrite (nth_error_nth _ _ d Hx) in Hf. rewrite Hf. apply list_set_id. exact Hx.
Qed.

(* mapi with a function that fixes every element of the list *)
Lemma mapi_id : forall (A : Type) (f : nat -> A -> A) (l : list A) d,
  (forall i, i < length l -> f i (nth i l d) = nth i l d) -> mapi f l = l.
Proof.
  intros A f l d Hfix. apply list_ext. intros i. rewrite nth_error_mapi.
  destruct (nth_error l i) as [x|] eqn:Hx; [|reflexivity].
  cbn [option_map]. rewrite <- (nth_error_nth _ _ d Hx).
  rewrite Hfix; [reflexivity|]. apply nth_error_Some. rewrite Hx. discriminate.
Qed.

Lemma index_list_from_In : forall (A : Type) (l : list A) k i x d,
  In (i, x) (index_list_from k l) ->
  k <= i /\ i - k < length l /\ x = nth (i - k) l d.
Proof.
  intros A. induction l as [|h t IHt]; intros k i x d Hin.
  - simpl in Hin. contradiction.
  - simpl in Hin. destruct Hin as [Heq|Hin].
    + inversion Heq. subst. rewrite Nat.sub_diag. simpl. repeat split; lia.
    + apply (@IHt (S k) i x d) in Hin. destruct Hin as [Hle [Hlt Hx]].
      split; [lia|]. split; [simpl; lia|].
      replace (i - k) with (S (i - S k)) by lia. simpl. exact Hx.
Qed.

Lemma index_list_In : forall (A : Type) (l : list A) i x d,
  In (i, x) (index_list l) -> i < length l /\ x = nth i l d.
Proof.
  intros A l i x d Hin. unfold index_list in Hin.
  apply (@index_list_from_In A l 0 i x d) in Hin.
  rewrite Nat.sub_0_r in Hin. destruct Hin as [_ [Hlt Hx]]. split; assumption.
Qed.

Lemma Forall_cons_skip : forall (A : Type) (P : A -> Prop) (a : A) (l : list A),
  P a -> ((forall x, In x (a :: l) -> P x) <-> (forall x, In x l -> P x)).
Proof.
  intros A P a l Ha. split; intros H x Hx.
  - apply H. right. exact Hx.
  - destruct Hx as [Heq|Hx]; [subst x; exact Ha | apply H; exact Hx].
Qed.

Lemma ex_In_cons : forall (A : Type) (P : A -> Prop) (a : A) (l : list A),
  (exists x, In x l /\ P x) -> exists x, In x (a :: l) /\ P x.
Proof. intros A P a l [x [Hx HP]]. exists x. split; [right; exact Hx | exact HP]. Qed.

(* ------------------------------------------------------------------ *)
(* generic facts about the clock folds                                 *)

Lemma fold_grow : forall (A : Type) (f : vv -> A -> vv),
  (forall mo a, vle mo (f mo a)) ->
  forall l mo, vle mo (fold_left f l mo).
Proof.
  intros A f Hf l. induction l as [|a l IH]; intros mo; simpl.
  - apply vle_refl.
  - eapply vle_trans; [apply Hf | apply IH].
Qed.

Lemma fold_keep : forall (A : Type) (f : vv -> A -> vv) (b : A -> nat) (k : nat),
  (forall mo a, b a <= vv_get mo k -> vv_get (f mo a) k = vv_get mo k) ->
  forall l mo, (forall a, In a l -> b a <= vv_get mo k) ->
  vv_get (fold_left f l mo) k = vv_get mo k.
Proof.
  intros A f b k Hf l. induction l as [|a l IH]; intros mo Hb; simpl.
  - reflexivity.
  - assert (Ha : vv_get (f mo a) k = vv_get mo k).
    { apply Hf. apply Hb. left. reflexivity. }
    rewrite IH.
    + exact Ha.
    + intros a' Ha'. rewrite Ha. apply Hb. right. exact Ha'.
Qed.

Lemma fold_in : forall (A : Type) (f : vv -> A -> vv) (g : A -> vv) (p : A -> bool),
  (forall mo a, vle mo (f mo a)) ->
  (forall mo a, p a = true -> vle (g a) (f mo a)) ->
  forall l mo a, In a l -> p a = true -> vle (g a) (fold_left f l mo).
Proof.
  intros A f g p Hgrow Hin l. induction l as [|h l IH]; intros mo a Ha Hp.
  - simpl in Ha. contradiction.
  - simpl. destruct Ha as [Heq|Ha].
    + subst h. eapply vle_trans; [apply Hin; exact Hp | apply fold_grow; exact Hgrow].
    + apply IH; assumption.
Qed.

(* ------------------------------------------------------------------ *)
(* FirstSeen                                                           *)

Lemma seen_by_current_from_hit : forall seen k m v caus,
  nth_error seen m = Some (Some v) -> v <= vv_get caus (k + m) ->
  seen_by_current_from k seen caus = true.
Proof.
  induction seen as [|s rest IH]; intros k m v caus Hnth Hle.
  - destruct m; simpl in Hnth; discriminate.
  - destruct m as [|m]; simpl in Hnth.
    + inversion Hnth. subst s. simpl. rewrite Nat.add_0_r in Hle.
      apply Nat.leb_le in Hle. rewrite Hle. reflexivity.
    + simpl.
      assert (Hrest : seen_by_current_from (S k) rest caus = true).
      { apply (@IH (S k) m v caus Hnth). replace (S k + m) with (k + S m) by lia. exact Hle. }
      destruct s as [w|]; [destruct (Nat.leb w (vv_get caus k))|]; try reflexivity; exact Hrest.
Qed.

Lemma is_seen_by_current_hit : forall seen me v caus,
  nth_error seen me = Some (Some v) -> v <= vv_get caus me ->
  is_seen_by_current seen caus = true.
Proof.
  intros seen me v caus Hnth Hle. unfold is_seen_by_current.
  apply (@seen_by_current_from_hit seen 0 me v caus Hnth). simpl. exact Hle.
Qed.

Lemma seen_touch_same : forall seen me v w,
  nth_error seen me = Some (Some v) -> seen_touch seen me w = seen.
Proof. intros seen me v w Hnth. unfold seen_touch. rewrite Hnth. reflexivity. Qed.

Lemma seen_touch_new : forall me w,
  me < MAX_THREADS -> nth_error (seen_touch seen_new me w) me = Some (Some w).
Proof.
  intros me w Hme. unfold seen_touch.
  assert (Hnone : nth_error seen_new me = Some None).
  { unfold seen_new. rewrite (nth_error_nth' _ None).
    - rewrite nth_repeat. reflexivity.
    - rewrite repeat_length. exact Hme. }
  rewrite Hnone. apply nth_error_list_set_same.
  unfold seen_new. rewrite repeat_length. exact Hme.
Qed.

Theorem last_yield_irrelevant_without_yield : forall seen me,
  is_seen_before_yield seen me None = false.
Proof. reflexivity. Qed.

(* ------------------------------------------------------------------ *)
(* the ring                                                            *)

Definition newest (s : atomic_state) : nat := aindex (at_cnt s - 1).
Definition live (s : atomic_state) (i : nat) : Prop :=
  i < MAX_ATOMIC_HISTORY /\ i < at_cnt s.
Definition key (me : nat) (s : atomic_state) (i : nat) : nat :=
  vv_get (st_mo (get_store s i)) me.
(* the value a load must return *)
Definition cur (s : atomic_state) : N := st_value (get_store s (newest s)).

Lemma aindex_lt : forall c, aindex c < MAX_ATOMIC_HISTORY.
Proof. intros c. unfold aindex. apply Nat.mod_upper_bound. unfold MAX_ATOMIC_HISTORY. lia. Qed.

Lemma aindex_le : forall c, aindex c <= c.
Proof. intros c. unfold aindex. apply Nat.mod_le. unfold MAX_ATOMIC_HISTORY. lia. Qed.

(* a slot that is live after a store and is not the written slot was live before *)
Lemma live_after_store : forall c i,
  i < MAX_ATOMIC_HISTORY -> i < S c -> i <> aindex c -> i < c.
Proof.
  intros c i H7 HS Hne.
  destruct (Nat.lt_ge_cases c MAX_ATOMIC_HISTORY) as [Hsmall|Hbig].
  - unfold aindex in Hne. rewrite Nat.mod_small in Hne by exact Hsmall. lia.
  - lia.
Qed.

(* a dead index is never the slot about to be written once it stays dead *)
Lemma dead_not_written : forall c i, S c <= i -> i <> aindex c.
Proof. intros c i HS. pose proof (aindex_le c) as Hle. lia. Qed.

(* ------------------------------------------------------------------ *)
(* the invariant                                                       *)

Record Inv (me : nat) (s : atomic_state) (caus : vv) : Prop := mkInv {
  inv_me : me < length caus;
  inv_meT : me < MAX_THREADS;
  inv_len : length (at_stores s) = MAX_ATOMIC_HISTORY;
  inv_cnt : 1 <= at_cnt s;
  inv_mut : at_mutating s = false;
  inv_um : vle (at_unsync_mut s) caus;
  inv_ul : vle (at_unsync_loaded s) caus;
  inv_dead : forall i, at_cnt s <= i -> get_store s i = store_default;
  inv_keyle : forall i, key me s i <= vv_get caus me;
  inv_seen : forall i, live s i ->
     exists v, nth_error (st_seen (get_store s i)) me = Some (Some v) /\ v <= vv_get caus me;
  inv_max : forall i, live s i -> i <> newest s ->
     key me s i < key me s (newest s) /\
     vle (st_mo (get_store s i)) (st_mo (get_store s (newest s)));
  inv_distinct : forall i j, live s i -> live s j -> i <> j -> key me s i <> key me s j;
  inv_order : forall i j, live s i -> live s j -> key me s i < key me s j ->
     vle (st_mo (get_store s i)) (st_mo (get_store s j));
  (* the store of an RMW immediately follows the store it read: the source slot is live
     and no other live slot has its key between the two (when the source slot has been
     overwritten since, it holds a newer store and the first alternative holds) *)
  inv_rmw : forall r slot sid, live s r ->
     st_rmw_src (get_store s r) = Some (slot, sid) -> slot <> r ->
     live s slot /\
     forall i, live s i -> i <> r -> i <> slot ->
       key me s i < key me s slot \/ key me s r < key me s i
}.

Lemma live_newest : forall me s caus, Inv me s caus -> live s (newest s).
Proof.
  intros me s caus HI. unfold live, newest. split.
  - apply aindex_lt.
  - pose proof (aindex_le (at_cnt s - 1)) as Hle. pose proof (inv_cnt HI) as Hcnt. lia.
Qed.

Lemma live_or_default : forall me s caus i,
  Inv me s caus -> live s i \/ get_store s i = store_default.
Proof.
  intros me s caus i HI.
  destruct (Nat.lt_ge_cases i (at_cnt s)) as [Hlt|Hge]; [|right; apply (inv_dead HI Hge)].
  destruct (Nat.lt_ge_cases i MAX_ATOMIC_HISTORY) as [H7|H7]; [left; split; assumption|].
  right. unfold get_store. apply nth_overflow. rewrite (inv_len HI). exact H7.
Qed.

(* every slot, live or dead, has a key <= the newest key *)
Lemma key_le_newest : forall me s caus i,
  Inv me s caus -> key me s i <= key me s (newest s).
Proof.
  intros me s caus i HI.
  destruct (Nat.eq_dec i (newest s)) as [Heq|Hne]; [subst i; lia|].
  destruct (live_or_default i HI) as [Hl|Hd].
  - destruct (inv_max HI Hl Hne) as [Hk _]. lia.
  - unfold key at 1. rewrite Hd. simpl. rewrite vv_new_get. lia.
Qed.

Lemma live_seen : forall me s caus c' i,
  Inv me s caus -> vv_get caus me <= vv_get c' me -> live s i ->
  is_seen_by_current (st_seen (get_store s i)) c' = true.
Proof.
  intros me s caus c' i HI Hle Hlive.
  destruct (inv_seen HI Hlive) as [v [Hnth Hv]].
  apply (@is_seen_by_current_hit _ me v c' Hnth). lia.
Qed.

Lemma live_mo_neq : forall me s caus i j,
  Inv me s caus -> live s i -> live s j -> i <> j ->
  vv_eqb (st_mo (get_store s i)) (st_mo (get_store s j)) = false.
Proof.
  intros me s caus i j HI Hi Hj Hne.
  destruct (vv_eqb (st_mo (get_store s i)) (st_mo (get_store s j))) eqn:Heq; [|reflexivity].
  exfalso. rewrite vv_eqb_spec in Heq. specialize (Heq me).
  apply (inv_distinct HI Hi Hj Hne). exact Heq.
Qed.

(* no slot of the ring, live or unused, is ordered after the newest store: live slots
   have a strictly smaller key; unused slots are [store_default], whose st_mo is the
   zero clock *)
Lemma newest_not_lt : forall me s caus j,
  Inv me s caus -> j <> newest s ->
  vv_lt (st_mo (get_store s (newest s))) (st_mo (get_store s j)) = false.
Proof.
  intros me s caus j HI Hne.
  destruct (vv_lt (st_mo (get_store s (newest s))) (st_mo (get_store s j))) eqn:Hlt; [|reflexivity].
  exfalso. rewrite vv_lt_spec in Hlt. destruct Hlt as [Hle [k Hk]].
  destruct (live_or_default j HI) as [Hl|Hd].
  - specialize (Hle me). destruct (inv_max HI Hl Hne) as [Hm _]. unfold key in Hm. lia.
  - rewrite Hd in Hk. change (st_mo store_default) with vv_new in Hk.
    rewrite vv_new_get in Hk. lia.
Qed.

Lemma key_lt_mo_lt : forall me s caus i j,
  Inv me s caus -> live s i -> live s j -> key me s i < key me s j ->
  vv_lt (st_mo (get_store s i)) (st_mo (get_store s j)) = true.
Proof.
  intros me s caus i j HI Hi Hj Hlt. rewrite vv_lt_spec.
  split; [apply (inv_order HI Hi Hj Hlt)|]. exists me. exact Hlt.
Qed.

Lemma key_lt_not_le : forall me s i j,
  key me s i < key me s j ->
  vv_le (st_mo (get_store s j)) (st_mo (get_store s i)) = false.
Proof.
  intros me s i j Hlt.
  destruct (vv_le (st_mo (get_store s j)) (st_mo (get_store s i))) eqn:Hle; [|reflexivity].
  apply vv_le_spec in Hle. specialize (Hle me). unfold key in Hlt. lia.
Qed.

Theorem single_thread_mo_total : forall me s caus i j,
  Inv me s caus -> live s i -> live s j -> i <> j ->
  vv_eqb (st_mo (get_store s i)) (st_mo (get_store s j)) = false /\
  (vv_lt (st_mo (get_store s i)) (st_mo (get_store s j)) = true \/
   vv_lt (st_mo (get_store s j)) (st_mo (get_store s i)) = true).
Proof.
  intros me s caus i j HI Hi Hj Hne. split.
  - apply (live_mo_neq HI Hi Hj Hne).
  - pose proof (inv_distinct HI Hi Hj Hne) as Hd.
    destruct (Nat.lt_ge_cases (key me s i) (key me s j)) as [Hlt|Hge].
    + left. apply (key_lt_mo_lt HI Hi Hj Hlt).
    + right. apply (key_lt_mo_lt HI Hj Hi). lia.
Qed.

(* ------------------------------------------------------------------ *)
(* the candidate loops                                                 *)

(* match_load_to_stores and match_rmw_to_stores are one loop; they differ in the
   test [blk i j]: the live store j, mo-after i, hides i *)
Section Generic.
  Variable s : atomic_state.
  Variable blk : nat -> nat -> bool.

  Fixpoint g_inner (i : nat) (js : list nat) : option bool :=
    match js with
    | [] => Some true
    | j :: js' =>
        if Nat.eqb i j || Nat.leb (at_cnt s) j then g_inner i js'
        else if vv_eqb (st_mo (get_store s i)) (st_mo (get_store s j)) then None
        else if vv_lt (st_mo (get_store s i)) (st_mo (get_store s j)) && blk i j then Some false
        else g_inner i js'
    end.

  Fixpoint g_outer (is_ : list nat) : option (list nat) :=
    match is_ with
    | [] => Some []
    | i :: rest =>
        if Nat.leb (at_cnt s) i then g_outer rest
        else match g_inner i (seq 0 MAX_ATOMIC_HISTORY) with
             | None => None
             | Some keep =>
                 match g_outer rest with
                 | None => None
                 | Some l => Some (if keep then i :: l else l)
                 end
             end
    end.
End Generic.

Definition load_blk (s : atomic_state) (me : nat) (caus : vv) (ly : option nat) (o : ord)
           (i j : nat) : bool :=
  is_seen_by_current (st_seen (get_store s j)) caus
  || is_seen_before_yield (st_seen (get_store s i)) me ly
  || (is_seq_cst o && st_seqcst (get_store s i) && st_seqcst (get_store s j)).

Lemma mlts_inner_g : forall s me caus ly o i js,
  mlts_inner s me caus ly o i js = g_inner s (load_blk s me caus ly o) i js.
Proof.
  intros s me caus ly o i js. induction js as [|j js IH]; [reflexivity|].
  cbn [mlts_inner g_inner]. rewrite IH. unfold load_blk.
  destruct (Nat.eqb i j || Nat.leb (at_cnt s) j); [reflexivity|].
  destruct (vv_eqb (st_mo (get_store s i)) (st_mo (get_store s j))); [reflexivity|].
  destruct (vv_lt (st_mo (get_store s i)) (st_mo (get_store s j))); [|reflexivity].
  destruct (is_seen_by_current (st_seen (get_store s j)) caus); [reflexivity|].
  destruct (is_seen_before_yield (st_seen (get_store s i)) me ly); [reflexivity|].
  destruct (is_seq_cst o && st_seqcst (get_store s i) && st_seqcst (get_store s j)); reflexivity.
Qed.

Lemma mlts_outer_g : forall s me caus ly o is_,
  mlts_outer s me caus ly o is_ = g_outer s (load_blk s me caus ly o) is_.
Proof.
  intros s me caus ly o is_. induction is_ as [|i rest IH]; [reflexivity|].
  cbn [mlts_outer g_outer]. rewrite IH. rewrite mlts_inner_g. reflexivity.
Qed.

Lemma mrts_inner_g : forall s i js,
  mrts_inner s i js = g_inner s (fun _ _ => true) i js.
Proof.
  intros s i js. induction js as [|j js IH]; [reflexivity|].
  cbn [mrts_inner g_inner]. rewrite IH. rewrite andb_true_r. reflexivity.
Qed.

Lemma mrts_outer_g : forall s is_,
  mrts_outer s is_ = g_outer s (fun _ _ => true) is_.
Proof.
  intros s is_. induction is_ as [|i rest IH]; [reflexivity|].
  cbn [mrts_outer g_outer]. rewrite IH. rewrite mrts_inner_g. reflexivity.
Qed.

Lemma in_seq7 : forall j, In j (seq 0 MAX_ATOMIC_HISTORY) <-> j < MAX_ATOMIC_HISTORY.
Proof. intros j. rewrite in_seq. lia. Qed.

Definition opt_true (r : option bool) : bool :=
  match r with Some true => true | _ => false end.

Section GenericSpec.
  Variable s : atomic_state.
  Variable blk : nat -> nat -> bool.

  Definition g_keep (i : nat) : bool :=
    Nat.ltb i (at_cnt s) && opt_true (g_inner s blk i (seq 0 MAX_ATOMIC_HISTORY)).

  Lemma g_inner_some : forall i js b,
    g_inner s blk i js = Some b ->
    (b = true <->
     forall j, In j js -> j <> i -> j < at_cnt s ->
       vv_lt (st_mo (get_store s i)) (st_mo (get_store s j)) = true -> blk i j = false).
  Proof.
    intros i js. induction js as [|j js IH]; intros b Hr.
    - cbn [g_inner] in Hr. inversion Hr. split; [|reflexivity].
      intros _ j Hj. contradiction.
    - cbn [g_inner] in Hr.
      destruct (Nat.eqb_spec i j) as [Heq|Hne]; cbn [orb] in Hr.
      { rewrite (IH b Hr). symmetry. apply Forall_cons_skip. intros Hji. congruence. }
      destruct (Nat.leb_spec (at_cnt s) j) as [Hdead|Hlive].
      { rewrite (IH b Hr). symmetry. apply Forall_cons_skip. intros _ Hjl. lia. }
      destruct (vv_eqb (st_mo (get_store s i)) (st_mo (get_store s j))); [discriminate|].
      destruct (vv_lt (st_mo (get_store s i)) (st_mo (get_store s j))) eqn:Hlt; cbn [andb] in Hr.
      + destruct (blk i j) eqn:Hb.
        * inversion Hr. split; [discriminate|]. intros H.
          rewrite (H j (or_introl eq_refl)) in Hb; [discriminate|lia|exact Hlive|exact Hlt].
        * rewrite (IH b Hr). symmetry. apply Forall_cons_skip. intros _ _ _. exact Hb.
      + rewrite (IH b Hr). symmetry. apply Forall_cons_skip. intros _ _ Hlt'.
        rewrite Hlt in Hlt'. discriminate.
  Qed.

  Lemma g_inner_none : forall i js,
    g_inner s blk i js = None ->
    exists j, In j js /\ j <> i /\ j < at_cnt s /\
              vv_eqb (st_mo (get_store s i)) (st_mo (get_store s j)) = true.
  Proof.
    intros i js. induction js as [|j js IH]; intros Hr.
    - cbn [g_inner] in Hr. discriminate.
    - cbn [g_inner] in Hr.
      destruct (Nat.eqb_spec i j) as [Heq|Hne]; cbn [orb] in Hr; [apply ex_In_cons, IH; exact Hr|].
      destruct (Nat.leb_spec (at_cnt s) j) as [Hdead|Hlive]; [apply ex_In_cons, IH; exact Hr|].
      destruct (vv_eqb (st_mo (get_store s i)) (st_mo (get_store s j))) eqn:He.
      + exists j. split; [left; reflexivity|]. split; [lia|]. split; [exact Hlive|exact He].
      + destruct (vv_lt (st_mo (get_store s i)) (st_mo (get_store s j)) && blk i j);
          [discriminate | apply ex_In_cons, IH; exact Hr].
  Qed.

  Lemma g_outer_some : forall is_ l,
    g_outer s blk is_ = Some l ->
    l = filter g_keep is_ /\
    forall i, In i is_ -> i < at_cnt s ->
      exists b, g_inner s blk i (seq 0 MAX_ATOMIC_HISTORY) = Some b.
  Proof.
    induction is_ as [|i rest IH]; intros l Hr.
    - cbn [g_outer] in Hr. inversion Hr. split; [reflexivity|]. intros i Hi. contradiction.
    - cbn [g_outer] in Hr. cbn [filter]. unfold g_keep at 1.
      destruct (Nat.leb_spec (at_cnt s) i) as [Hdead|Hlive].
      + destruct (IH l Hr) as [Hl Hsome]. split.
        * replace (Nat.ltb i (at_cnt s)) with false
            by (symmetry; apply Nat.ltb_ge; exact Hdead).
          cbn [andb]. exact Hl.
        * intros i' [Heq|Hi'] Hlt; [lia|]. apply Hsome; assumption.
      + replace (Nat.ltb i (at_cnt s)) with true
          by (symmetry; apply Nat.ltb_lt; exact Hlive).
        cbn [andb].
        destruct (g_inner s blk i (seq 0 MAX_ATOMIC_HISTORY)) as [keep|] eqn:Hin; [|discriminate].
        destruct (g_outer s blk rest) as [l'|] eqn:Hrest; [|discriminate].
        destruct (IH l' eq_refl) as [Hl Hsome]. inversion Hr. split.
        * destruct keep; cbn [opt_true]; rewrite <- Hl; reflexivity.
        * intros i' [Heq|Hi'] Hlt.
          -- subst i'. exists keep. exact Hin.
          -- apply Hsome; assumption.
  Qed.

  Lemma g_outer_none : forall is_,
    g_outer s blk is_ = None ->
    exists i, In i is_ /\ i < at_cnt s /\ g_inner s blk i (seq 0 MAX_ATOMIC_HISTORY) = None.
  Proof.
    induction is_ as [|i rest IH]; intros Hr.
    - cbn [g_outer] in Hr. discriminate.
    - cbn [g_outer] in Hr.
      destruct (Nat.leb_spec (at_cnt s) i) as [Hdead|Hlive]; [apply ex_In_cons, IH; exact Hr|].
      destruct (g_inner s blk i (seq 0 MAX_ATOMIC_HISTORY)) as [keep|] eqn:Hin.
      + apply ex_In_cons, IH. destruct (g_outer s blk rest) as [l'|]; [discriminate | reflexivity].
      + exists i. split; [left; reflexivity|]. split; [exact Hlive|exact Hin].
  Qed.

  (* the full loop: exact characterisation of the result *)
  Lemma g_candidates_spec : forall l,
    g_outer s blk (seq 0 MAX_ATOMIC_HISTORY) = Some l ->
    forall i, In i l <->
      (i < MAX_ATOMIC_HISTORY /\ i < at_cnt s /\
       forall j, j < MAX_ATOMIC_HISTORY -> j < at_cnt s -> j <> i ->
         vv_lt (st_mo (get_store s i)) (st_mo (get_store s j)) = true -> blk i j = false).
  Proof.
    intros l Hr i. destruct (g_outer_some _ Hr) as [Hl Hsome]. subst l.
    rewrite filter_In. rewrite in_seq7. unfold g_keep. rewrite andb_true_iff. rewrite Nat.ltb_lt.
    split.
    - intros [H7 [Hlive Hk]]. split; [exact H7|]. split; [exact Hlive|].
      destruct (g_inner s blk i (seq 0 MAX_ATOMIC_HISTORY)) as [b|] eqn:Hin; [|discriminate].
      destruct b; [|discriminate].
      pose proof (g_inner_some _ _ Hin) as Hspec. destruct Hspec as [Hspec _].
      intros j Hj7 Hjl Hne Hlt. apply (Hspec eq_refl j); try assumption.
      apply in_seq7. exact Hj7.
    - intros [H7 [Hlive Hall]]. split; [exact H7|]. split; [exact Hlive|].
      destruct (Hsome i) as [b Hin]; [apply in_seq7; exact H7 | exact Hlive |].
      rewrite Hin. pose proof (g_inner_some _ _ Hin) as Hspec. destruct Hspec as [_ Hspec].
      rewrite Hspec; [reflexivity|].
      intros j Hj Hne Hjl Hlt. apply Hall; try assumption. apply in_seq7. exact Hj.
  Qed.

  Lemma g_candidates_NoDup : forall l,
    g_outer s blk (seq 0 MAX_ATOMIC_HISTORY) = Some l -> NoDup l.
  Proof.
    intros l Hr. destruct (g_outer_some _ Hr) as [Hl _]. subst l.
    apply NoDup_filter. apply seq_NoDup.
  Qed.

  Lemma g_candidates_none :
    g_outer s blk (seq 0 MAX_ATOMIC_HISTORY) = None ->
    exists i j, i < MAX_ATOMIC_HISTORY /\ i < at_cnt s /\
                j < MAX_ATOMIC_HISTORY /\ j < at_cnt s /\ i <> j /\
                vv_eqb (st_mo (get_store s i)) (st_mo (get_store s j)) = true.
  Proof.
    intros Hr. destruct (g_outer_none _ Hr) as [i [Hi [Hlive Hin]]].
    destruct (g_inner_none _ _ Hin) as [j [Hj [Hne [Hjl He]]]].
    exists i, j. apply in_seq7 in Hi. apply in_seq7 in Hj.
    repeat split; try assumption. lia.
  Qed.
End GenericSpec.

Lemma NoDup_singleton : forall (l : list nat) n,
  NoDup l -> (forall i, In i l <-> i = n) -> l = [n].
Proof.
  intros l n Hnd Hin. destruct l as [|a l].
  { exfalso. apply (Hin n). reflexivity. }
  assert (Ha : a = n) by (apply Hin; left; reflexivity). subst a. f_equal.
  destruct l as [|b l]; [reflexivity|]. exfalso.
  assert (Hb : b = n) by (apply Hin; right; left; reflexivity). subst b.
  inversion Hnd as [|x l' Hnot Hnd']. apply Hnot. left. reflexivity.
Qed.

Lemma g_candidates_newest : forall me s caus blk,
  Inv me s caus ->
  (forall i, live s i -> i <> newest s -> blk i (newest s) = true) ->
  g_outer s blk (seq 0 MAX_ATOMIC_HISTORY) = Some [newest s].
Proof.
  intros me s caus blk HI Hb. destruct (live_newest HI) as [Hn7 Hn].
  destruct (g_outer s blk (seq 0 MAX_ATOMIC_HISTORY)) as [l|] eqn:Hr.
  2:{ destruct (g_candidates_none _ _ Hr) as [i [j [Hi7 [Hi [Hj7 [Hj [Hne He]]]]]]].
      rewrite (live_mo_neq HI (conj Hi7 Hi) (conj Hj7 Hj) Hne) in He. discriminate. }
  f_equal. apply NoDup_singleton; [apply (g_candidates_NoDup _ _ Hr)|].
  intros i. rewrite (g_candidates_spec _ _ Hr i). split.
  - intros [Hi7 [Hi Hall]].
    destruct (Nat.eq_dec i (newest s)) as [Heq|Hne]; [exact Heq|]. exfalso.
    destruct (inv_max HI (conj Hi7 Hi) Hne) as [Hk _].
    pose proof (Hall (newest s) Hn7 Hn (not_eq_sym Hne)
                  (key_lt_mo_lt HI (conj Hi7 Hi) (conj Hn7 Hn) Hk)) as Hf.
    rewrite (Hb i (conj Hi7 Hi) Hne) in Hf. discriminate.
  - intros Heq. subst i. split; [exact Hn7|]. split; [exact Hn|].
    intros j Hj7 Hj Hne Hlt. rewrite (newest_not_lt HI Hne) in Hlt. discriminate.
Qed.

Theorem single_thread_load_candidates : forall me s caus,
  Inv me s caus ->
  forall o, match_load_to_stores s me (vv_inc caus me) None o = Some [aindex (at_cnt s - 1)].
Proof.
  intros me s caus HI o. unfold match_load_to_stores. rewrite mlts_outer_g.
  apply (g_candidates_newest _ HI). intros i _ _. unfold load_blk.
  rewrite (live_seen (vv_inc caus me) HI (vle_inc caus me me) (live_newest HI)).
  reflexivity.
Qed.

Theorem single_thread_rmw_candidates : forall me s caus,
  Inv me s caus -> match_rmw_to_stores s = Some [aindex (at_cnt s - 1)].
Proof.
  intros me s caus HI. unfold match_rmw_to_stores. rewrite mrts_outer_g.
  apply (g_candidates_newest _ HI). reflexivity.
Qed.

(* ------------------------------------------------------------------ *)
(* state changes that leave the stores alone                           *)

Definition tl_state (s : atomic_state) (caus : vv) : atomic_state :=
  mkAtomic (vv_join (at_loaded s) caus) (at_unsync_loaded s) (at_stored s)
           (at_unsync_mut s) (at_mutating s) (at_last_loads s) (at_last_nonload s)
           (at_stores s) (at_cnt s).
Definition ts_state (s : atomic_state) (caus : vv) : atomic_state :=
  mkAtomic (at_loaded s) (at_unsync_loaded s) (vv_join (at_stored s) caus)
           (at_unsync_mut s) (at_mutating s) (at_last_loads s) (at_last_nonload s)
           (at_stores s) (at_cnt s).

Lemma track_load_ok : forall me s caus c',
  Inv me s caus -> vle caus c' -> track_load s c' = inl (tl_state s c').
Proof.
  intros me s caus c' HI Hc. unfold track_load, tl_state.
  pose proof (inv_mut HI) as Hm. destruct (at_mutating s); [discriminate|].
  assert (Ha : vv_ahead c' (at_unsync_mut s) = None).
  { apply vv_ahead_none. eapply vle_trans; [apply (inv_um HI) | exact Hc]. }
  rewrite Ha. reflexivity.
Qed.

Lemma track_store_ok : forall me s caus c',
  Inv me s caus -> vle caus c' -> track_store s c' = inl (ts_state s c').
Proof.
  intros me s caus c' HI Hc. unfold track_store, ts_state.
  pose proof (inv_mut HI) as Hm. destruct (at_mutating s); [discriminate|].
  assert (Ha : vv_ahead c' (at_unsync_mut s) = None).
  { apply vv_ahead_none. eapply vle_trans; [apply (inv_um HI) | exact Hc]. }
  assert (Hb : vv_ahead c' (at_unsync_loaded s) = None).
  { apply vv_ahead_none. eapply vle_trans; [apply (inv_ul HI) | exact Hc]. }
  rewrite Ha, Hb. reflexivity.
Qed.

Lemma Inv_tl : forall me s caus c', Inv me s caus -> Inv me (tl_state s c') caus.
Proof. intros me s caus c' HI. destruct HI. constructor; assumption. Qed.

Lemma Inv_ts : forall me s caus c', Inv me s caus -> Inv me (ts_state s c') caus.
Proof. intros me s caus c' HI. destruct HI. constructor; assumption. Qed.

(* the invariant only gets weaker when the thread's clock grows *)
Lemma Inv_mono : forall me s caus c',
  Inv me s caus -> vle caus c' -> me < length c' -> Inv me s c'.
Proof.
  intros me s caus c' HI Hc Hlen.
  pose proof (Hc me) as Hme.
  destruct HI as [H1 H2 H3 H4 H5 H6 H7 H8 H9 H10 H11 H12 H13 H14].
  constructor; try assumption.
  - eapply vle_trans; [exact H6 | exact Hc].
  - eapply vle_trans; [exact H7 | exact Hc].
  - intros i. specialize (H9 i). lia.
  - intros i Hi. destruct (H10 i Hi) as [v [Hnth Hv]]. exists v. split; [exact Hnth | lia].
Qed.

(* ------------------------------------------------------------------ *)
(* State::store preserves the invariant                                *)

Lemma get_store_set : forall s idx x c i,
  idx < length (at_stores s) ->
  get_store (at_set_stores s (list_set (at_stores s) idx x) c) i =
  if Nat.eqb i idx then x else get_store s i.
Proof.
  intros s idx x c i Hlt. unfold get_store. simpl. apply list_set_nth. exact Hlt.
Qed.

Definition store_mo (s : atomic_state) (c' : vv) : vv :=
  fold_left
    (fun mo x => if is_seen_by_current (st_seen x) c' then vv_join mo (st_mo x) else mo)
    (at_stores s) c'.

Lemma store_mo_key : forall me s caus c',
  Inv me s caus -> vv_get caus me <= vv_get c' me ->
  vv_get (store_mo s c') me = vv_get c' me.
Proof.
  intros me s caus c' HI Hc. unfold store_mo.
  apply (@fold_keep astore _ (fun x => vv_get (st_mo x) me) me).
  - intros mo a Hb. destruct (is_seen_by_current (st_seen a) c'); [|reflexivity].
    rewrite vv_get_join. lia.
  - intros a Ha. apply (In_nth _ _ store_default) in Ha. destruct Ha as [i [_ Hi]].
    pose proof (inv_keyle HI i) as Hk. unfold key, get_store in Hk. rewrite Hi in Hk. lia.
Qed.

Lemma store_mo_ge_caus : forall s c, vle c (store_mo s c).
Proof.
  intros s c. unfold store_mo. apply fold_grow.
  intros mo a. destruct (is_seen_by_current (st_seen a) c); [apply vle_join_l | apply vle_refl].
Qed.

Lemma store_mo_ge_seen : forall s c x,
  In x (at_stores s) -> is_seen_by_current (st_seen x) c = true ->
  vle (st_mo x) (store_mo s c).
Proof.
  intros s c x Hx Hseen. unfold store_mo.
  apply (@fold_in astore _ st_mo (fun x => is_seen_by_current (st_seen x) c)).
  - intros mo a. destruct (is_seen_by_current (st_seen a) c); [apply vle_join_l | apply vle_refl].
  - intros mo a Hp. rewrite Hp. apply vle_join_r.
  - exact Hx.
  - exact Hseen.
Qed.

Lemma store_mo_ge : forall me s caus c' i,
  Inv me s caus -> vv_get caus me <= vv_get c' me -> live s i ->
  vle (st_mo (get_store s i)) (store_mo s c').
Proof.
  intros me s caus c' i HI Hc Hi.
  apply store_mo_ge_seen; [|apply (live_seen c' HI Hc Hi)].
  unfold get_store. apply nth_In. rewrite (inv_len HI). destruct Hi as [Hi _]. exact Hi.
Qed.

(* ---- the RMW-atomicity passes ---- *)
(* a pass leaves [mo] alone when it already dominates every st_mo of the ring *)
Lemma fold_left_fix : forall (A B : Type) (f : B -> A -> B) (b : B) (l : list A),
  (forall a, In a l -> f b a = b) -> fold_left f l b = b.
Proof.
  intros A B f b l. induction l as [|a l IH]; intros Hfix.
  - reflexivity.
  - cbn [fold_left]. rewrite (Hfix a) by (left; reflexivity).
    apply IH. intros a' Ha'. apply Hfix. right. exact Ha'.
Qed.

Lemma rmw_atomicity_pass_id : forall stores src mo,
  (forall x, In x stores -> vv_le (st_mo x) mo = true) ->
  rmw_atomicity_pass stores src mo = (mo, false).
Proof.
  intros stores src mo Hdom. unfold rmw_atomicity_pass.
  apply fold_left_fix. intros a Ha. cbv beta iota.
  destruct (st_rmw_src a) as [[slot sid]|]; [|reflexivity].
  destruct (src_eqb (Some (slot, sid)) src); [reflexivity|].
  cbv zeta.
  destruct (negb (Nat.eqb (st_id (nth slot stores store_default)) sid)); [reflexivity|].
  rewrite (Hdom a Ha). cbn [negb]. rewrite Bool.andb_false_r. reflexivity.
Qed.

Lemma rmw_atomicity_id : forall fuel stores src mo,
  (forall x, In x stores -> vv_le (st_mo x) mo = true) ->
  rmw_atomicity fuel stores src mo = mo.
Proof.
  intros fuel stores src mo Hdom. destruct fuel as [|f]; [reflexivity|].
  cbn [rmw_atomicity]. rewrite (@rmw_atomicity_pass_id stores src mo Hdom). reflexivity.
Qed.

(* in a single-thread run the new store's modification order before the passes
   already dominates every st_mo of the ring (live slots: store_mo_ge; dead
   slots are store_default with st_mo = vv_new) *)
Lemma store_mo_dominates : forall me s caus c' x,
  Inv me s caus -> vv_get caus me <= vv_get c' me ->
  In x (at_stores s) -> vv_le (st_mo x) (store_mo s c') = true.
Proof.
  intros me s caus c' x HI Hc Hin. apply vv_le_spec.
  apply (In_nth _ _ store_default) in Hin. destruct Hin as [i [_ Hx]]. subst x.
  fold (get_store s i). destruct (live_or_default i HI) as [Hl|Hd].
  - apply (store_mo_ge c' HI Hc Hl).
  - rewrite Hd. apply vle_new.
Qed.

(* so the passes change nothing: the state after State::store_from *)
Lemma atomic_store_from_eq : forall me s caus c' rel sync0 v o src,
  Inv me s caus -> vv_get caus me <= vv_get c' me ->
  atomic_store_from s me c' rel sync0 v o src =
  at_set_stores s
    (list_set (at_stores s) (aindex (at_cnt s))
       (mkStore v c' (store_mo s c') (sync_store sync0 c' rel o)
                (seen_touch seen_new me (vv_get c' me)) (is_seq_cst o) (at_cnt s) src))
    (S (at_cnt s)).
Proof.
  intros me s caus c' rel sync0 v o src HI Hc.
  unfold atomic_store_from. cbv zeta. fold (store_mo s c').
  rewrite rmw_atomicity_id; [reflexivity|].
  intros x Hx. apply (@store_mo_dominates me s caus c' x HI Hc Hx).
Qed.

(* [src] is None (State::store) or names the newest slot (State::rmw, which reads it) *)
Lemma atomic_store_from_inv : forall me s caus c' rel sync0 v o src,
  Inv me s caus -> vle caus c' -> vv_get caus me < vv_get c' me -> me < length c' ->
  (forall slot sid, src = Some (slot, sid) -> slot = newest s) ->
  Inv me (atomic_store_from s me c' rel sync0 v o src) c' /\
  cur (atomic_store_from s me c' rel sync0 v o src) = v.
Proof.
  intros me s caus c' rel sync0 v o src HI Hc Hlt Hlen Hsrc.
  assert (Hc' : vv_get caus me <= vv_get c' me) by lia.
  rewrite (@atomic_store_from_eq me s caus c' rel sync0 v o src HI Hc').
  set (idx := aindex (at_cnt s)).
  pose proof (aindex_lt (at_cnt s)) as Hidx. fold idx in Hidx.
  assert (Hidx' : idx < length (at_stores s)) by (rewrite (inv_len HI); exact Hidx).
  set (x := mkStore v c' (store_mo s c') (sync_store sync0 c' rel o)
                    (seen_touch seen_new me (vv_get c' me)) (is_seq_cst o) (at_cnt s) src).
  set (s' := at_set_stores s (list_set (at_stores s) idx x) (S (at_cnt s))).
  assert (Hcnt : at_cnt s' = S (at_cnt s)) by reflexivity.
  assert (Hnew : newest s' = idx).
  { unfold newest. rewrite Hcnt. simpl. rewrite Nat.sub_0_r. reflexivity. }
  assert (Hget : forall i, get_store s' i = if Nat.eqb i idx then x else get_store s i).
  { intros i. apply (get_store_set s x (S (at_cnt s)) i Hidx'). }
  assert (Hgetn : get_store s' idx = x).
  { rewrite Hget. rewrite Nat.eqb_refl. reflexivity. }
  assert (Hgeto : forall i, i <> idx -> get_store s' i = get_store s i).
  { intros i Hi. rewrite Hget. destruct (Nat.eqb_spec i idx); [contradiction|reflexivity]. }
  assert (Hkeyn : key me s' idx = vv_get c' me).
  { unfold key. rewrite Hgetn. simpl. apply (store_mo_key c' HI Hc'). }
  assert (Hkeyo : forall i, i <> idx -> key me s' i = key me s i).
  { intros i Hi. unfold key. rewrite (Hgeto i Hi). reflexivity. }
  assert (Hold : forall i, i <> idx -> key me s' i < key me s' idx).
  { intros i Hi. rewrite Hkeyn, (Hkeyo i Hi). pose proof (inv_keyle HI i) as Hki. lia. }
  assert (Hlive : forall i, live s' i -> i <> idx -> live s i).
  { intros i [H7 HS] Hi. rewrite Hcnt in HS. split; [exact H7|].
    apply (live_after_store H7 HS Hi). }
  assert (Hmo : forall i, live s' i -> i <> idx ->
                  vle (st_mo (get_store s' i)) (st_mo (get_store s' idx))).
  { intros i Hi Hne. rewrite Hgetn, (Hgeto i Hne). apply (store_mo_ge c' HI Hc' (Hlive i Hi Hne)). }
  split.
  2:{ unfold cur. rewrite Hnew. rewrite Hgetn. reflexivity. }
  constructor.
  - exact Hlen.
  - apply (inv_meT HI).
  - change (length (list_set (at_stores s) idx x) = MAX_ATOMIC_HISTORY).
    rewrite list_set_length. apply (inv_len HI).
  - rewrite Hcnt. lia.
  - apply (inv_mut HI).
  - eapply vle_trans; [apply (inv_um HI) | exact Hc].
  - eapply vle_trans; [apply (inv_ul HI) | exact Hc].
  - intros i Hi. rewrite Hcnt in Hi. rewrite Hgeto by (apply dead_not_written; exact Hi).
    apply (inv_dead HI). lia.
  - intros i. destruct (Nat.eq_dec i idx) as [Heq|Hne].
    + subst i. rewrite Hkeyn. lia.
    + pose proof (Hold i Hne) as Ho. rewrite Hkeyn in Ho. lia.
  - intros i Hi. destruct (Nat.eq_dec i idx) as [Heq|Hne].
    + subst i. rewrite Hgetn. exists (vv_get c' me). split; [|lia].
      simpl. apply seen_touch_new. apply (inv_meT HI).
    + rewrite (Hgeto i Hne). destruct (inv_seen HI (Hlive i Hi Hne)) as [w [Hnth Hw]].
      exists w. split; [exact Hnth | lia].
  - intros i Hi Hne. rewrite Hnew in Hne. rewrite Hnew.
    split; [apply (Hold i Hne) | apply (Hmo i Hi Hne)].
  - intros i j Hi Hj Hij.
    destruct (Nat.eq_dec i idx) as [Hie|Hie].
    { subst i. pose proof (Hold j (not_eq_sym Hij)) as Ho. lia. }
    destruct (Nat.eq_dec j idx) as [Hje|Hje].
    { subst j. pose proof (Hold i Hie) as Ho. lia. }
    rewrite (Hkeyo i Hie), (Hkeyo j Hje).
    apply (inv_distinct HI (Hlive i Hi Hie) (Hlive j Hj Hje) Hij).
  - intros i j Hi Hj Hk.
    destruct (Nat.eq_dec j idx) as [Hje|Hje].
    { subst j. apply (Hmo i Hi). intros Hie. subst i. lia. }
    destruct (Nat.eq_dec i idx) as [Hie|Hie].
    { subst i. pose proof (Hold j Hje) as Ho. lia. }
    rewrite (Hkeyo i Hie), (Hkeyo j Hje) in Hk. rewrite (Hgeto i Hie), (Hgeto j Hje).
    apply (inv_order HI (Hlive i Hi Hie) (Hlive j Hj Hje) Hk).
  - intros r slot sid Hr Hsrc_r Hsr.
    assert (Hup : forall i, live s i -> live s' i).
    { intros i [H7 Hi]. split; [exact H7 | rewrite Hcnt; lia]. }
    destruct (Nat.eq_dec r idx) as [Hre|Hre].
    + (* the new store: its source is the slot that was newest *)
      subst r. rewrite Hgetn in Hsrc_r. change (st_rmw_src x) with src in Hsrc_r.
      pose proof (Hsrc slot sid Hsrc_r) as Hslot. subst slot.
      split; [apply Hup; apply (live_newest HI)|].
      intros i Hi Hir His. left.
      rewrite (Hkeyo i Hir), (Hkeyo (newest s) Hsr).
      destruct (inv_max HI (Hlive i Hi Hir) His) as [Hk _]. exact Hk.
    + rewrite (Hgeto r Hre) in Hsrc_r. pose proof (Hlive r Hr Hre) as Hr0.
      destruct (Nat.eq_dec slot idx) as [Hse|Hse].
      * (* the source slot is overwritten: it now holds the largest key *)
        subst slot. split.
        -- split; [exact Hidx | rewrite Hcnt; pose proof (aindex_le (at_cnt s)) as Hle; fold idx in Hle; lia].
        -- intros i Hi Hir His. left. apply Hold. exact His.
      * destruct (inv_rmw HI Hr0 Hsrc_r Hsr) as [Hsl Hbet]. split; [apply Hup; exact Hsl|].
        intros i Hi Hir His.
        destruct (Nat.eq_dec i idx) as [Hie|Hie].
        -- subst i. right. apply Hold. exact Hre.
        -- rewrite (Hkeyo i Hie), (Hkeyo slot Hse), (Hkeyo r Hre).
           apply Hbet; [apply (Hlive i Hi Hie) | exact Hir | exact His].
Qed.

Lemma atomic_store_inv : forall me s caus c' rel sync0 v o,
  Inv me s caus -> vle caus c' -> vv_get caus me < vv_get c' me -> me < length c' ->
  Inv me (atomic_store s me c' rel sync0 v o) c' /\
  cur (atomic_store s me c' rel sync0 v o) = v.
Proof.
  intros me s caus c' rel sync0 v o HI Hc Hlt Hlen. unfold atomic_store.
  apply (atomic_store_from_inv rel sync0 v o HI Hc Hlt Hlen).
  intros slot sid Hsrc. discriminate.
Qed.

(* ------------------------------------------------------------------ *)
(* the load part shared by State::load and State::rmw                  *)

Definition loadpart (s1 : atomic_state) (me : nat) (caus : vv) (index : nat) : atomic_state :=
  let s2 := apply_load_coherence s1 caus index in
  at_set_stores s2
    (list_upd (at_stores s2) index
       (fun x => st_set_seen x (seen_touch (st_seen x) me (vv_get caus me))))
    (at_cnt s2).

(* the modification order computed by apply_load_coherence *)
Definition alc_mo (s : atomic_state) (caus : vv) (index : nat) : vv :=
  fold_left
    (fun mo (ix : nat * astore) =>
       let '(i, x) := ix in
       if Nat.eqb index i then mo
       else
         let mo := if is_seen_by_current (st_seen x) caus then vv_join mo (st_mo x) else mo in
         if vv_lt (st_hb x) caus then vv_join mo (st_mo x) else mo)
    (index_list (at_stores s)) (st_mo (get_store s index)).

Lemma alc_mo_ge : forall s caus index,
  vle (st_mo (get_store s index)) (alc_mo s caus index).
Proof.
  intros s caus index. unfold alc_mo. apply fold_grow.
  intros mo [i x]. destruct (Nat.eqb index i); [apply vle_refl|].
  destruct (is_seen_by_current (st_seen x) caus); destruct (vv_lt (st_hb x) caus);
    intros k; rewrite ?vv_get_join; lia.
Qed.

Lemma alc_mo_key : forall me s caus c' ,
  Inv me s caus ->
  vv_get (alc_mo s c' (newest s)) me = key me s (newest s).
Proof.
  intros me s caus c' HI. unfold alc_mo, key.
  apply (@fold_keep (nat * astore) _ (fun ix => vv_get (st_mo (snd ix)) me) me).
  - intros mo [i x] Hb. simpl in Hb. destruct (Nat.eqb (newest s) i); [reflexivity|].
    destruct (is_seen_by_current (st_seen x) c'); destruct (vv_lt (st_hb x) c');
      rewrite ?vv_get_join; lia.
  - intros [i x] Hin. simpl. apply (@index_list_In astore _ i x store_default) in Hin.
    destruct Hin as [_ Hx]. subst x.
    apply (key_le_newest i HI).
Qed.

Definition raise_newest (s : atomic_state) (M : vv) : atomic_state :=
  at_set_stores s (list_upd (at_stores s) (newest s) (fun x => st_set_mo x M)) (at_cnt s).

Lemma get_store_raise : forall me s caus M i,
  Inv me s caus ->
  get_store (raise_newest s M) i =
  if Nat.eqb i (newest s) then st_set_mo (get_store s (newest s)) M else get_store s i.
Proof.
  intros me s caus M i HI. destruct (live_newest HI) as [Hn _].
  apply list_upd_nth. rewrite (inv_len HI). exact Hn.
Qed.

Lemma raise_newest_inv : forall me s caus M,
  Inv me s caus ->
  vle (st_mo (get_store s (newest s))) M -> vv_get M me = key me s (newest s) ->
  Inv me (raise_newest s M) caus /\ cur (raise_newest s M) = cur s.
Proof.
  intros me s caus M HI HM HMk.
  pose proof (live_newest HI) as Hn.
  set (s' := raise_newest s M).
  assert (Hgetn : get_store s' (newest s) = st_set_mo (get_store s (newest s)) M).
  { unfold s'. rewrite (get_store_raise M (newest s) HI), Nat.eqb_refl. reflexivity. }
  assert (Hgeto : forall i, i <> newest s -> get_store s' i = get_store s i).
  { intros i Hi. unfold s'. rewrite (get_store_raise M i HI).
    destruct (Nat.eqb_spec i (newest s)); [contradiction|reflexivity]. }
  assert (Hkey : forall i, key me s' i = key me s i).
  { intros i. destruct (Nat.eq_dec i (newest s)) as [Heq|Hne].
    - subst i. unfold key at 1. rewrite Hgetn. exact HMk.
    - unfold key. rewrite (Hgeto i Hne). reflexivity. }
  split.
  2:{ unfold cur. change (newest s') with (newest s). rewrite Hgetn. reflexivity. }
  (* [at_cnt] and the fields outside the ring are those of [s]; so are [live] and [newest] *)
  constructor.
  - apply (inv_me HI).
  - apply (inv_meT HI).
  - unfold s', raise_newest. cbn [at_stores at_set_stores].
    rewrite list_upd_length. apply (inv_len HI).
  - apply (inv_cnt HI).
  - apply (inv_mut HI).
  - apply (inv_um HI).
  - apply (inv_ul HI).
  - intros i Hi.
    assert (Hne : i <> newest s) by (destruct Hn as [_ Hn]; change (at_cnt s') with (at_cnt s) in Hi; lia).
    rewrite (Hgeto i Hne). apply (inv_dead HI Hi).
  - intros i. rewrite Hkey. apply (inv_keyle HI).
  - intros i Hi. destruct (Nat.eq_dec i (newest s)) as [Heq|Hne].
    + subst i. rewrite Hgetn. apply (inv_seen HI Hi).
    + rewrite (Hgeto i Hne). apply (inv_seen HI Hi).
  - intros i Hi Hne. change (newest s') with (newest s) in *. rewrite !Hkey.
    destruct (inv_max HI Hi Hne) as [Hk Hle]. split; [exact Hk|].
    rewrite (Hgeto i Hne), Hgetn. eapply vle_trans; [exact Hle | exact HM].
  - intros i j Hi Hj Hij. rewrite !Hkey. apply (inv_distinct HI Hi Hj Hij).
  - intros i j Hi Hj Hk. rewrite !Hkey in Hk.
    pose proof (key_le_newest j HI) as Hjn.
    assert (Hine : i <> newest s) by (intros Heq; subst i; lia).
    rewrite (Hgeto i Hine).
    destruct (Nat.eq_dec j (newest s)) as [Heq|Hne].
    + subst j. rewrite Hgetn. destruct (inv_max HI Hi Hine) as [_ Hle].
      eapply vle_trans; [exact Hle | exact HM].
    + rewrite (Hgeto j Hne). apply (inv_order HI Hi Hj Hk).
  - intros r slot sid Hr Hsrc Hsr.
    assert (Hsrc0 : st_rmw_src (get_store s r) = Some (slot, sid)).
    { destruct (Nat.eq_dec r (newest s)) as [Heq|Hne].
      - subst r. rewrite Hgetn in Hsrc. exact Hsrc.
      - rewrite (Hgeto r Hne) in Hsrc. exact Hsrc. }
    destruct (inv_rmw HI Hr Hsrc0 Hsr) as [Hsl Hbet].
    split; [exact Hsl|].
    intros i Hi Hir His. rewrite !Hkey. apply (Hbet i Hi Hir His).
Qed.

(* ---- the RMW-atomicity closure at the end of apply_load_coherence ---- *)
(* under the invariant neither rule of [close_step] fires: the live slots are totally
   ordered by their key and no live key lies between an RMW's source and the RMW *)
Lemma close_step_id : forall me s caus r i,
  Inv me s caus -> live s r -> live s i ->
  close_step (at_stores s, false) (r, i) = (at_stores s, false).
Proof.
  intros me s caus r i HI Hr Hi. unfold close_step. cbv beta iota zeta.
  fold (get_store s r). fold (get_store s i).
  destruct (st_rmw_src (get_store s r)) as [[slot sid]|] eqn:Hsrc; [|reflexivity].
  fold (get_store s slot).
  destruct (negb (Nat.eqb slot r) && Nat.eqb (st_id (get_store s slot)) sid) eqn:Hc;
    [|reflexivity].
  destruct (Nat.eqb i r || Nat.eqb i slot) eqn:Hex; [reflexivity|].
  apply Bool.andb_true_iff in Hc. destruct Hc as [Hsr _].
  apply Bool.negb_true_iff in Hsr. apply Nat.eqb_neq in Hsr.
  apply Bool.orb_false_iff in Hex. destruct Hex as [Hir His].
  apply Nat.eqb_neq in Hir. apply Nat.eqb_neq in His.
  destruct (inv_rmw HI Hr Hsrc Hsr) as [Hsl Hbet].
  destruct (Hbet i Hi Hir His) as [Hk|Hk].
  - rewrite (key_lt_not_le _ _ _ _ Hk).
    rewrite (proj2 (vv_le_spec _ _) (inv_order HI Hi Hsl Hk)).
    cbn [andb negb]. rewrite Bool.andb_false_r. reflexivity.
  - rewrite (key_lt_not_le _ _ _ _ Hk).
    rewrite (proj2 (vv_le_spec _ _) (inv_order HI Hr Hi Hk)).
    cbn [andb negb]. rewrite Bool.andb_false_r. reflexivity.
Qed.

Lemma close_rmw_atomicity_id : forall me s caus fuel,
  Inv me s caus ->
  close_rmw_atomicity fuel (Nat.min (at_cnt s) MAX_ATOMIC_HISTORY) (at_stores s) = at_stores s.
Proof.
  intros me s caus fuel HI. destruct fuel as [|f]; [reflexivity|].
  cbn [close_rmw_atomicity].
  rewrite fold_left_fix; [reflexivity|].
  intros [r i] Hin. apply in_prod_iff in Hin. destruct Hin as [Hr Hi].
  apply in_seq in Hr. apply in_seq in Hi.
  apply (close_step_id HI); split; lia.
Qed.

(* a single-thread load reads the newest store, so the propagation step of
   apply_load_coherence (stores ordered after the loaded one follow its new st_mo)
   finds nothing to move, and the RMW-atomicity closure that follows finds the
   invariant again ([raise_newest_inv]) and changes nothing: the ring
   after apply_load_coherence is the ring with the newest slot's st_mo replaced by
   [alc_mo] ([raise_newest]) *)
Lemma alc_stores_newest : forall me s caus c',
  Inv me s caus ->
  at_stores (apply_load_coherence s c' (newest s)) =
  at_stores (raise_newest s (alc_mo s c' (newest s))).
Proof.
  intros me s caus c' HI.
  destruct (raise_newest_inv HI (alc_mo_ge s c' (newest s)) (alc_mo_key c' HI)) as [HI1 _].
  set (M := alc_mo s c' (newest s)) in *.
  set (s1 := raise_newest s M) in *.
  set (before := st_mo (get_store s (newest s))).
  set (F := fun (i : nat) (x : astore) =>
              if negb (Nat.eqb (newest s) i) && vv_lt before (st_mo x)
              then st_set_mo x (vv_join (st_mo x) M) else x).
  assert (Hst : at_stores (apply_load_coherence s c' (newest s)) =
                close_rmw_atomicity (4 * MAX_ATOMIC_HISTORY)
                  (Nat.min (at_cnt s) MAX_ATOMIC_HISTORY)
                  (if vv_eqb M before then at_stores s1 else mapi F (at_stores s1)))
    by reflexivity.
  assert (Hid : (if vv_eqb M before then at_stores s1 else mapi F (at_stores s1)) = at_stores s1).
  { destruct (vv_eqb M before); [reflexivity|].
    apply (@mapi_id astore F _ store_default). intros i Hi.
    unfold F. destruct (Nat.eqb_spec (newest s) i) as [Heq|Hne]; [reflexivity|].
    cbn [negb andb]. fold (get_store s1 i). unfold s1.
    rewrite (get_store_raise M i HI).
    destruct (Nat.eqb_spec i (newest s)) as [Heq|_]; [congruence|].
    unfold before. rewrite (@newest_not_lt me s caus i HI) by congruence. reflexivity. }
  rewrite Hst, Hid.
  exact (close_rmw_atomicity_id (4 * MAX_ATOMIC_HISTORY) HI1).
Qed.

(* the loaded slot is already marked seen by [me], so marking it again changes nothing *)
Lemma loadpart_newest : forall me s caus c',
  Inv me s caus ->
  loadpart s me c' (newest s) = raise_newest s (alc_mo s c' (newest s)).
Proof.
  intros me s caus c' HI.
  destruct (raise_newest_inv HI (alc_mo_ge s c' (newest s)) (alc_mo_key c' HI)) as [HI1 _].
  set (s1 := raise_newest s (alc_mo s c' (newest s))) in *.
  set (touch := fun x => st_set_seen x (seen_touch (st_seen x) me (vv_get c' me))).
  change (loadpart s me c' (newest s))
    with (at_set_stores s
            (list_upd (at_stores (apply_load_coherence s c' (newest s))) (newest s) touch)
            (at_cnt s)).
  rewrite (alc_stores_newest c' HI).
  rewrite (list_upd_fix touch _ (newest s) store_default); [reflexivity|].
  change (touch (get_store s1 (newest s1)) = get_store s1 (newest s1)).
  destruct (inv_seen HI1 (live_newest HI1)) as [v [Hnth _]].
  unfold touch. rewrite (seen_touch_same _ _ _ Hnth).
  destruct (get_store s1 (newest s1)). reflexivity.
Qed.

Lemma loadpart_inv : forall me s caus c' c'',
  Inv me s caus ->
  Inv me (loadpart (tl_state s c') me c'' (newest s)) caus /\
  cur (loadpart (tl_state s c') me c'' (newest s)) = cur s /\
  at_cnt (loadpart (tl_state s c') me c'' (newest s)) = at_cnt s.
Proof.
  intros me s caus c' c'' HI.
  pose proof (Inv_tl c' HI) as HI1.
  change (newest s) with (newest (tl_state s c')).
  rewrite (loadpart_newest c'' HI1).
  destruct (raise_newest_inv HI1 (alc_mo_ge (tl_state s c') c'' (newest s)) (alc_mo_key c'' HI1))
    as [HI2 Hcur].
  split; [exact HI2|]. split; [exact Hcur|]. reflexivity.
Qed.

(* ------------------------------------------------------------------ *)
(* the single-thread driver                                            *)

Inductive sop :=
  | SLoad (o : ord)
  | SStore (v : N) (o : ord)
  | SRmw (f : N -> option N) (so fo : ord).

(* One operation of thread [me]; the state is the atomic cell and the thread's
   clock. As in Ops.v the thread first increments its own component. The third
   component of the result is the value read (None for a store). The driver
   fails (None) when the candidate list is not a singleton, when the
   modification-order assertion fires and when a causality check panics. *)
Definition sstep (me : nat) (st : atomic_state * vv) (op : sop)
  : option (atomic_state * vv * option N) :=
  let s := fst st in
  let caus := vv_inc (snd st) me in
  match op with
  | SLoad o =>
      match match_load_to_stores s me caus None o with
      | Some [idx] =>
          match atomic_load s me caus idx o with
          | inl (s', caus', v) => Some (s', caus', Some v)
          | inr _ => None
          end
      | _ => None
      end
  | SStore v o =>
      match track_store s caus with
      | inl s1 => Some (atomic_store s1 me caus vv_new vv_new v o, caus, None)
      | inr _ => None
      end
  | SRmw f so fo =>
      match match_rmw_to_stores s with
      | Some [idx] =>
          match atomic_rmw s me caus vv_new idx so fo f with
          | inl (s', caus', prev, _) => Some (s', caus', Some prev)
          | inr _ => None
          end
      | _ => None
      end
  end.

Fixpoint srun (me : nat) (st : atomic_state * vv) (ops : list sop)
  : option (atomic_state * vv * list (option N)) :=
  match ops with
  | [] => Some (st, [])
  | op :: ops' =>
      match sstep me st op with
      | None => None
      | Some (s', c', r) =>
          match srun me (s', c') ops' with
          | None => None
          | Some (st'', rs) => Some (st'', r :: rs)
          end
      end
  end.

(* the reference: one memory cell *)
Definition ref_step (curv : N) (op : sop) : option N * N :=
  match op with
  | SLoad _ => (Some curv, curv)
  | SStore v _ => (None, v)
  | SRmw f _ _ => (Some curv, match f curv with Some next => next | None => curv end)
  end.

Fixpoint ref_run (curv : N) (ops : list sop) : list (option N) :=
  match ops with
  | [] => []
  | op :: ops' => fst (ref_step curv op) :: ref_run (snd (ref_step curv op)) ops'
  end.

Lemma sync_load_ge : forall c sy o, vle c (sync_load c sy o).
Proof.
  intros c sy o. unfold sync_load. destruct (ord_acq o); [apply vle_join_l | apply vle_refl].
Qed.

Lemma sync_load_len : forall me c sy o, me < length c -> me < length (sync_load c sy o).
Proof.
  intros me c sy o Hlen. unfold sync_load. destruct (ord_acq o); [|exact Hlen].
  rewrite vv_join_length. lia.
Qed.

Lemma sstep_load_eq : forall me s caus o,
  Inv me s caus ->
  sstep me (s, caus) (SLoad o) =
  (let c1 := vv_inc caus me in
   let s3 := loadpart (tl_state s c1) me c1 (newest s) in
   let x := get_store s3 (newest s) in
   Some (s3, sync_load c1 (st_sync x) o, Some (st_value x))).
Proof.
  intros me s caus o HI. unfold sstep. cbn [fst snd].
  rewrite (single_thread_load_candidates HI o).
  unfold atomic_load. rewrite (track_load_ok HI (vle_inc caus me)). reflexivity.
Qed.

Lemma sstep_store_eq : forall me s caus v o,
  Inv me s caus ->
  sstep me (s, caus) (SStore v o) =
  (let c1 := vv_inc caus me in
   Some (atomic_store (ts_state s c1) me c1 vv_new vv_new v o, c1, None)).
Proof.
  intros me s caus v o HI. unfold sstep. cbn [fst snd].
  rewrite (track_store_ok HI (vle_inc caus me)). reflexivity.
Qed.

Lemma sstep_ok : forall me s caus op,
  Inv me s caus ->
  exists s' c',
    sstep me (s, caus) op = Some (s', c', fst (ref_step (cur s) op)) /\
    Inv me s' c' /\
    cur s' = snd (ref_step (cur s) op).
Proof.
  intros me s caus op HI.
  set (c1 := vv_inc caus me).
  assert (Hc1 : vle caus c1) by apply vle_inc.
  assert (Hlen1 : me < length c1) by (unfold c1; rewrite vv_inc_length; apply (inv_me HI)).
  assert (Hlt1 : vv_get caus me < vv_get c1 me).
  { unfold c1. rewrite vv_get_inc_same by apply (inv_me HI). lia. }
  (* the load part, shared by a load and an rmw: it reads the newest slot, and
     acquiring that slot's st_sync only enlarges the clock *)
  destruct (loadpart_inv c1 c1 HI) as [HI3 [Hcur Hcnt]].
  set (s3 := loadpart (tl_state s c1) me c1 (newest s)) in *.
  assert (Hval : st_value (get_store s3 (newest s)) = cur s).
  { rewrite <- Hcur. unfold cur, newest. rewrite Hcnt. reflexivity. }
  assert (Hacq : forall sy o, vle caus (sync_load c1 sy o) /\ me < length (sync_load c1 sy o)).
  { intros sy o. split.
    - eapply vle_trans; [exact Hc1 | apply sync_load_ge].
    - apply sync_load_len. exact Hlen1. }
  assert (Hread : forall o,
            Inv me s3 (sync_load c1 (st_sync (get_store s3 (newest s))) o)).
  { intros o. destruct (Hacq (st_sync (get_store s3 (newest s))) o) as [Hle Hlen].
    exact (Inv_mono HI3 Hle Hlen). }
  destruct op as [o|v o|f so fo].
  - (* load *)
    rewrite (sstep_load_eq o HI). cbv zeta. fold c1. fold s3. rewrite Hval.
    exists s3, (sync_load c1 (st_sync (get_store s3 (newest s))) o).
    split; [reflexivity|]. split; [apply Hread | exact Hcur].
  - (* store *)
    rewrite (sstep_store_eq v o HI). cbv zeta. fold c1.
    exists (atomic_store (ts_state s c1) me c1 vv_new vv_new v o), c1. split; [reflexivity|].
    apply (atomic_store_inv vv_new vv_new v o (Inv_ts c1 HI) Hc1 Hlt1 Hlen1).
  - (* rmw *)
    unfold sstep. cbn [fst snd]. fold c1.
    rewrite (single_thread_rmw_candidates HI). fold (newest s).
    unfold atomic_rmw. rewrite (track_load_ok HI Hc1). cbv zeta.
    fold (loadpart (tl_state s c1) me c1 (newest s)). fold s3. rewrite Hval. cbn [ref_step fst snd].
    destruct (f (cur s)) as [next|] eqn:Hf.
    + rewrite (track_store_ok HI3 Hc1).
      set (sy := st_sync (get_store (ts_state s3 c1) (newest s))).
      set (c2 := sync_load c1 sy so).
      destruct (Hacq sy so) as [Hc2 Hlen2]. fold c2 in Hc2, Hlen2.
      assert (Hlt2 : vv_get caus me < vv_get c2 me).
      { pose proof (sync_load_ge c1 sy so me) as Hge. fold c2 in Hge. lia. }
      set (src := Some (newest s, st_id (get_store (ts_state s3 c1) (newest s)))).
      assert (Hsrc : forall slot sid, src = Some (slot, sid) -> slot = newest (ts_state s3 c1)).
      { intros slot sid Heq. unfold src in Heq. injection Heq as Hslot _.
        unfold newest. change (at_cnt (ts_state s3 c1)) with (at_cnt s3). rewrite Hcnt.
        symmetry. exact Hslot. }
      exists (atomic_store_from (ts_state s3 c1) me c2 vv_new sy next so src), c2.
      split; [reflexivity|].
      apply (atomic_store_from_inv vv_new sy next so (Inv_ts c1 HI3) Hc2 Hlt2 Hlen2 Hsrc).
    + exists s3, (sync_load c1 (st_sync (get_store s3 (newest s))) fo).
      split; [reflexivity|]. split; [apply Hread | exact Hcur].
Qed.

(* the ring really advances: a store moves to the next slot (cnt + 1, so the
   written slot is [aindex cnt] and wraps modulo 7), a load does not *)
Lemma sstep_store_cnt : forall me s caus v o s' c' r,
  Inv me s caus -> sstep me (s, caus) (SStore v o) = Some (s', c', r) ->
  at_cnt s' = S (at_cnt s) /\ newest s' = aindex (at_cnt s).
Proof.
  intros me s caus v o s' c' r HI Hstep.
  rewrite (sstep_store_eq v o HI) in Hstep.
  inversion Hstep as [[Hs Hc Hr]]. split; [reflexivity|].
  unfold newest. simpl. rewrite Nat.sub_0_r. reflexivity.
Qed.

Lemma sstep_load_cnt : forall me s caus o s' c' r,
  Inv me s caus -> sstep me (s, caus) (SLoad o) = Some (s', c', r) ->
  at_cnt s' = at_cnt s.
Proof.
  intros me s caus o s' c' r HI Hstep.
  rewrite (sstep_load_eq o HI) in Hstep.
  inversion Hstep as [[Hs Hc Hr]]. reflexivity.
Qed.

(* ------------------------------------------------------------------ *)
(* the initial state                                                   *)

Lemma atomic_new_ok : forall me caus0 init,
  me < MAX_THREADS -> me < length caus0 ->
  exists s0, atomic_new me caus0 vv_new init = inl s0 /\ Inv me s0 caus0 /\ cur s0 = init.
Proof.
  intros me caus0 init HmeT Hlen.
  unfold atomic_new, track_unsync_mut. cbn [at_mutating at_loaded at_unsync_loaded at_stored at_unsync_mut].
  assert (Ha : vv_ahead caus0 vv_new = None) by (apply vv_ahead_none; apply vle_new).
  rewrite Ha.
  eexists. split; [reflexivity|].
  pose (s1 := mkAtomic vv_new vv_new vv_new (vv_join vv_new caus0) false
                      (repeat None MAX_THREADS) None
                      (repeat store_default MAX_ATOMIC_HISTORY) 0).
  pose (s0 := atomic_store s1 me caus0 vv_new vv_new init Release).
  change (Inv me s0 caus0 /\ cur s0 = init).
  assert (Hcnt : at_cnt s0 = 1) by reflexivity.
  assert (Hnew : newest s0 = 0) by reflexivity.
  set (x := mkStore init caus0 (store_mo s1 caus0) (sync_store vv_new caus0 vv_new Release)
                    (seen_touch seen_new me (vv_get caus0 me)) false 0 None).
  assert (Hget0 : get_store s0 0 = x) by reflexivity.
  assert (Hgeto : forall i, i <> 0 -> get_store s0 i = store_default).
  { intros i Hi. unfold get_store. cbn [s0 atomic_store atomic_store_from at_set_stores at_stores s1 at_cnt].
    change (aindex 0) with 0. rewrite list_set_nth_other by lia.
    destruct (Nat.lt_ge_cases i MAX_ATOMIC_HISTORY) as [H7|H7].
    - apply nth_repeat.
    - apply nth_overflow. rewrite repeat_length. exact H7. }
  (* no slot of the empty ring has been seen, so st_mo of the first store is [caus0] *)
  assert (Hkey0 : key me s0 0 = vv_get caus0 me) by reflexivity.
  assert (Hlive : forall i, live s0 i -> i = 0).
  { intros i [_ Hi]. rewrite Hcnt in Hi. lia. }
  split.
  2:{ unfold cur. rewrite Hnew, Hget0. reflexivity. }
  constructor.
  - exact Hlen.
  - exact HmeT.
  - change (length (list_set (repeat store_default MAX_ATOMIC_HISTORY) (aindex 0) x) = MAX_ATOMIC_HISTORY).
    rewrite list_set_length. apply repeat_length.
  - rewrite Hcnt. lia.
  - reflexivity.
  - change (vle (vv_join vv_new caus0) caus0). apply vle_join_lub; [apply vle_new | apply vle_refl].
  - change (vle vv_new caus0). apply vle_new.
  - intros i Hi. rewrite Hcnt in Hi. apply Hgeto. lia.
  - intros i. destruct (Nat.eq_dec i 0) as [Heq|Hne].
    + subst i. rewrite Hkey0. lia.
    + unfold key. rewrite (Hgeto i Hne). simpl. rewrite vv_new_get. lia.
  - intros i Hi. rewrite (Hlive i Hi). rewrite Hget0. exists (vv_get caus0 me). split; [|lia].
    simpl. apply seen_touch_new. exact HmeT.
  - intros i Hi Hne. rewrite Hnew in Hne. pose proof (Hlive i Hi) as Hi0. lia.
  - intros i j Hi Hj Hij. pose proof (Hlive i Hi) as Hi0. pose proof (Hlive j Hj) as Hj0. lia.
  - intros i j Hi Hj Hk. pose proof (Hlive i Hi) as Hi0. pose proof (Hlive j Hj) as Hj0. subst i j. lia.
  - intros r slot sid Hr Hsrc Hsr. rewrite (Hlive r Hr), Hget0 in Hsrc.
    change (st_rmw_src x) with (@None (nat * nat)) in Hsrc. discriminate.
Qed.

(* ------------------------------------------------------------------ *)
(* the theorems                                                        *)

Theorem single_thread_invariant :
  (forall me caus0 init,
     me < MAX_THREADS -> length caus0 = MAX_THREADS ->
     exists s0, atomic_new me caus0 vv_new init = inl s0 /\ Inv me s0 caus0) /\
  (forall me s caus op,
     Inv me s caus ->
     exists s' c' r, sstep me (s, caus) op = Some (s', c', r) /\ Inv me s' c').
Proof.
  split.
  - intros me caus0 init HmeT Hlen.
    destruct (@atomic_new_ok me caus0 init HmeT) as [s0 [Hnew [HI _]]]; [lia|].
    exists s0. split; assumption.
  - intros me s caus op HI.
    destruct (sstep_ok op HI) as [s' [c' [Hstep [HI' _]]]].
    exists s', c', (fst (ref_step (cur s) op)). split; assumption.
Qed.

Lemma srun_ok : forall me ops s caus,
  Inv me s caus ->
  exists sf cf, srun me (s, caus) ops = Some (sf, cf, ref_run (cur s) ops) /\ Inv me sf cf.
Proof.
  intros me ops. induction ops as [|op ops IH]; intros s caus HI.
  - exists s, caus. split; [reflexivity | exact HI].
  - destruct (sstep_ok op HI) as [s' [c' [Hstep [HI' Hcur']]]].
    destruct (IH s' c' HI') as [sf [cf [Hrun HIf]]].
    exists sf, cf. split; [|exact HIf].
    cbn [srun ref_run]. rewrite Hstep. rewrite Hrun. rewrite Hcur'. reflexivity.
Qed.

(* Every run from a fresh cell succeeds (no assertion failure, no panic, exactly
   one candidate at every load and rmw) and reads what the one-cell reference
   reads; the invariant holds at the end. *)
Theorem single_thread_reads_latest : forall me caus0 init ops,
  me < MAX_THREADS -> length caus0 = MAX_THREADS ->
  exists s0 sf cf,
    atomic_new me caus0 vv_new init = inl s0 /\
    srun me (s0, caus0) ops = Some (sf, cf, ref_run init ops) /\
    Inv me sf cf.
Proof.
  intros me caus0 init ops HmeT Hlen.
  destruct (@atomic_new_ok me caus0 init HmeT) as [s0 [Hnew [HI Hcur]]]; [lia|].
  destruct (srun_ok ops HI) as [sf [cf [Hrun HIf]]].
  exists s0, sf, cf. rewrite Hcur in Hrun.
  split; [exact Hnew | split; [exact Hrun | exact HIf]].
Qed.

(* the values read, as the task states it: map over the run *)
Corollary single_thread_reads_latest_map : forall me caus0 init ops s0,
  me < MAX_THREADS -> length caus0 = MAX_THREADS ->
  atomic_new me caus0 vv_new init = inl s0 ->
  option_map snd (srun me (s0, caus0) ops) = Some (ref_run init ops).
Proof.
  intros me caus0 init ops s0 HmeT Hlen Hnew.
  destruct (@single_thread_reads_latest me caus0 init ops HmeT Hlen) as [s0' [sf [cf [Hnew' [Hrun _]]]]].
  rewrite Hnew in Hnew'. inversion Hnew'. subst s0'. rewrite Hrun. reflexivity.
Qed.

(* a concrete wrap of the ring, by computation: 20 stores, a load after each *)
Fixpoint wrap_ops (n : nat) : list sop :=
  match n with
  | 0 => []
  | S n' => wrap_ops n' ++ [SStore (N.of_nat n) Relaxed; SLoad SeqCst]
  end.

Example ring_wrap_example :
  match atomic_new 0 vv_new vv_new 0%N with
  | inl s0 =>
      match srun 0 (s0, vv_new) (wrap_ops 20) with
      | Some (sf, _, rs) => at_cnt sf = 21 /\ rs = ref_run 0%N (wrap_ops 20)
      | None => False
      end
  | inr _ => False
  end.
Proof. vm_compute. split; reflexivity. Qed.

Print Assumptions single_thread_invariant.
Print Assumptions single_thread_load_candidates.
Print Assumptions single_thread_rmw_candidates.
Print Assumptions single_thread_mo_total.
Print Assumptions single_thread_reads_latest.
Print Assumptions single_thread_reads_latest_map.
Print Assumptions last_yield_irrelevant_without_yield.
Print Assumptions sstep_store_cnt.
Print Assumptions sstep_load_cnt.
Print Assumptions ring_wrap_example.
