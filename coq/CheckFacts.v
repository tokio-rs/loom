(* Facts about the loop of Builder::check (Check.v: check_loop / check /
   check_from).  The iteration itself ([iteration], hence [rec_of]) is opaque:
   everything here is about the loop structure.

   Properties covered: C06 (a failing iteration fails the run, and only then),
   C16 (iterations are isolated), C13 (deterministic, resumable), C19 (limits).

   Method.  [Loop fuel p n i pa ck rest fin ck'] is an inductive description
   of [check_loop n fuel p i pa ck acc = (rev acc ++ rest, fin, ck')]
   ([check_loop_Loop], an equivalence); all theorems are proved about it (by
   induction, or from [loop_end]: how a run ends, and [loop_suffix]: a run
   from its k-th record on is a run) and are then transported back to
   [check_loop].  "New records" of a call with
   accumulator [acc] are the [rest] with [recs = rev acc ++ rest]; theorems
   other than 1 and 2 take the hypothesis directly in the form
   [check_loop ... acc = (rev acc ++ rest, fin, ck')] (for [acc = []] this is
   convertible to [(rest, fin, ck')]; by [app_inv_head] it is as strong as
   the "exists rest" form).

   DEVIATIONS from the requested statements (all are strengthenings or
   necessary side conditions):

   * resume_is_suffix: proved exactly as requested (fuel [ifuel - k]).  The
     hypothesis [fin <> RunFuel] is not needed: [resume_is_suffix_gen] is the
     same statement without it.  [resume_is_suffix_ge] is the variant "any
     ifuel2 >= ifuel - k" (that one does need [fin <> RunFuel]).

   * checkpoint_is_begin_of_boundary: "fin is RunPanic or RunOk-by-exhaustion"
     is expressed as the hypothesis
        fin = RunOk -> step (ir_end (last rest d)) = None
     (so RunFuel is allowed too: the statement is true for it).  Without it
     the statement is false: when the run stops because of max_permutations,
     the loop has already stored the begin path of the iteration it did NOT
     start (interval 1, max_permutations = Some 2, check from i = 1: one
     record r, result RunOk, checkpoint = the successor [step (ir_end r)],
     not [ir_begin r]).

   * failing_checkpoint_first: for [check_loop] started at counter [i] the
     side condition [1 <= i] is required (check_from restarts the counter at
     1).  Counterexample without it: interval 1, max_permutations = Some 1,
     i = 0: iteration 0 runs (1 <= 0 is false) and may panic; check_from the
     stored checkpoint starts at i = 1, where 1 <= 1 stops the run at once
     with ([], RunOk).  For [check] (i = 1) there is no side condition
     ([failing_checkpoint_first_check]).  The conclusion is the strong form:
     the resumed run is exactly ([r], RunPanic pn, Some c) with r the failing
     record of the original run.

   * max_permutations_stops: stated with [ci_of] (covers the default interval
     too); the hypothesis [c > 0] of the sketch is not needed and was
     dropped.  [max_permutations_stops_some] is the instance with
     [checkpoint_interval = Some c], and [max_permutations_bound] the closed
     form bound [c * max i mp - i] (this one needs c > 0).  "Stopping because
     of the limit returns RunOk" is [limit_stop_is_ok]; the converse analysis
     of all RunOk outcomes is [run_ok_cases]. *)
Require Import LV.Base LV.VV LV.Path LV.Prog LV.Objects LV.Exec LV.Atomic LV.Ops LV.Check.
From Coq Require Import List Arith Lia Bool.
Import ListNotations.

(* ------------------------------------------------------------------ *)
(* vocabulary                                                          *)

(* the record produced by the iteration that begins at [pa] *)
Definition rec_of (fuel : nat) (p : prog) (pa : path) : iter_record :=
  let '(e, res) := iteration fuel p pa in
  mkIter pa (e_path e) (rev (e_log e)) res.

(* the "return" test at the top of the loop *)
Definition stop_at (p : prog) (i : nat) : bool :=
  Nat.eqb (Nat.modulo i (ci_of (p_cfg p))) 0 &&
  match max_permutations (p_cfg p) with
  | Some mp => Nat.leb mp i
  | None => false
  end.

(* the checkpoint file after the top of the loop *)
Definition ck_at (p : prog) (i : nat) (pa : path) (ck : option path) : option path :=
  if Nat.eqb (Nat.modulo i (ci_of (p_cfg p))) 0 then Some pa else ck.

Lemma rec_of_begin : forall fuel p pa, ir_begin (rec_of fuel p pa) = pa.
Proof.
  intros fuel p pa. unfold rec_of.
  destruct (iteration fuel p pa) as [e res]. reflexivity.
Qed.

Lemma check_loop_S : forall n fuel p i pa ck acc,
  check_loop (S n) fuel p i pa ck acc =
  if stop_at p i then (rev acc, RunOk, ck_at p i pa ck)
  else
    let r := rec_of fuel p pa in
    match ir_result r with
    | IterPanic pn => (rev (r :: acc), RunPanic pn, ck_at p i pa ck)
    | IterFuel => (rev (r :: acc), RunFuel, ck_at p i pa ck)
    | IterDone =>
        match step (ir_end r) with
        | Some pa' => check_loop n fuel p (S i) pa' (ck_at p i pa ck) (r :: acc)
        | None => (rev (r :: acc), RunOk, ck_at p i pa ck)
        end
    end.
Proof.
  intros n fuel p i pa ck acc.
  cbn [check_loop]. unfold stop_at, ck_at, rec_of.
  destruct (iteration fuel p pa) as [e res].
  destruct (_ && _); [reflexivity|].
  destruct res; reflexivity.
Qed.

(* C16, trivial part, stated while [iteration] is still transparent *)
Theorem init_exec_depends_on_path_only : forall p pa pa',
  ex_set_path (init_exec p pa) pa' = init_exec p pa'.
Proof. intros p pa pa'. reflexivity. Qed.

Theorem iteration_is_function_of_path : forall fuel p pa1 pa2,
  pa1 = pa2 -> iteration fuel p pa1 = iteration fuel p pa2.
Proof. intros fuel p pa1 pa2 E. rewrite E. reflexivity. Qed.

(* the iteration reads the program and its begin path, nothing else *)
Lemma iteration_unfold : forall fuel p pa,
  iteration fuel p pa =
  let '(e, r) := run fuel (init_exec p pa) in
  match r with
  | IterDone => match check_for_leaks (e_objects e) with
                | Some pn => (e, IterPanic pn)
                | None => (e, IterDone)
                end
  | _ => (e, r)
  end.
Proof. reflexivity. Qed.

Opaque iteration.

(* ------------------------------------------------------------------ *)
(* the loop as a relation                                              *)

Inductive Loop (fuel : nat) (p : prog) :
  nat -> nat -> path -> option path -> list iter_record -> run_end -> option path -> Prop :=
| L_out : forall i pa ck,
    Loop fuel p 0 i pa ck [] RunFuel ck
| L_limit : forall n i pa ck,
    stop_at p i = true ->
    Loop fuel p (S n) i pa ck [] RunOk (ck_at p i pa ck)
| L_panic : forall n i pa ck pn,
    stop_at p i = false ->
    ir_result (rec_of fuel p pa) = IterPanic pn ->
    Loop fuel p (S n) i pa ck [rec_of fuel p pa] (RunPanic pn) (ck_at p i pa ck)
| L_ifuel : forall n i pa ck,
    stop_at p i = false ->
    ir_result (rec_of fuel p pa) = IterFuel ->
    Loop fuel p (S n) i pa ck [rec_of fuel p pa] RunFuel (ck_at p i pa ck)
| L_last : forall n i pa ck,
    stop_at p i = false ->
    ir_result (rec_of fuel p pa) = IterDone ->
    step (ir_end (rec_of fuel p pa)) = None ->
    Loop fuel p (S n) i pa ck [rec_of fuel p pa] RunOk (ck_at p i pa ck)
| L_next : forall n i pa ck pa' rest fin ck',
    stop_at p i = false ->
    ir_result (rec_of fuel p pa) = IterDone ->
    step (ir_end (rec_of fuel p pa)) = Some pa' ->
    Loop fuel p n (S i) pa' (ck_at p i pa ck) rest fin ck' ->
    Loop fuel p (S n) i pa ck (rec_of fuel p pa :: rest) fin ck'.

Lemma loop_sound : forall fuel p n i pa ck rest fin ck',
  Loop fuel p n i pa ck rest fin ck' ->
  forall acc, check_loop n fuel p i pa ck acc = (rev acc ++ rest, fin, ck').
Proof.
  intros fuel p n i pa ck rest fin ck' HL.
  induction HL as [ i pa ck
                  | n i pa ck Hs
                  | n i pa ck pn Hs Hr
                  | n i pa ck Hs Hr
                  | n i pa ck Hs Hr Hst
                  | n i pa ck pa' rest fin ck' Hs Hr Hst HL IH ]; intro acc.
  - cbn [check_loop]. rewrite app_nil_r. reflexivity.
  - rewrite check_loop_S, Hs, app_nil_r. reflexivity.
  - rewrite check_loop_S, Hs. cbv zeta. rewrite Hr. reflexivity.
  - rewrite check_loop_S, Hs. cbv zeta. rewrite Hr. reflexivity.
  - rewrite check_loop_S, Hs. cbv zeta. rewrite Hr, Hst. reflexivity.
  - rewrite check_loop_S, Hs. cbv zeta. rewrite Hr, Hst, IH.
    cbn [rev]. rewrite <- app_assoc. reflexivity.
Qed.

Lemma loop_complete : forall fuel p n i pa ck acc recs fin ck',
  check_loop n fuel p i pa ck acc = (recs, fin, ck') ->
  exists rest, recs = rev acc ++ rest /\ Loop fuel p n i pa ck rest fin ck'.
Proof.
  intros fuel p n.
  induction n as [|n IH]; intros i pa ck acc recs fin ck' H.
  - cbn [check_loop] in H. inversion H; subst.
    exists []. split; [rewrite app_nil_r; reflexivity | constructor].
  - rewrite check_loop_S in H. destruct (stop_at p i) eqn:Hs.
    + inversion H; subst.
      exists []. split; [rewrite app_nil_r; reflexivity | constructor; assumption].
    + cbv zeta in H.
      destruct (ir_result (rec_of fuel p pa)) as [|pn|] eqn:Hr.
      * destruct (step (ir_end (rec_of fuel p pa))) as [pa'|] eqn:Hst.
        -- apply IH in H. destruct H as [rest [E HL]].
           exists (rec_of fuel p pa :: rest). split.
           ++ rewrite E. cbn [rev]. rewrite <- app_assoc. reflexivity.
           ++ eapply L_next; eassumption.
        -- inversion H; subst.
           exists [rec_of fuel p pa]. split; [reflexivity | apply L_last; assumption].
      * inversion H; subst.
        exists [rec_of fuel p pa]. split; [reflexivity | apply L_panic; assumption].
      * inversion H; subst.
        exists [rec_of fuel p pa]. split; [reflexivity | apply L_ifuel; assumption].
Qed.

Theorem check_loop_Loop : forall fuel p n i pa ck acc rest fin ck',
  check_loop n fuel p i pa ck acc = (rev acc ++ rest, fin, ck') <->
  Loop fuel p n i pa ck rest fin ck'.
Proof.
  intros fuel p n i pa ck acc rest fin ck'. split.
  - intro H. apply loop_complete in H. destruct H as [rest' [E HL]].
    apply app_inv_head in E. subst rest'. exact HL.
  - intro HL. apply loop_sound. exact HL.
Qed.

(* the accumulator is only a prefix of the output *)
Theorem check_loop_acc : forall n fuel p i pa ck acc,
  check_loop n fuel p i pa ck acc =
  let '(recs, fin, ck') := check_loop n fuel p i pa ck [] in
  (rev acc ++ recs, fin, ck').
Proof.
  intros n fuel p i pa ck acc.
  destruct (check_loop n fuel p i pa ck []) as [[recs fin] ck'] eqn:H.
  change recs with (rev [] ++ recs) in H.
  apply check_loop_Loop in H. apply loop_sound. exact H.
Qed.

(* ------------------------------------------------------------------ *)
(* small facts about the top-of-loop tests                             *)

Lemma stop_at_none : forall p i,
  max_permutations (p_cfg p) = None -> stop_at p i = false.
Proof.
  intros p i Hmp. unfold stop_at. rewrite Hmp. apply andb_false_r.
Qed.

Lemma ck_at_1 : forall p i pa ck,
  checkpoint_interval (p_cfg p) = Some 1 -> ck_at p i pa ck = Some pa.
Proof.
  intros p i pa ck Hci. unfold ck_at, ci_of. rewrite Hci.
  rewrite Nat.mod_1_r. reflexivity.
Qed.

Lemma stop_at_1_false : forall p i mp,
  checkpoint_interval (p_cfg p) = Some 1 ->
  max_permutations (p_cfg p) = Some mp ->
  stop_at p i = false -> i < mp.
Proof.
  intros p i mp Hci Hmp Hs. unfold stop_at, ci_of in Hs.
  rewrite Hci, Hmp, Nat.mod_1_r in Hs. cbn [Nat.eqb andb] in Hs.
  apply Nat.leb_gt in Hs. exact Hs.
Qed.

Lemma stop_at_true : forall p i,
  stop_at p i = true ->
  Nat.modulo i (ci_of (p_cfg p)) = 0 /\
  exists mp, max_permutations (p_cfg p) = Some mp /\ mp <= i.
Proof.
  intros p i Hs. unfold stop_at in Hs.
  apply andb_true_iff in Hs. destruct Hs as [Hb Hm].
  apply Nat.eqb_eq in Hb. split; [exact Hb|].
  destruct (max_permutations (p_cfg p)) as [mp|]; [|discriminate].
  exists mp. split; [reflexivity|]. apply Nat.leb_le. exact Hm.
Qed.

Lemma stop_at_intro : forall p i mp,
  Nat.modulo i (ci_of (p_cfg p)) = 0 ->
  max_permutations (p_cfg p) = Some mp -> mp <= i ->
  stop_at p i = true.
Proof.
  intros p i mp Hb Hmp Hle. unfold stop_at. rewrite Hmp, Hb.
  cbn [Nat.eqb andb]. apply Nat.leb_le. exact Hle.
Qed.

(* ------------------------------------------------------------------ *)
(* C06: a failure in any iteration fails the run, and only then        *)

Definition all_done (l : list iter_record) : Prop :=
  Forall (fun x => ir_result x = IterDone) l.

Lemma loop_end : forall fuel p n i pa ck rest fin ck',
  Loop fuel p n i pa ck rest fin ck' ->
  (all_done rest /\
   (fin = RunFuel \/ fin = RunOk /\ stop_at p (i + length rest) = true)) \/
  exists front r,
    rest = front ++ [r] /\ all_done front /\
    match ir_result r with
    | IterPanic pn => fin = RunPanic pn
    | IterFuel => fin = RunFuel
    | IterDone => fin = RunOk /\ step (ir_end r) = None
    end.
Proof.
  intros fuel p n i pa ck rest fin ck' HL.
  induction HL as [ i pa ck
                  | n i pa ck Hs
                  | n i pa ck pn Hs Hr
                  | n i pa ck Hs Hr
                  | n i pa ck Hs Hr Hst
                  | n i pa ck pa' rest fin ck' Hs Hr Hst HL IH ].
  - left. split; [constructor | left; reflexivity].
  - left. split; [constructor | right]. cbn [length]. rewrite Nat.add_0_r.
    split; [reflexivity | exact Hs].
  - right. exists [], (rec_of fuel p pa). rewrite Hr.
    split; [reflexivity|]. split; [constructor | reflexivity].
  - right. exists [], (rec_of fuel p pa). rewrite Hr.
    split; [reflexivity|]. split; [constructor | reflexivity].
  - right. exists [], (rec_of fuel p pa). rewrite Hr.
    split; [reflexivity|]. split; [constructor|]. split; [reflexivity | exact Hst].
  - destruct IH as [[Hd Hfin] | (front & r & E & Hd & Hend)].
    + left. split; [constructor; assumption|].
      cbn [length]. rewrite Nat.add_succ_r. exact Hfin.
    + right. exists (rec_of fuel p pa :: front), r. rewrite E.
      split; [reflexivity|]. split; [constructor; assumption | exact Hend].
Qed.

Lemma loop_panic : forall fuel p n i pa ck rest pn ck',
  Loop fuel p n i pa ck rest (RunPanic pn) ck' ->
  exists front r, rest = front ++ [r] /\ ir_result r = IterPanic pn /\ all_done front.
Proof.
  intros fuel p n i pa ck rest pn ck' HL.
  destruct (loop_end _ _ _ _ _ _ _ _ _ HL)
    as [[_ [E|[E _]]] | (front & r & E & Hd & Hend)]; try discriminate E.
  exists front, r. split; [exact E|]. split; [|exact Hd].
  destruct (ir_result r) as [|pn0|]; [destruct Hend; discriminate | | discriminate].
  injection Hend as ->. reflexivity.
Qed.

Lemma loop_ok : forall fuel p n i pa ck rest ck',
  Loop fuel p n i pa ck rest RunOk ck' -> all_done rest.
Proof.
  intros fuel p n i pa ck rest ck' HL.
  destruct (loop_end _ _ _ _ _ _ _ _ _ HL)
    as [[Hd _] | (front & r & E & Hd & Hend)]; [exact Hd|].
  subst rest. apply Forall_app. split; [exact Hd|]. constructor; [|constructor].
  destruct (ir_result r); [reflexivity | discriminate Hend | discriminate Hend].
Qed.

Theorem first_failure_is_result : forall ifuel fuel p i pa ck acc recs pn ck',
  check_loop ifuel fuel p i pa ck acc = (recs, RunPanic pn, ck') ->
  exists front r,
    recs = rev acc ++ front ++ [r] /\ ir_result r = IterPanic pn /\
    Forall (fun x => ir_result x = IterDone) front.
Proof.
  intros ifuel fuel p i pa ck acc recs pn ck' H.
  apply loop_complete in H. destruct H as [rest [E HL]].
  apply loop_panic in HL. destruct HL as [front [r [E2 [Hres Hfront]]]].
  exists front, r. subst rest. repeat split; assumption.
Qed.

Theorem ok_means_no_failure : forall ifuel fuel p i pa ck acc recs ck',
  check_loop ifuel fuel p i pa ck acc = (recs, RunOk, ck') ->
  exists rest, recs = rev acc ++ rest /\ Forall (fun x => ir_result x = IterDone) rest.
Proof.
  intros ifuel fuel p i pa ck acc recs ck' H.
  apply loop_complete in H. destruct H as [rest [E HL]].
  exists rest. split; [exact E | eapply loop_ok; exact HL].
Qed.

Corollary check_first_failure_is_result : forall ifuel fuel p recs pn ck',
  check ifuel fuel p = (recs, RunPanic pn, ck') ->
  exists front r,
    recs = front ++ [r] /\ ir_result r = IterPanic pn /\
    Forall (fun x => ir_result x = IterDone) front.
Proof.
  intros ifuel fuel p recs pn ck' H. unfold check in H.
  apply first_failure_is_result in H. exact H.
Qed.

Corollary check_ok_means_no_failure : forall ifuel fuel p recs ck',
  check ifuel fuel p = (recs, RunOk, ck') ->
  Forall (fun x => ir_result x = IterDone) recs.
Proof.
  intros ifuel fuel p recs ck' H. unfold check in H.
  apply ok_means_no_failure in H. destruct H as [rest [E HF]].
  cbn [rev app] in E. subst rest. exact HF.
Qed.

(* the converse reading: a panicking record is the last one, and makes the
   run fail with that panic *)
Theorem failing_record_fails_run : forall ifuel fuel p i pa ck acc rest fin ck' r pn,
  check_loop ifuel fuel p i pa ck acc = (rev acc ++ rest, fin, ck') ->
  In r rest -> ir_result r = IterPanic pn ->
  fin = RunPanic pn /\ exists front, rest = front ++ [r].
Proof.
  intros ifuel fuel p i pa ck acc rest fin ck' r pn H Hin Hres.
  apply check_loop_Loop in H.
  assert (Hnd : forall l, all_done l -> ~ In r l).
  { intros l Hd Hl. rewrite (proj1 (Forall_forall _ _) Hd r Hl) in Hres. discriminate. }
  destruct (loop_end _ _ _ _ _ _ _ _ _ H)
    as [[Hd _] | (front & r0 & E & Hd & Hend)].
  - destruct (Hnd rest Hd Hin).
  - subst rest. apply in_app_or in Hin.
    destruct Hin as [Hin | [E|[]]]; [destruct (Hnd front Hd Hin)|].
    subst r0. rewrite Hres in Hend. split; [exact Hend | exists front; reflexivity].
Qed.

(* ------------------------------------------------------------------ *)
(* records form a chain of [step]s                                     *)

Lemma loop_head : forall fuel p n i pa ck rest fin ck' r,
  Loop fuel p n i pa ck rest fin ck' ->
  nth_error rest 0 = Some r -> r = rec_of fuel p pa /\ stop_at p i = false.
Proof.
  intros fuel p n i pa ck rest fin ck' r HL.
  destruct HL; cbn [nth_error]; intro E; try discriminate E;
    injection E as <-; (split; [reflexivity | assumption]).
Qed.

Lemma loop_chain : forall fuel p n i pa ck rest fin ck',
  Loop fuel p n i pa ck rest fin ck' ->
  forall k r1 r2,
    nth_error rest k = Some r1 -> nth_error rest (S k) = Some r2 ->
    ir_result r1 = IterDone /\ step (ir_end r1) = Some (ir_begin r2).
Proof.
  intros fuel p n i pa ck rest fin ck' HL.
  induction HL as [ i pa ck
                  | n i pa ck Hs
                  | n i pa ck pn0 Hs Hr
                  | n i pa ck Hs Hr
                  | n i pa ck Hs Hr Hst
                  | n i pa ck pa' rest fin ck' Hs Hr Hst HL IH ];
    intros k r1 r2 H1 H2;
    try (cbn [nth_error] in H2; destruct k; discriminate H2).
  destruct k as [|k].
  - cbn [nth_error] in H1, H2. injection H1 as E. subst r1.
    apply (loop_head _ _ _ _ _ _ _ _ _ _ HL) in H2. destruct H2 as [-> _].
    rewrite rec_of_begin.
    split; assumption.
  - cbn [nth_error] in H1. change (nth_error rest (S k) = Some r2) in H2.
    exact (IH k r1 r2 H1 H2).
Qed.

Theorem records_chain : forall ifuel fuel p i pa ck acc rest fin ck',
  check_loop ifuel fuel p i pa ck acc = (rev acc ++ rest, fin, ck') ->
  (forall r, nth_error rest 0 = Some r -> ir_begin r = pa) /\
  (forall k r1 r2,
     nth_error rest k = Some r1 -> nth_error rest (S k) = Some r2 ->
     ir_result r1 = IterDone /\ step (ir_end r1) = Some (ir_begin r2)).
Proof.
  intros ifuel fuel p i pa ck acc rest fin ck' H.
  apply check_loop_Loop in H. split.
  - intros r Hr. apply (loop_head _ _ _ _ _ _ _ _ _ _ H) in Hr. destruct Hr as [-> _].
    apply rec_of_begin.
  - eapply loop_chain. exact H.
Qed.

Corollary check_records_chain : forall ifuel fuel p recs fin ck',
  check ifuel fuel p = (recs, fin, ck') ->
  (forall r, nth_error recs 0 = Some r -> ir_begin r = initial_path (p_cfg p)) /\
  (forall k r1 r2,
     nth_error recs k = Some r1 -> nth_error recs (S k) = Some r2 ->
     ir_result r1 = IterDone /\ step (ir_end r1) = Some (ir_begin r2)).
Proof.
  intros ifuel fuel p recs fin ck' H. unfold check in H.
  exact (records_chain ifuel fuel p 1 (initial_path (p_cfg p)) None [] recs fin ck' H).
Qed.

(* ------------------------------------------------------------------ *)
(* a normal return: exhaustion or the limit                            *)

Lemma loop_ok_cases : forall fuel p n i pa ck rest ck',
  Loop fuel p n i pa ck rest RunOk ck' ->
  (rest <> [] /\ forall d, step (ir_end (last rest d)) = None) \/
  stop_at p (i + length rest) = true.
Proof.
  intros fuel p n i pa ck rest ck' HL.
  destruct (loop_end _ _ _ _ _ _ _ _ _ HL)
    as [[_ [E|[_ Hs]]] | (front & r & E & _ & Hend)].
  - discriminate E.
  - right. exact Hs.
  - left. subst rest. split; [destruct front; discriminate|].
    intro d. rewrite last_last.
    destruct (ir_result r); [exact (proj2 Hend) | discriminate Hend | discriminate Hend].
Qed.

(* every RunOk is either exhaustion (the last end path has no successor) or
   the max_permutations test at a boundary counter *)
Theorem run_ok_cases : forall ifuel fuel p i pa ck acc rest ck',
  check_loop ifuel fuel p i pa ck acc = (rev acc ++ rest, RunOk, ck') ->
  (rest <> [] /\ forall d, step (ir_end (last rest d)) = None) \/
  (Nat.modulo (i + length rest) (ci_of (p_cfg p)) = 0 /\
   exists mp, max_permutations (p_cfg p) = Some mp /\ mp <= i + length rest).
Proof.
  intros ifuel fuel p i pa ck acc rest ck' H.
  apply check_loop_Loop in H. apply loop_ok_cases in H.
  destruct H as [H|H]; [left; exact H | right; apply stop_at_true; exact H].
Qed.

Lemma last_cons_cons : forall (A : Type) (a b : A) l d,
  last (a :: b :: l) d = last (b :: l) d.
Proof. reflexivity. Qed.

Lemma last_app_ne : forall (A : Type) (l1 l2 : list A) d,
  l2 <> [] -> last (l1 ++ l2) d = last l2 d.
Proof.
  intros A l1 l2 d Hne. induction l1 as [|a l1 IH]; [reflexivity|].
  cbn [app]. destruct (l1 ++ l2) eqn:E.
  - apply app_eq_nil in E. destruct E as [_ E]. contradiction.
  - rewrite last_cons_cons. exact IH.
Qed.

(* without max_permutations, a normal return means the exploration was
   exhausted: the end path of the last record has no successor *)
Theorem run_ok_complete : forall ifuel fuel p i pa ck acc recs ck',
  check_loop ifuel fuel p i pa ck acc = (recs, RunOk, ck') ->
  max_permutations (p_cfg p) = None ->
  recs <> rev acc ->
  forall d, step (ir_end (last recs d)) = None.
Proof.
  intros ifuel fuel p i pa ck acc recs ck' H Hmp Hne d.
  destruct (loop_complete _ _ _ _ _ _ _ _ _ _ H) as [rest [E HL]].
  apply loop_ok_cases in HL. destruct HL as [[Hrest Hlast]|Hstop].
  - subst recs. rewrite last_app_ne by exact Hrest. apply Hlast.
  - rewrite stop_at_none in Hstop by exact Hmp. discriminate.
Qed.

Corollary check_run_ok_complete : forall ifuel fuel p recs ck',
  check ifuel fuel p = (recs, RunOk, ck') ->
  max_permutations (p_cfg p) = None ->
  recs <> [] /\ forall d, step (ir_end (last recs d)) = None.
Proof.
  intros ifuel fuel p recs ck' H Hmp. unfold check in H.
  change recs with (rev [] ++ recs) in H.
  apply check_loop_Loop in H. apply loop_ok_cases in H.
  destruct H as [H|H]; [exact H|].
  rewrite stop_at_none in H by exact Hmp. discriminate.
Qed.

(* ------------------------------------------------------------------ *)
(* C16: a record is a function of its begin path                       *)

Lemma loop_suffix : forall fuel p k n i pa ck rest fin ck' r,
  Loop fuel p n i pa ck rest fin ck' -> nth_error rest k = Some r ->
  r = rec_of fuel p (ir_begin r) /\ stop_at p (i + k) = false /\
  exists ckk, Loop fuel p (n - k) (i + k) (ir_begin r) ckk (skipn k rest) fin ck'.
Proof.
  intros fuel p k.
  induction k as [|k IH]; intros n i pa ck rest fin ck' r HL Hk.
  - apply (loop_head _ _ _ _ _ _ _ _ _ _ HL) in Hk. destruct Hk as [-> Hs].
    rewrite rec_of_begin, Nat.sub_0_r, Nat.add_0_r.
    split; [reflexivity|]. split; [exact Hs|]. exists ck. exact HL.
  - revert Hk.
    destruct HL as [ | | | | | n i pa ck pa' rest fin ck' Hs Hr Hst HL];
      cbn [nth_error]; intro Hk; try (destruct k; discriminate Hk).
    rewrite Nat.add_succ_r. exact (IH _ _ _ _ _ _ _ _ HL Hk).
Qed.

Lemma loop_record : forall fuel p n i pa ck rest fin ck' r,
  Loop fuel p n i pa ck rest fin ck' ->
  In r rest -> r = rec_of fuel p (ir_begin r).
Proof.
  intros fuel p n i pa ck rest fin ck' r HL Hin.
  apply In_nth_error in Hin. destruct Hin as [k Hk].
  exact (proj1 (loop_suffix _ _ _ _ _ _ _ _ _ _ _ HL Hk)).
Qed.

Theorem record_determined : forall ifuel fuel p i pa ck acc rest fin ck' r,
  check_loop ifuel fuel p i pa ck acc = (rev acc ++ rest, fin, ck') ->
  In r rest ->
  r = (let '(e, res) := iteration fuel p (ir_begin r) in
       mkIter (ir_begin r) (e_path e) (rev (e_log e)) res).
Proof.
  intros ifuel fuel p i pa ck acc rest fin ck' r H Hin.
  apply check_loop_Loop in H. eapply loop_record; eassumption.
Qed.

(* two records (of the same program and model fuel) of any two runs that
   begin at the same path are equal *)
Theorem records_agree :
  forall fuel p ifuel1 i1 pa1 ck1 acc1 rest1 fin1 ck1'
         ifuel2 i2 pa2 ck2 acc2 rest2 fin2 ck2' r1 r2,
  check_loop ifuel1 fuel p i1 pa1 ck1 acc1 = (rev acc1 ++ rest1, fin1, ck1') ->
  check_loop ifuel2 fuel p i2 pa2 ck2 acc2 = (rev acc2 ++ rest2, fin2, ck2') ->
  In r1 rest1 -> In r2 rest2 ->
  ir_begin r1 = ir_begin r2 ->
  ir_end r1 = ir_end r2 /\ ir_log r1 = ir_log r2 /\ ir_result r1 = ir_result r2.
Proof.
  intros fuel p ifuel1 i1 pa1 ck1 acc1 rest1 fin1 ck1'
         ifuel2 i2 pa2 ck2 acc2 rest2 fin2 ck2' r1 r2 H1 H2 Hin1 Hin2 Hb.
  apply check_loop_Loop in H1. apply check_loop_Loop in H2.
  pose proof (loop_record _ _ _ _ _ _ _ _ _ _ H1 Hin1) as E1.
  pose proof (loop_record _ _ _ _ _ _ _ _ _ _ H2 Hin2) as E2.
  rewrite Hb in E1. rewrite <- E2 in E1. subst r1. repeat split.
Qed.

(* ------------------------------------------------------------------ *)
(* C13: deterministic and resumable                                    *)

(* without max_permutations the records and the outcome do not depend on the
   iteration counter nor on the checkpoint content *)
Lemma loop_indep : forall fuel p, max_permutations (p_cfg p) = None ->
  forall n i pa ck rest fin ck',
  Loop fuel p n i pa ck rest fin ck' ->
  forall i2 ck2, exists ck3, Loop fuel p n i2 pa ck2 rest fin ck3.
Proof.
  intros fuel p Hmp n i pa ck rest fin ck' HL.
  induction HL as [ i pa ck
                  | n i pa ck Hs
                  | n i pa ck pn0 Hs Hr
                  | n i pa ck Hs Hr
                  | n i pa ck Hs Hr Hst
                  | n i pa ck pa' rest fin ck' Hs Hr Hst HL IH ];
    intros i2 ck2.
  - eexists. constructor.
  - rewrite stop_at_none in Hs by exact Hmp. discriminate.
  - eexists. apply L_panic; [apply stop_at_none; exact Hmp | exact Hr].
  - eexists. apply L_ifuel; [apply stop_at_none; exact Hmp | exact Hr].
  - eexists. apply L_last; [apply stop_at_none; exact Hmp | exact Hr | exact Hst].
  - destruct (IH (S i2) (ck_at p i2 pa ck2)) as [ck3 HL3].
    exists ck3. eapply L_next; [apply stop_at_none; exact Hmp | exact Hr | exact Hst | exact HL3].
Qed.

(* more loop fuel does not change a run that did not run out of fuel *)
Lemma loop_fuel_mono : forall fuel p n i pa ck rest fin ck',
  Loop fuel p n i pa ck rest fin ck' -> fin <> RunFuel ->
  forall m, n <= m -> Loop fuel p m i pa ck rest fin ck'.
Proof.
  intros fuel p n i pa ck rest fin ck' HL.
  induction HL as [ i pa ck
                  | n i pa ck Hs
                  | n i pa ck pn0 Hs Hr
                  | n i pa ck Hs Hr
                  | n i pa ck Hs Hr Hst
                  | n i pa ck pa' rest fin ck' Hs Hr Hst HL IH ];
    intros Hfin m Hle.
  - contradiction Hfin; reflexivity.
  - destruct m as [|m]; [lia|]. apply L_limit; assumption.
  - destruct m as [|m]; [lia|]. apply L_panic; assumption.
  - contradiction Hfin; reflexivity.
  - destruct m as [|m]; [lia|]. apply L_last; assumption.
  - destruct m as [|m]; [lia|].
    eapply L_next; [exact Hs | exact Hr | exact Hst |].
    apply IH; [exact Hfin | lia].
Qed.

Theorem check_loop_fuel_mono : forall ifuel fuel p i pa ck acc recs fin ck',
  check_loop ifuel fuel p i pa ck acc = (recs, fin, ck') -> fin <> RunFuel ->
  forall ifuel2, ifuel <= ifuel2 ->
  check_loop ifuel2 fuel p i pa ck acc = (recs, fin, ck').
Proof.
  intros ifuel fuel p i pa ck acc recs fin ck' H Hfin ifuel2 Hle.
  apply loop_complete in H. destruct H as [rest [E HL]]. subst recs.
  apply loop_sound. eapply loop_fuel_mono; eassumption.
Qed.

Lemma loop_prefix : forall fuel p n i pa ck rest fin ck',
  Loop fuel p n i pa ck rest fin ck' ->
  forall m rest2 fin2 ck2, n <= m -> Loop fuel p m i pa ck rest2 fin2 ck2 ->
  exists tl, rest2 = rest ++ tl.
Proof.
  intros fuel p n i pa ck rest fin ck' HL.
  induction HL as [ i pa ck
                  | n i pa ck Hs
                  | n i pa ck pn0 Hs Hr
                  | n i pa ck Hs Hr
                  | n i pa ck Hs Hr Hst
                  | n i pa ck pa' rest fin ck' Hs Hr Hst HL IH ];
    intros m rest2 fin2 ck2 Hle H2; [eexists; reflexivity|..];
    (destruct m as [|m]; [lia|]); inversion H2; subst; try congruence;
    try (exists []; reflexivity).
  assert (pa'0 = pa') by congruence. subst pa'0.
  destruct (IH m rest0 fin2 ck2 ltac:(lia) ltac:(assumption)) as [tl ->].
  exists tl. reflexivity.
Qed.

Theorem check_records_prefix : forall k K fuel p, k <= K ->
  exists tl, fst (fst (check K fuel p)) = fst (fst (check k fuel p)) ++ tl.
Proof.
  intros k K fuel p Hle. unfold check.
  destruct (check_loop k fuel p 1 (initial_path (p_cfg p)) None []) as [[r1 f1] c1] eqn:H1.
  destruct (check_loop K fuel p 1 (initial_path (p_cfg p)) None []) as [[r2 f2] c2] eqn:H2.
  apply loop_complete in H1. destruct H1 as (rest1 & -> & L1).
  apply loop_complete in H2. destruct H2 as (rest2 & -> & L2).
  exact (loop_prefix _ _ _ _ _ _ _ _ _ L1 _ _ _ _ Hle L2).
Qed.

(* the general form: no hypothesis on [fin] *)
Theorem resume_is_suffix_gen : forall fuel p, max_permutations (p_cfg p) = None ->
  forall ifuel i pa ck recs fin ck' k r,
    check_loop ifuel fuel p i pa ck [] = (recs, fin, ck') ->
    nth_error recs k = Some r ->
    forall i2 ck2, exists ck3,
      check_loop (ifuel - k) fuel p i2 (ir_begin r) ck2 [] = (skipn k recs, fin, ck3).
Proof.
  intros fuel p Hmp ifuel i pa ck recs fin ck' k r H Hk i2 ck2.
  change recs with (rev [] ++ recs) in H. apply check_loop_Loop in H.
  destruct (loop_suffix _ _ _ _ _ _ _ _ _ _ _ H Hk) as [_ [_ [ckk Hsuf]]].
  destruct (loop_indep fuel p Hmp _ _ _ _ _ _ _ Hsuf i2 ck2) as [ck3 HL].
  exists ck3. exact (loop_sound _ _ _ _ _ _ _ _ _ HL []).
Qed.

Theorem resume_is_suffix : forall fuel p, max_permutations (p_cfg p) = None ->
  forall ifuel i pa ck recs fin ck' k r,
    check_loop ifuel fuel p i pa ck [] = (recs, fin, ck') -> fin <> RunFuel ->
    nth_error recs k = Some r ->
    forall i2 ck2, exists ck3,
      check_loop (ifuel - k) fuel p i2 (ir_begin r) ck2 [] = (skipn k recs, fin, ck3).
Proof.
  intros fuel p Hmp ifuel i pa ck recs fin ck' k r H _ Hk i2 ck2.
  exact (resume_is_suffix_gen fuel p Hmp ifuel i pa ck recs fin ck' k r H Hk i2 ck2).
Qed.

Theorem resume_is_suffix_ge : forall fuel p, max_permutations (p_cfg p) = None ->
  forall ifuel i pa ck recs fin ck' k r,
    check_loop ifuel fuel p i pa ck [] = (recs, fin, ck') -> fin <> RunFuel ->
    nth_error recs k = Some r ->
    forall ifuel2 i2 ck2, ifuel - k <= ifuel2 -> exists ck3,
      check_loop ifuel2 fuel p i2 (ir_begin r) ck2 [] = (skipn k recs, fin, ck3).
Proof.
  intros fuel p Hmp ifuel i pa ck recs fin ck' k r H Hfin Hk ifuel2 i2 ck2 Hle.
  destruct (resume_is_suffix_gen fuel p Hmp ifuel i pa ck recs fin ck' k r H Hk i2 ck2) as [ck3 H3].
  exists ck3. exact (check_loop_fuel_mono _ _ _ _ _ _ _ _ _ _ H3 Hfin _ Hle).
Qed.

(* resuming [check] through [check_from] at the begin path of iteration k *)
Corollary check_from_is_suffix : forall fuel p, max_permutations (p_cfg p) = None ->
  forall ifuel recs fin ck' k r,
    check ifuel fuel p = (recs, fin, ck') ->
    nth_error recs k = Some r ->
    exists ck3, check_from (ifuel - k) fuel p (ir_begin r) = (skipn k recs, fin, ck3).
Proof.
  intros fuel p Hmp ifuel recs fin ck' k r H Hk. unfold check in H. unfold check_from.
  exact (resume_is_suffix_gen fuel p Hmp ifuel 1 (initial_path (p_cfg p)) None recs fin ck' k r H Hk
           1 (Some (ir_begin r))).
Qed.

(* determinism: check_loop is a function; stated for completeness *)
Theorem check_deterministic : forall ifuel fuel p r1 r2,
  check ifuel fuel p = r1 -> check ifuel fuel p = r2 -> r1 = r2.
Proof. intros ifuel fuel p r1 r2 H1 H2. rewrite <- H1, <- H2. reflexivity. Qed.

(* ------------------------------------------------------------------ *)
(* checkpoints with interval 1                                         *)

(* a call that produces no record: out of loop fuel, or the limit *)
Lemma loop_nil : forall fuel p n i pa ck fin ck',
  Loop fuel p n i pa ck [] fin ck' ->
  (fin = RunFuel /\ ck' = ck) \/
  (fin = RunOk /\ stop_at p i = true /\ ck' = ck_at p i pa ck).
Proof.
  intros fuel p n i pa ck fin ck' HL.
  inversion HL; subst; [left | right]; repeat split; assumption.
Qed.

Lemma loop_checkpoint : forall fuel p, checkpoint_interval (p_cfg p) = Some 1 ->
  forall n i pa ck rest fin ck',
  Loop fuel p n i pa ck rest fin ck' -> rest <> [] ->
  forall d,
  ck' = Some (ir_begin (last rest d)) \/
  fin = RunOk /\ exists pa', step (ir_end (last rest d)) = Some pa' /\ ck' = Some pa'.
Proof.
  intros fuel p Hci n i pa ck rest fin ck' HL.
  induction HL as [ i pa ck
                  | n i pa ck Hs
                  | n i pa ck pn0 Hs Hr
                  | n i pa ck Hs Hr
                  | n i pa ck Hs Hr Hst
                  | n i pa ck pa' rest fin ck' Hs Hr Hst HL IH ];
    intros Hne d.
  - contradiction Hne; reflexivity.
  - contradiction Hne; reflexivity.
  - left. cbn [last]. rewrite rec_of_begin. apply ck_at_1. exact Hci.
  - left. cbn [last]. rewrite rec_of_begin. apply ck_at_1. exact Hci.
  - left. cbn [last]. rewrite rec_of_begin. apply ck_at_1. exact Hci.
  - destruct rest as [|r2 rest].
    + (* the next call produced no record: out of loop fuel, or the limit *)
      cbn [last]. rewrite rec_of_begin.
      destruct (loop_nil _ _ _ _ _ _ _ _ HL) as [[_ Eck]|[Efin [_ Eck]]]; rewrite Eck.
      * left. apply ck_at_1. exact Hci.
      * right. split; [exact Efin|]. exists pa'. split; [exact Hst|]. apply ck_at_1. exact Hci.
    + rewrite last_cons_cons. apply IH. discriminate.
Qed.

Theorem checkpoint_is_begin_of_boundary : forall fuel p,
  checkpoint_interval (p_cfg p) = Some 1 ->
  forall ifuel i pa ck acc rest fin c d,
    check_loop ifuel fuel p i pa ck acc = (rev acc ++ rest, fin, Some c) ->
    rest <> [] ->
    (fin = RunOk -> step (ir_end (last rest d)) = None) ->
    c = ir_begin (last rest d).
Proof.
  intros fuel p Hci ifuel i pa ck acc rest fin c d H Hne Hok.
  apply check_loop_Loop in H.
  destruct (loop_checkpoint fuel p Hci _ _ _ _ _ _ _ H Hne d) as [E | [Efin [pa' [Hst _]]]].
  - injection E as E. exact E.
  - rewrite (Hok Efin) in Hst. discriminate Hst.
Qed.

Corollary check_checkpoint_is_begin : forall fuel p,
  checkpoint_interval (p_cfg p) = Some 1 ->
  forall ifuel recs fin c d,
    check ifuel fuel p = (recs, fin, Some c) ->
    recs <> [] ->
    (fin = RunOk -> step (ir_end (last recs d)) = None) ->
    c = ir_begin (last recs d).
Proof.
  intros fuel p Hci ifuel recs fin c d H Hne Hok. unfold check in H.
  exact (checkpoint_is_begin_of_boundary fuel p Hci ifuel 1 (initial_path (p_cfg p)) None []
           recs fin c d H Hne Hok).
Qed.

(* the same for a failing run: no side condition *)
Corollary checkpoint_of_failure : forall fuel p,
  checkpoint_interval (p_cfg p) = Some 1 ->
  forall ifuel i pa ck acc rest pn c d,
    check_loop ifuel fuel p i pa ck acc = (rev acc ++ rest, RunPanic pn, Some c) ->
    c = ir_begin (last rest d) /\ ir_result (last rest d) = IterPanic pn.
Proof.
  intros fuel p Hci ifuel i pa ck acc rest pn c d H.
  pose proof H as H0.
  apply check_loop_Loop in H0. apply loop_panic in H0.
  destruct H0 as [front [r [E [Hres _]]]].
  assert (Hne : rest <> []).
  { rewrite E. intro E0. apply app_eq_nil in E0. destruct E0 as [_ E0]. discriminate. }
  split.
  - apply (checkpoint_is_begin_of_boundary fuel p Hci _ _ _ _ _ _ _ _ d H Hne). discriminate.
  - rewrite E, last_last. exact Hres.
Qed.

(* with interval 1 the checkpoint is always written *)
Lemma loop_checkpoint_some : forall fuel p, checkpoint_interval (p_cfg p) = Some 1 ->
  forall n i pa ck rest fin ck',
  Loop fuel p n i pa ck rest fin ck' -> rest <> [] -> exists c, ck' = Some c.
Proof.
  intros fuel p Hci n i pa ck rest fin ck' HL Hne.
  destruct rest as [|d tl]; [contradiction Hne; reflexivity|].
  destruct (loop_checkpoint fuel p Hci _ _ _ _ _ _ _ HL Hne d) as [E | [_ [pa' [_ E]]]];
    eexists; exact E.
Qed.

Theorem failing_checkpoint_first : forall fuel p,
  checkpoint_interval (p_cfg p) = Some 1 ->
  forall ifuel i pa ck acc rest pn c,
    1 <= i ->
    check_loop ifuel fuel p i pa ck acc = (rev acc ++ rest, RunPanic pn, Some c) ->
    forall n, exists r,
      check_from (S n) fuel p c = ([r], RunPanic pn, Some c) /\
      ir_result r = IterPanic pn /\
      (forall d, r = last rest d).
Proof.
  intros fuel p Hci ifuel i pa ck acc rest pn c Hi H n.
  pose proof H as HL. apply check_loop_Loop in HL.
  pose proof (loop_panic _ _ _ _ _ _ _ _ _ HL) as [front [r [E [Hres _]]]].
  assert (Hlast : forall d, last rest d = r).
  { intro d. rewrite E. apply last_last. }
  pose proof (checkpoint_of_failure fuel p Hci _ _ _ _ _ _ _ _ r H) as [Ec _].
  rewrite Hlast in Ec.
  assert (Hk : nth_error rest (length front) = Some r).
  { rewrite E, nth_error_app2, Nat.sub_diag by apply le_n. reflexivity. }
  destruct (loop_suffix _ _ _ _ _ _ _ _ _ _ _ HL Hk) as [Er [Hs _]]. rewrite <- Ec in Er.
  assert (Hs1 : stop_at p 1 = false).
  { destruct (max_permutations (p_cfg p)) as [mp|] eqn:Hmp.
    - apply (stop_at_1_false _ _ _ Hci Hmp) in Hs.
      unfold stop_at. rewrite Hmp. apply andb_false_iff. right.
      apply Nat.leb_gt. lia.
    - apply stop_at_none. exact Hmp. }
  exists r. split; [|split].
  - unfold check_from. rewrite check_loop_S, Hs1. cbv zeta.
    rewrite <- Er, Hres. rewrite ck_at_1 by exact Hci. reflexivity.
  - exact Hres.
  - intro d. symmetry. apply Hlast.
Qed.

Corollary failing_checkpoint_first_check : forall fuel p,
  checkpoint_interval (p_cfg p) = Some 1 ->
  forall ifuel recs pn c,
    check ifuel fuel p = (recs, RunPanic pn, Some c) ->
    forall n, exists r,
      check_from (S n) fuel p c = ([r], RunPanic pn, Some c) /\
      ir_result r = IterPanic pn /\
      (forall d, r = last recs d).
Proof.
  intros fuel p Hci ifuel recs pn c H n. unfold check in H.
  exact (failing_checkpoint_first fuel p Hci ifuel 1 (initial_path (p_cfg p)) None []
           recs pn c (le_n 1) H n).
Qed.

(* in the weaker shape requested *)
Corollary failing_checkpoint_first_weak : forall fuel p,
  checkpoint_interval (p_cfg p) = Some 1 ->
  forall ifuel recs pn c,
    check ifuel fuel p = (recs, RunPanic pn, Some c) ->
    forall n, exists r rest fin ck4,
      check_from (S n) fuel p c = (r :: rest, fin, ck4) /\ ir_result r = IterPanic pn.
Proof.
  intros fuel p Hci ifuel recs pn c H n.
  destruct (failing_checkpoint_first_check fuel p Hci ifuel recs pn c H n) as [r [H1 [H2 _]]].
  exists r, [], (RunPanic pn), (Some c). split; assumption.
Qed.

(* ------------------------------------------------------------------ *)
(* C19: limits                                                         *)

(* stopping because of the limit is a normal return: when the counter is at
   a boundary and has reached max_permutations, the loop returns RunOk
   without running anything (and has stored the current path) *)
Theorem limit_stop_is_ok : forall n fuel p i pa ck acc mp,
  max_permutations (p_cfg p) = Some mp ->
  Nat.modulo i (ci_of (p_cfg p)) = 0 -> mp <= i ->
  check_loop (S n) fuel p i pa ck acc = (rev acc, RunOk, Some pa).
Proof.
  intros n fuel p i pa ck acc mp Hmp Hb Hle.
  rewrite check_loop_S, (stop_at_intro p i mp Hb Hmp Hle).
  unfold ck_at. rewrite Hb. reflexivity.
Qed.

Lemma loop_limit : forall fuel p mp, max_permutations (p_cfg p) = Some mp ->
  forall n i pa ck rest fin ck',
  Loop fuel p n i pa ck rest fin ck' ->
  forall b, i <= b -> Nat.modulo b (ci_of (p_cfg p)) = 0 -> mp <= b ->
  length rest <= b - i.
Proof.
  intros fuel p mp Hmp n i pa ck rest fin ck' HL b Hib Hb Hle.
  destruct (nth_error rest (b - i)) as [r|] eqn:Hk; [|apply nth_error_None; exact Hk].
  destruct (loop_suffix _ _ _ _ _ _ _ _ _ _ _ HL Hk) as [_ [Hs _]].
  replace (i + (b - i)) with b in Hs by lia.
  rewrite (stop_at_intro p b mp Hb Hmp Hle) in Hs. discriminate Hs.
Qed.

(* No iteration is started at a boundary counter >= max_permutations: if [b]
   is such a counter (a multiple of the checkpoint interval, at least mp, not
   before the current counter i), at most [b - i] new iterations run, i.e.
   only the counters i .. b-1 *)
Theorem max_permutations_stops : forall fuel p mp,
  max_permutations (p_cfg p) = Some mp ->
  forall ifuel i pa ck acc recs fin ck',
    check_loop ifuel fuel p i pa ck acc = (recs, fin, ck') ->
    forall b, i <= b -> Nat.modulo b (ci_of (p_cfg p)) = 0 -> mp <= b ->
    length recs <= length acc + (b - i).
Proof.
  intros fuel p mp Hmp ifuel i pa ck acc recs fin ck' H b Hib Hb Hle.
  apply loop_complete in H. destruct H as [rest [E HL]]. subst recs.
  rewrite app_length, rev_length.
  pose proof (loop_limit fuel p mp Hmp _ _ _ _ _ _ _ HL b Hib Hb Hle). lia.
Qed.

Corollary max_permutations_stops_some : forall fuel p mp c,
  max_permutations (p_cfg p) = Some mp ->
  checkpoint_interval (p_cfg p) = Some c ->
  forall ifuel i pa ck acc recs fin ck',
    check_loop ifuel fuel p i pa ck acc = (recs, fin, ck') ->
    forall b, i <= b -> Nat.modulo b c = 0 -> mp <= b ->
    length recs <= length acc + (b - i).
Proof.
  intros fuel p mp c Hmp Hci ifuel i pa ck acc recs fin ck' H b Hib Hb Hle.
  apply (max_permutations_stops fuel p mp Hmp _ _ _ _ _ _ _ _ H b Hib); [|exact Hle].
  unfold ci_of. rewrite Hci. exact Hb.
Qed.

(* closed form: such a boundary exists as soon as the interval is positive *)
Corollary max_permutations_bound : forall fuel p mp c,
  max_permutations (p_cfg p) = Some mp ->
  checkpoint_interval (p_cfg p) = Some c -> c > 0 ->
  forall ifuel i pa ck acc recs fin ck',
    check_loop ifuel fuel p i pa ck acc = (recs, fin, ck') ->
    length recs <= length acc + (c * Nat.max i mp - i).
Proof.
  intros fuel p mp c Hmp Hci Hc ifuel i pa ck acc recs fin ck' H.
  apply (max_permutations_stops_some fuel p mp c Hmp Hci _ _ _ _ _ _ _ _ H).
  - nia.
  - rewrite Nat.mul_comm. apply Nat.mod_mul. lia.
  - nia.
Qed.

(* with interval 1 the bound is exact: check runs at most mp - 1 iterations *)
Corollary max_permutations_interval_1 : forall fuel p mp,
  max_permutations (p_cfg p) = Some mp ->
  checkpoint_interval (p_cfg p) = Some 1 ->
  forall ifuel recs fin ck',
    check ifuel fuel p = (recs, fin, ck') -> length recs <= mp - 1.
Proof.
  intros fuel p mp Hmp Hci ifuel recs fin ck' H. unfold check in H.
  pose proof (max_permutations_stops_some fuel p mp 1 Hmp Hci _ _ _ _ _ _ _ _ H
                (Nat.max 1 mp)) as Hb.
  cbn [length] in Hb.
  assert (length recs <= 0 + (Nat.max 1 mp - 1)).
  { apply Hb; [lia | apply Nat.mod_1_r | lia]. }
  lia.
Qed.

Print Assumptions first_failure_is_result.
Print Assumptions resume_is_suffix.
Print Assumptions init_exec_depends_on_path_only.
Print Assumptions records_chain.
Print Assumptions checkpoint_is_begin_of_boundary.
Print Assumptions failing_checkpoint_first.
Print Assumptions max_permutations_stops.
Print Assumptions record_determined.
Print Assumptions run_ok_complete.
