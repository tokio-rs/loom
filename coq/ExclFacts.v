(* ExclFacts: MUTUAL EXCLUSION AS A GLOBAL INVARIANT of the model, for every
   program and every schedule (path).

   Contents
     1. the abstraction: per thread (t_guards, t_cont), per object the lock word
        (absT, absO); the phases of a continuation (released, inwaker, needg,
        wfc, all defined on skipc c = the continuation without its leading
        scheduling points / park / raw Arc decrements); the invariant
        [excl_inv e] := INV (absT e) (absO e) /\ Forall clean (e_bodies e)
     2-3. continuations, lists, guards (remove_last_guard_spec ...)
     4. INV_step: the one abstract transition lemma (mstep / rstep say what a
        step of thread [me] may do to a lock word)
     5. the abstraction of the helpers of Ops.v (post_acquire_abs,
        release_lock_abs, post_acquire_read/write_abs, release_rw_abs for
        release_read and release_write)
     6. nz: "neutral" micro-operations.  The helpers of Ops.v that leave
        proj3 e = (absT e, absO e, e_bodies e) alone are equations (lemmas proj3_..);
        exec_micro_nz is proved for every micro-op that does not touch a lock
        by ONE tactic ([destruct m; nz_tac], same structure as
        SyncMono.exec_micro_mono)
     7. Section Step: one lemma per lock micro-op (MLockPost, MUnlock, MReadPost,
        MWritePost, MUnread and MUnwrite (both from step_unrw), MWait, MCvWait,
        MBoRegister, MWakerRelease, MWakeTake, MReleaseAll) and step_excl_inv
     8. init_excl_inv, run_step_excl_inv, steps_excl_inv, schedule_excl_inv,
        run_excl_inv
     9. the invariant read back on the state (mutex_inv, rw_inv, thread_inv) and
        the requested corollaries
     10. witnesses by vm_compute

   THE INVARIANT, read back on the state (section 9 proves each line from
   excl_inv e):
     inside th m := (In (GMutex, m) (t_guards th) /\ ~ released (t_cont th) m)
                    \/ inwaker (t_cont th) m
     released c m <-> exists pre r, c = pre ++ MLockPost m LMReacquire :: r /\
                       forallb is_skip pre = true              (released_spec)
       i.e. the thread is inside Condvar::wait on m, has given m up (MCvWait
       ran) and its pending re-acquisition has not run yet;
     inwaker c m: the same with MWakerRelease m: the thread is in the critical
       section of AtomicWaker::register on the waker lock m (DWaker objects are
       OMutex objects and that lock is taken WITHOUT a guard entry).
     Mutex m with state s:
       mutex_lock_owner    mx_lock s = Some t -> thread t exists and is inside m
       mutex_inside_owner  thread t inside m  -> mx_lock s = Some t
       (hence mutex_inside_unique: at most one thread is inside m)
       mutex_guard_once    gcount GMutex m (t_guards th) <= 1, UNCONDITIONALLY:
         a recursive lock() blocks the thread on itself (deadlock), a recursive
         try_lock fails; a second guard entry is never pushed
       wait_keeps_guard    released (t_cont th) m -> In (GMutex, m) (t_guards th)
     RwLock r with state s:
       rwlock_write_owner        rw_lock s = Some (RLWrite t) -> t has a (GWrite, r) guard
       rwlock_write_guard_owner  t has a (GWrite, r) guard -> rw_lock s = Some (RLWrite t)
       rwlock_reader_has_guard   every registered reader has a (GRead, r) guard
       rwlock_write_guard_once   at most one (GWrite, r) entry per thread
       wexcl (rwlock_writer_excludes_inv, rwlock_writer_no_own_read): a
         (GWrite, r) guard excludes every other (GRead, r) / (GWrite, r) guard
         of every thread.
     Thread-local: wfc (t_cont th) (the continuation is a prefix of a wait /
       register sequence followed by a continuation without MLockPost _
       LMReacquire, MCvWait, MWakerRelease); a thread in the register section
       of m owns no guard of m.

   MAIN THEOREMS
     init_excl_inv      : excl_inv (init_exec p pa)
     run_step_excl_inv  : excl_inv e -> nth_error (e_threads e) me = Some t ->
                          t_cont t = m :: rest ->
                          exec_micro (upd_thread e me (fun t => th_set_cont t rest)) me m = MOk e' ->
                          excl_inv e'
     steps_excl_inv     : steps e e' -> excl_inv e -> excl_inv e'
     schedule_excl_inv  : excl_inv e -> excl_inv (res_exec (fst (schedule e)))
     run_excl_inv       : not_panic (snd (run fuel (init_exec p pa))) ->
                          excl_inv (fst (run fuel (init_exec p pa)))
     mutex_exclusion (+ _inv): two distinct threads that both own a guard of
                          mutex m: one of them is [released] (blocked inside
                          Condvar::wait, has not re-acquired)
     lock_acquire_only_when_free: MLockPost changes t_guards only if mx_lock = None
     lock_no_second_owner: while another thread is inside m, the only MLockPost
                          that returns MOk is a failing try_lock (e' = log_op e me (RBool false))
     rwlock_writer_excludes (+ _inv): a write guard never coexists with another
                          thread's read or write guard of the same RwLock
     lock_held_reachable, two_guards_reachable, two_guards_released,
     recursive_read_state, recursive_read_corrupt: witnesses

   DEVIATIONS from the requested statements
   D1  Preservation is proved for ONE STEP OF Scheduler::run (the micro-op is
       the head of the active thread's continuation, executed on the popped
       state), not for [exec_micro e me m] with arbitrary e, me, m: that is
       false (exec_micro_alone_breaks: MWakerRelease 0 executed by a thread
       that is not in the register section frees a mutex that another thread
       holds).  The invariant needs the shape of continuations, so it cannot
       be stated on guards and lock words alone.
   D2  Only MOk.  The state carried by MFail need not satisfy the invariant:
       when the re-acquisition in Condvar::wait fails (PanicExpectLock) the
       popped state has a guard owner that is neither released nor the lock
       owner; MCvWait on an object that is no Condvar (PanicModel 17, the
       program language is untyped) likewise.  Hence run_excl_inv has the
       hypothesis not_panic r (r = IterDone \/ r = IterFuel), as
       SyncMono.run_steps.  Every state BEFORE a panicking step is covered:
       it is fst (run k _) for a smaller k, whose result is IterFuel.
   D3  "is inside a Condvar wait" is [released (t_cont th) m] (next significant
       micro-op), not mere membership of MLockPost m LMReacquire in t_cont:
       membership is not inductive (nothing would forbid MUnlock while the
       re-acquisition is buried deeper).  released_spec gives the list form.
   D4  mx_lock s = Some t does NOT imply that t has a (GMutex, m) guard: the
       AtomicWaker lock is an OMutex acquired without guard (MBoRegister ..
       MWakerRelease, and MWakeTake which acquires and releases in one
       micro-op).  The invariant has the extra disjunct [inwaker].  It holds
       for untyped programs too (block_on on a DMutex, lock on a DWaker).
   D5  lock_acquire_only_when_free is stated on t_guards of the acting thread
       before/after the micro-op.
   D6  RwLock: "registered reader -> read guard" holds, the converse does not:
       a thread that read-locks r twice and drops one guard keeps a read guard
       but is no longer registered (rt::RwLock keeps a HashSet of thread ids;
       the model's set_insert/set_remove are faithful).  With rt::RwLock alone
       rwlock_writer_excludes would therefore be FALSE
       (program p_rr below: rt lets the writer in while main still owns a read
       guard).  Real loom panics there with "loom::RwLock state corrupt"
       (std::sync::RwLock::try_write inside sync::RwLock; checked with the
       harness on p_rr).  The model has that backstop (any_guard in
       MReadPost / MWritePost, PanicRwCorrupt), and with it the requested
       statement holds unconditionally: rwlock_writer_excludes.  The stale
       guard itself is still reachable (recursive_read_state). *)
Require Import LV.Base LV.VV LV.Path LV.Prog LV.Objects LV.Exec LV.Atomic LV.Ops LV.Check
               LV.SyncFacts LV.ExecFacts LV.SyncMono LV.CountFacts.
From Coq Require Import List Arith Lia Bool.
Import ListNotations.

(* ================================================================== *)
(* 1. The abstraction: guards + continuation per thread, lock word per object *)
(* ================================================================== *)

Definition gst : Type := (list (gkind * nat) * list micro)%type.

Inductive lockst :=
  | LkM (l : option nat)
  | LkR (l : option rwlocked).

Definition tproj (t : thread) : gst := (t_guards t, t_cont t).
Definition oproj (o : object) : option lockst :=
  match o with
  | OMutex s => Some (LkM (mx_lock s))
  | ORwLock s => Some (LkR (rw_lock s))
  | _ => None
  end.

Definition absT (e : exec) : list gst := map tproj (e_threads e).
Definition absO (e : exec) : list (option lockst) := map oproj (e_objects e).

(* ---- the phases of a continuation ---- *)

(* micro-operations that only ever appear in a continuation because a wrapper
   pushed them at run time: never in an expanded program body *)
Definition is_dyn (x : micro) : bool :=
  match x with
  | MLockPost _ LMReacquire | MCvWait _ _ | MWakerRelease _ => true
  | _ => false
  end.

Definition clean (c : list micro) : Prop := forallb (fun x => negb (is_dyn x)) c = true.

(* micro-operations that sit between the characteristic operations of the
   Condvar::wait / AtomicWaker::register sequences: scheduling points, park,
   and the raw reference-count decrement of the replaced waker *)
Definition is_skip (x : micro) : bool :=
  match x with
  | MBranch _ _ _ | MPark | MArcDecRaw _ => true
  | _ => false
  end.

Fixpoint skipc (c : list micro) : list micro :=
  match c with
  | [] => []
  | x :: r => if is_skip x then skipc r else c
  end.

(* the thread has given the mutex up inside Condvar::wait and has not yet
   re-acquired it: the next significant micro-op is the pending re-acquisition *)
Definition released_hd (l : list micro) (m : nat) : Prop :=
  match l with
  | MLockPost m' LMReacquire :: _ => m' = m
  | _ => False
  end.
Definition released (c : list micro) (m : nat) : Prop := released_hd (skipc c) m.

(* the thread is inside the critical section of AtomicWaker::register *)
Definition inwaker_hd (l : list micro) (m : nat) : Prop :=
  match l with
  | MWakerRelease m' :: _ => m' = m
  | _ => False
  end.
Definition inwaker (c : list micro) (m : nat) : Prop := inwaker_hd (skipc c) m.

(* the thread is inside Condvar::wait on m (before or after giving m up) *)
Definition needg_hd (l : list micro) (m : nat) : Prop :=
  match l with
  | MLockPost m' LMReacquire :: _ => m' = m
  | MCvWait _ m' :: _ => m' = m
  | _ => False
  end.
Definition needg (c : list micro) (m : nat) : Prop := needg_hd (skipc c) m.

Definition wfc_hd (l : list micro) : Prop :=
  match l with
  | [] => True
  | MCvWait _ m :: r =>
      exists r', r = MPark :: MBranch m AOpaque BMutexLocked :: MLockPost m LMReacquire :: r' /\ clean r'
  | _ :: r => clean r
  end.
Definition wfc (c : list micro) : Prop := wfc_hd (skipc c).

Definition hasg (k : gkind) (m : nat) (gc : gst) : Prop := In (k, m) (fst gc).

(* thread "is inside" mutex m *)
Definition act (gc : gst) (m : nat) : Prop :=
  (hasg GMutex m gc /\ ~ released (snd gc) m) \/ inwaker (snd gc) m.

Lemma gk_dec : forall x y : gkind * nat, {x = y} + {x <> y}.
Proof. decide equality; [apply Nat.eq_dec|decide equality]. Defined.

Definition gcount (k : gkind) (m : nat) (g : list (gkind * nat)) : nat := count_occ gk_dec g (k, m).

Definition thr_ok (gc : gst) : Prop :=
  wfc (snd gc) /\
  (forall m, needg (snd gc) m -> hasg GMutex m gc) /\
  (forall m, inwaker (snd gc) m -> ~ hasg GMutex m gc) /\
  (forall m, gcount GMutex m (fst gc) <= 1) /\
  (forall r, gcount GWrite r (fst gc) <= 1).

Definition mtx_ok (T : list gst) (m : nat) (l : option nat) : Prop :=
  (forall t, l = Some t -> exists gc, nth_error T t = Some gc /\ act gc m) /\
  (forall t gc, nth_error T t = Some gc -> act gc m -> l = Some t).

Definition rw_ok (T : list gst) (r : nat) (l : option rwlocked) : Prop :=
  (forall t, l = Some (RLWrite t) -> exists gc, nth_error T t = Some gc /\ hasg GWrite r gc) /\
  (forall t gc, nth_error T t = Some gc -> hasg GWrite r gc -> l = Some (RLWrite t)) /\
  (forall rs t, l = Some (RLRead rs) -> In t rs ->
     exists gc, nth_error T t = Some gc /\ hasg GRead r gc).

Definition obj_ok (T : list gst) (i : nat) (x : lockst) : Prop :=
  match x with
  | LkM l => mtx_ok T i l
  | LkR l => rw_ok T i l
  end.

(* a write guard of rwlock r excludes every other read or write guard of r,
   whoever owns it (this part rests on the std::sync::RwLock inside
   sync::RwLock: any_guard in MReadPost / MWritePost) *)
Definition wexcl (T : list gst) : Prop :=
  forall a b ga gb r k,
    nth_error T a = Some ga -> nth_error T b = Some gb ->
    In (GWrite, r) (fst ga) -> In (k, r) (fst gb) -> k <> GMutex ->
    a = b /\ k = GWrite.

Definition INV (T : list gst) (O : list (option lockst)) : Prop :=
  (forall t gc, nth_error T t = Some gc -> thr_ok gc) /\
  (forall i x, nth_error O i = Some (Some x) -> obj_ok T i x) /\
  wexcl T.

Definition excl_inv (e : exec) : Prop :=
  INV (absT e) (absO e) /\ Forall clean (e_bodies e).

(* ================================================================== *)
(* 2. Continuations                                                    *)
(* ================================================================== *)

Lemma clean_app a b : clean a -> clean b -> clean (a ++ b).
Proof. unfold clean. intros Ha Hb. rewrite forallb_app, Ha, Hb. reflexivity. Qed.

Lemma clean_cons x r : clean (x :: r) <-> is_dyn x = false /\ clean r.
Proof.
  unfold clean. cbn [forallb]. rewrite andb_true_iff, negb_true_iff. tauto.
Qed.

Lemma clean_skipc c : clean c -> clean (skipc c).
Proof.
  induction c as [|x r IH]; intros H; [exact H|]. cbn [skipc].
  destruct (is_skip x); [|exact H]. apply IH. apply clean_cons in H. tauto.
Qed.

Lemma plain_hd x r : is_dyn x = false ->
  (wfc_hd (x :: r) <-> clean r) /\
  forall m, ~ released_hd (x :: r) m /\ ~ inwaker_hd (x :: r) m /\ ~ needg_hd (x :: r) m.
Proof. intros Hd. destruct x; try destruct mode; try discriminate Hd; cbn; tauto. Qed.

(* a clean continuation is in no phase *)
Lemma clean_hd l : clean l ->
  wfc_hd l /\ (forall m, ~ released_hd l m) /\ (forall m, ~ inwaker_hd l m) /\ (forall m, ~ needg_hd l m).
Proof.
  destruct l as [|x r]; intros H.
  - cbn. tauto.
  - apply clean_cons in H. destruct H as [Hx Hr]. destruct (plain_hd x r Hx) as [Hw Hp].
    split; [apply Hw, Hr|]. repeat split; intros m; apply (Hp m).
Qed.

Lemma clean_phase c : clean c ->
  wfc c /\ (forall m, ~ released c m) /\ (forall m, ~ inwaker c m) /\ (forall m, ~ needg c m).
Proof. intros H. apply clean_hd, clean_skipc, H. Qed.

Lemma skipc_skip x r : is_skip x = true -> skipc (x :: r) = skipc r.
Proof. intros H. cbn [skipc]. rewrite H. reflexivity. Qed.

Lemma skipc_app sk l : forallb is_skip sk = true -> skipc (sk ++ l) = skipc l.
Proof.
  induction sk as [|y t IH]; intros H; [reflexivity|]. cbn [forallb] in H.
  apply andb_true_iff in H. destruct H as [Hy Ht]. cbn [app]. rewrite (skipc_skip _ _ Hy). apply IH, Ht.
Qed.

Lemma skipc_noskip x r : is_skip x = false -> skipc (x :: r) = x :: r.
Proof. intros H. cbn [skipc]. rewrite H. reflexivity. Qed.

(* a continuation whose head is an ordinary micro-op *)
Definition plain (c : list micro) : Prop :=
  forall m, ~ released c m /\ ~ inwaker c m /\ ~ needg c m.

Lemma plain_head x r : is_skip x = false -> is_dyn x = false -> plain (x :: r).
Proof.
  intros Hs Hd m. unfold released, inwaker, needg. rewrite (skipc_noskip _ _ Hs).
  exact (proj2 (plain_hd x r Hd) m).
Qed.

Lemma wfc_head_clean x r : is_skip x = false -> is_dyn x = false -> wfc (x :: r) -> clean r.
Proof.
  intros Hs Hd. unfold wfc. rewrite (skipc_noskip _ _ Hs). exact (proj1 (proj1 (plain_hd x r Hd))).
Qed.

Lemma clean_plain c : clean c -> plain c.
Proof. intros H m. destruct (clean_phase c H) as (_ & H1 & H2 & H3). auto. Qed.

Lemma act_plain g c m : plain c -> (act (g, c) m <-> In (GMutex, m) g).
Proof.
  intros Hp. destruct (Hp m) as (H1 & H2 & _). unfold act, hasg. cbn [fst snd]. tauto.
Qed.

(* ================================================================== *)
(* 3. Lists                                                            *)
(* ================================================================== *)

Lemma list_set_length' {A : Type} (l : list A) n x : length (list_set l n x) = length l.
Proof. exact (list_set_length A l n x). Qed.

Lemma list_upd_twice {A : Type} (l : list A) n f g :
  list_upd (list_upd l n f) n g = list_upd l n (fun x => g (f x)).
Proof.
  apply list_ext. intros i. destruct (Nat.eq_dec n i) as [<-|Hne].
  - rewrite !nth_error_list_upd_same. destruct (nth_error l n); reflexivity.
  - rewrite !nth_error_list_upd_other by exact Hne. reflexivity.
Qed.

Lemma list_upd_ext {A : Type} (l : list A) n f g :
  (forall x, f x = g x) -> list_upd l n f = list_upd l n g.
Proof. intros H. unfold list_upd. destruct (nth_error l n); [rewrite H|]; reflexivity. Qed.

Lemma list_upd_const {A : Type} (l : list A) n f x :
  nth_error l n = Some x -> list_upd l n f = list_upd l n (fun _ => f x).
Proof. intros H. unfold list_upd. rewrite H. reflexivity. Qed.

(* ---- guards ---- *)
Lemma gkind_eqb_eq a b : gkind_eqb a b = true <-> a = b.
Proof. destruct a, b; cbn; split; congruence. Qed.

Lemma guard_eqb_eq k m k' m' : gkind_eqb k k' && Nat.eqb m m' = true <-> (k, m) = (k', m').
Proof.
  rewrite andb_true_iff, gkind_eqb_eq, Nat.eqb_eq. split; [intros [-> ->]; reflexivity|].
  intros H; injection H as -> ->. auto.
Qed.

Lemma remove_last_guard_spec g k m :
  match remove_last_guard g k m with
  | Some g' => exists g1 g2, g = g1 ++ (k, m) :: g2 /\ g' = g1 ++ g2
  | None => ~ In (k, m) g
  end.
Proof.
  induction g as [|[k' m'] t IH]; cbn [remove_last_guard]; [intros []|].
  destruct (remove_last_guard t k m) as [t'|].
  - destruct IH as (g1 & g2 & -> & ->). exists ((k', m') :: g1), g2. split; reflexivity.
  - destruct (gkind_eqb k k' && Nat.eqb m m') eqn:Hq.
    + apply guard_eqb_eq in Hq. injection Hq as <- <-. exists [], t. split; reflexivity.
    + intros [H|H]; [|exact (IH H)]. symmetry in H. apply guard_eqb_eq in H. congruence.
Qed.

Lemma holds_guard_In e me k m t :
  get_thread e me = Some t -> (holds_guard e me k m = true <-> In (k, m) (t_guards t)).
Proof.
  intros Ht. unfold holds_guard. rewrite Ht. rewrite existsb_exists. split.
  - intros ([k' m'] & Hin & Hq). cbn [fst snd] in Hq. rewrite andb_true_iff, gkind_eqb_eq, Nat.eqb_eq in Hq.
    destruct Hq as [-> ->]. exact Hin.
  - intros Hin. exists (k, m). split; [exact Hin|]. cbn [fst snd].
    rewrite andb_true_iff, gkind_eqb_eq, Nat.eqb_eq. auto.
Qed.

Lemma gcount_In k m g : In (k, m) g <-> gcount k m g > 0.
Proof. apply count_occ_In. Qed.

Lemma gcount_zero k m g : ~ In (k, m) g <-> gcount k m g = 0.
Proof. unfold gcount. rewrite (count_occ_In gk_dec). lia. Qed.

Lemma gcount_app k m a b : gcount k m (a ++ b) = gcount k m a + gcount k m b.
Proof. apply count_occ_app. Qed.

Lemma gcount_single k m k' m' :
  gcount k m [(k', m')] = if gk_dec (k', m') (k, m) then 1 else 0.
Proof. unfold gcount. cbn [count_occ]. destruct (gk_dec _ _); reflexivity. Qed.

Lemma gcount_mid k m a x b : gcount k m (a ++ x :: b) = gcount k m (a ++ b) + gcount k m [x].
Proof. rewrite !gcount_app. change (x :: b) with ([x] ++ b). rewrite gcount_app. lia. Qed.

(* ================================================================== *)
(* 4. The abstract transition lemma                                    *)
(* ================================================================== *)

Definition readers (l : option rwlocked) : list nat :=
  match l with Some (RLRead rs) => rs | _ => [] end.
Definition iswrite (l : option rwlocked) : Prop :=
  match l with Some (RLWrite _) => True | _ => False end.

(* what one step of thread [me] (whose abstract state goes from gc to gc') may
   do to the lock word of mutex i *)
Definition mstep (me i : nat) (gc gc' : gst) (l l' : option nat) : Prop :=
  (l' = l /\ (act gc i <-> act gc' i)) \/
  (l = None /\ l' = Some me /\ act gc' i) \/
  (act gc i /\ l' = None /\ ~ act gc' i).

(* ... and to the lock word of rwlock i *)
Definition rstep (me i : nat) (gc gc' : gst) (l l' : option rwlocked) : Prop :=
  (l' = l /\ (hasg GWrite i gc <-> hasg GWrite i gc') /\ (hasg GRead i gc -> hasg GRead i gc')) \/
  (l = None /\ l' = Some (RLWrite me) /\ hasg GWrite i gc') \/
  (hasg GWrite i gc /\ l' = None /\ ~ hasg GWrite i gc') \/
  (~ iswrite l /\ ~ iswrite l' /\ (hasg GWrite i gc <-> hasg GWrite i gc') /\
   forall t, In t (readers l') -> (t = me /\ hasg GRead i gc') \/ (t <> me /\ In t (readers l))).

Definition ostep (me i : nat) (gc gc' : gst) (x x' : lockst) : Prop :=
  match x, x' with
  | LkM l, LkM l' => mstep me i gc gc' l l'
  | LkR l, LkR l' => rstep me i gc gc' l l'
  | _, _ => False
  end.

Definition fresh (gc : gst) : Prop := fst gc = [] /\ clean (snd gc).

Lemma fresh_ok gc : fresh gc -> thr_ok gc /\ (forall k m, ~ hasg k m gc) /\ (forall m, ~ act gc m).
Proof.
  destruct gc as [g c]. intros [Hg Hc]. cbn [fst snd] in *. subst g.
  destruct (clean_phase c Hc) as (H1 & H2 & H3 & H4).
  split; [|split].
  - unfold thr_ok, hasg. cbn [fst snd].
    repeat split; auto; try (intros m H; first [exact (H4 m H)|exact (H3 m H)]).
  - intros k m H. exact H.
  - intros m [[H _]|H]; [exact H|exact (H3 m H)].
Qed.

Lemma nth_T'_inv (T : list gst) me gc gc' nw t g :
  nth_error T me = Some gc ->
  nth_error (list_upd T me (fun _ => gc') ++ nw) t = Some g ->
  (t = me /\ g = gc') \/ (t <> me /\ nth_error T t = Some g) \/ In g nw.
Proof.
  intros Hme H. destruct (Nat.lt_ge_cases t (length T)) as [Hlt|Hge].
  - rewrite nth_error_app1 in H by (rewrite list_upd_length; exact Hlt).
    destruct (Nat.eq_dec me t) as [<-|Hne].
    + rewrite nth_error_list_upd_same, Hme in H. cbn in H. left. split; congruence.
    + rewrite nth_error_list_upd_other in H by exact Hne. right; left. split; [congruence|exact H].
  - rewrite nth_error_app2 in H by (rewrite list_upd_length; exact Hge).
    right; right. eapply nth_error_In, H.
Qed.

Lemma nth_T'_me (T : list gst) me gc gc' nw :
  nth_error T me = Some gc -> nth_error (list_upd T me (fun _ => gc') ++ nw) me = Some gc'.
Proof.
  intros Hme. assert (Hlt : me < length T) by (apply nth_error_Some; congruence).
  rewrite nth_error_app1 by (rewrite list_upd_length; exact Hlt).
  rewrite nth_error_list_upd_same, Hme. reflexivity.
Qed.

Lemma nth_T'_other (T : list gst) me gc' nw t g :
  t <> me -> nth_error T t = Some g -> nth_error (list_upd T me (fun _ => gc') ++ nw) t = Some g.
Proof.
  intros Hne H. assert (Hlt : t < length T) by (apply nth_error_Some; congruence).
  rewrite nth_error_app1 by (rewrite list_upd_length; exact Hlt).
  rewrite nth_error_list_upd_other by congruence. exact H.
Qed.

Definition own_ok (P : gst -> Prop) (T : list gst) (o : option nat) : Prop :=
  (forall t, o = Some t -> exists gc, nth_error T t = Some gc /\ P gc) /\
  (forall t gc, nth_error T t = Some gc -> P gc -> o = Some t).

Lemma own_step (P : gst -> Prop) T me gc gc' nw o o' :
  nth_error T me = Some gc -> (forall g, In g nw -> ~ P g) ->
  own_ok P T o ->
  (o' = o /\ (P gc <-> P gc')) \/ (o = None /\ o' = Some me /\ P gc') \/ (P gc /\ o' = None /\ ~ P gc') ->
  own_ok P (list_upd T me (fun _ => gc') ++ nw) o'.
Proof.
  intros Hme Hfr [HA HB] Hs.
  destruct Hs as [(-> & Hiff)|[(-> & -> & Ha')|(Ha & -> & Hna')]]; split.
  - intros t Ht. destruct (HA t Ht) as (g & Hg & Hact).
    destruct (Nat.eq_dec t me) as [->|Hne].
    + exists gc'. split; [eapply nth_T'_me; exact Hme|]. apply Hiff. congruence.
    + exists g. split; [apply nth_T'_other; assumption|exact Hact].
  - intros t g Hg Hact.
    destruct (nth_T'_inv _ _ _ _ _ _ _ Hme Hg) as [(-> & ->)|[(Hne & Hg0)|Hin]].
    + apply (HB me gc Hme). apply Hiff, Hact.
    + exact (HB t g Hg0 Hact).
    + destruct (Hfr g Hin Hact).
  - intros t Ht. injection Ht as <-. exists gc'. split; [eapply nth_T'_me; exact Hme|exact Ha'].
  - intros t g Hg Hact.
    destruct (nth_T'_inv _ _ _ _ _ _ _ Hme Hg) as [(-> & ->)|[(Hne & Hg0)|Hin]].
    + reflexivity.
    + discriminate (HB t g Hg0 Hact).
    + destruct (Hfr g Hin Hact).
  - intros t Ht. discriminate Ht.
  - intros t g Hg Hact. exfalso.
    destruct (nth_T'_inv _ _ _ _ _ _ _ Hme Hg) as [(-> & ->)|[(Hne & Hg0)|Hin]].
    + exact (Hna' Hact).
    + pose proof (HB t g Hg0 Hact) as H1. pose proof (HB me gc Hme Ha) as H2. congruence.
    + exact (Hfr g Hin Hact).
Qed.

Lemma mtx_step T me gc gc' nw i l l' :
  nth_error T me = Some gc -> Forall fresh nw ->
  mtx_ok T i l -> mstep me i gc gc' l l' ->
  mtx_ok (list_upd T me (fun _ => gc') ++ nw) i l'.
Proof.
  intros Hme Hnw. apply (own_step (fun g => act g i) T me gc gc' nw l l' Hme).
  intros g Hg. rewrite Forall_forall in Hnw. apply (fresh_ok g (Hnw g Hg)).
Qed.

Definition wowner (l : option rwlocked) : option nat :=
  match l with Some (RLWrite t) => Some t | _ => None end.

Lemma rw_ok_own T r l :
  rw_ok T r l <->
  own_ok (hasg GWrite r) T (wowner l) /\
  (forall rs t, l = Some (RLRead rs) -> In t rs -> exists gc, nth_error T t = Some gc /\ hasg GRead r gc).
Proof.
  assert (Hw : forall t, wowner l = Some t <-> l = Some (RLWrite t)).
  { intros t. destruct l as [[rs|w]|]; cbn [wowner]; split; congruence. }
  unfold rw_ok, own_ok. setoid_rewrite Hw. tauto.
Qed.

Lemma rw_step T me gc gc' nw i l l' :
  nth_error T me = Some gc -> Forall fresh nw ->
  rw_ok T i l -> rstep me i gc gc' l l' ->
  rw_ok (list_upd T me (fun _ => gc') ++ nw) i l'.
Proof.
  intros Hme Hnw Hok Hs. apply rw_ok_own in Hok. destruct Hok as [Hown HC]. apply rw_ok_own.
  assert (Hfr : forall g, In g nw -> ~ hasg GWrite i g).
  { intros g Hg. rewrite Forall_forall in Hnw. apply (fresh_ok g (Hnw g Hg)). }
  pose proof (own_step (hasg GWrite i) T me gc gc' nw (wowner l) (wowner l') Hme Hfr Hown) as Hstep.
  assert (Hn : forall l0, ~ iswrite l0 -> wowner l0 = None).
  { intros [[rs|w]|] H; [reflexivity|destruct H; exact I|reflexivity]. }
  destruct Hs as [(-> & Hiff & Hrd)|[(-> & -> & Hw')|[(Hw & -> & Hnw')|(Hnl & Hnl' & Hiff & Hrs)]]]; split.
  - apply Hstep. left. split; [reflexivity|exact Hiff].
  - intros rs t Hl Hin. destruct (HC rs t Hl Hin) as (g & Hg & Hh).
    destruct (Nat.eq_dec t me) as [->|Hne].
    + exists gc'. split; [eapply nth_T'_me; exact Hme|]. apply Hrd. congruence.
    + exists g. split; [apply nth_T'_other; assumption|exact Hh].
  - apply Hstep. right; left. split; [reflexivity|split; [reflexivity|exact Hw']].
  - intros rs t Hl. discriminate Hl.
  - apply Hstep. right; right. split; [exact Hw|split; [reflexivity|exact Hnw']].
  - intros rs t Hl. discriminate Hl.
  - apply Hstep. left. rewrite (Hn l Hnl), (Hn l' Hnl'). split; [reflexivity|exact Hiff].
  - intros rs t Hl Hin. rewrite Hl in Hrs. cbn [readers] in Hrs.
    destruct (Hrs t Hin) as [(-> & Hh)|(Hne & Hin0)].
    + exists gc'. split; [eapply nth_T'_me; exact Hme|exact Hh].
    + destruct l as [[rs0|w]|]; cbn [readers] in Hin0; try destruct Hin0.
      destruct (HC rs0 t eq_refl Hin0) as (g & Hg & Hh).
      exists g. split; [apply nth_T'_other; assumption|exact Hh].
Qed.

(* the non-mutex guards of the stepping thread: kept or dropped, or one new
   guard (k, r) that is compatible with every guard of every thread *)
Definition newg_ok (T : list gst) (gc gc' : gst) : Prop :=
  forall k r, k <> GMutex -> In (k, r) (fst gc') ->
    In (k, r) (fst gc) \/
    ((forall t gt, nth_error T t = Some gt ->
        ~ In (GWrite, r) (fst gt) /\ (k = GWrite -> ~ In (GRead, r) (fst gt))) /\
     (forall k', k' <> GMutex -> In (k', r) (fst gc') -> k' = k)).

Lemma wexcl_step T me gc gc' nw :
  nth_error T me = Some gc -> Forall fresh nw -> wexcl T -> newg_ok T gc gc' ->
  wexcl (list_upd T me (fun _ => gc') ++ nw).
Proof.
  intros Hme Hnw HW Hng a b ga gb r k Ha Hb Hia Hib Hk.
  assert (Hfr : forall g k i, In g nw -> ~ In (k, i) (fst g)).
  { intros g k0 i Hg. rewrite Forall_forall in Hnw. apply (fresh_ok g (Hnw g Hg)). }
  assert (HkW : GWrite <> GMutex) by discriminate.
  destruct (nth_T'_inv _ _ _ _ _ _ _ Hme Ha) as [(-> & ->)|[(Hna & Ha0)|Hin]];
    [| |destruct (Hfr _ _ _ Hin Hia)];
  (destruct (nth_T'_inv _ _ _ _ _ _ _ Hme Hb) as [(-> & ->)|[(Hnb & Hb0)|Hin]];
    [| |destruct (Hfr _ _ _ Hin Hib)]).
  - split; [reflexivity|].
    destruct (Hng GWrite r HkW Hia) as [Hoa|[Hna Hua]].
    + destruct (Hng k r Hk Hib) as [Hob|[Hnb Hub]].
      * apply (HW me me gc gc r k Hme Hme Hoa Hob Hk).
      * destruct (Hnb me gc Hme) as [Hn _]. destruct (Hn Hoa).
    + apply Hua; assumption.
  - exfalso. destruct (Hng GWrite r HkW Hia) as [Hoa|[Hna Hua]].
    + destruct (HW me b gc gb r k Hme Hb0 Hoa Hib Hk) as [-> _]. apply Hnb. reflexivity.
    + destruct (Hna b gb Hb0) as [H1 H2]. destruct k; [destruct (Hk eq_refl)|exact (H2 eq_refl Hib)|exact (H1 Hib)].
  - exfalso. destruct (Hng k r Hk Hib) as [Hob|[Hnb Hub]].
    + destruct (HW a me ga gc r k Ha0 Hme Hia Hob Hk) as [-> _]. apply Hna. reflexivity.
    + destruct (Hnb a ga Ha0) as [H1 _]. exact (H1 Hia).
  - exact (HW a b ga gb r k Ha0 Hb0 Hia Hib Hk).
Qed.

Lemma INV_step T O me gc gc' nw O' :
  INV T O -> nth_error T me = Some gc -> thr_ok gc' -> Forall fresh nw ->
  newg_ok T gc gc' ->
  (forall i x', nth_error O' i = Some (Some x') ->
     exists x, nth_error O i = Some (Some x) /\ ostep me i gc gc' x x') ->
  INV (list_upd T me (fun _ => gc') ++ nw) O'.
Proof.
  intros (HT & HO & HW) Hme Hok Hnw Hng HO'. split; [|split].
  - intros t g Hg.
    destruct (nth_T'_inv _ _ _ _ _ _ _ Hme Hg) as [(-> & ->)|[(Hne & Hg0)|Hin]].
    + exact Hok.
    + exact (HT t g Hg0).
    + rewrite Forall_forall in Hnw. apply (fresh_ok g (Hnw g Hin)).
  - intros i x' Hi. destruct (HO' i x' Hi) as (x & Hx & Hs).
    pose proof (HO i x Hx) as Hox.
    destruct x as [l|l], x' as [l'|l']; cbn [ostep] in Hs; try (exfalso; exact Hs); cbn [obj_ok] in *.
    + eapply mtx_step; eassumption.
    + eapply rw_step; eassumption.
  - eapply wexcl_step; eassumption.
Qed.

Lemma newg_ok_sub T gc gc' :
  (forall k r, k <> GMutex -> In (k, r) (fst gc') -> In (k, r) (fst gc)) -> newg_ok T gc gc'.
Proof. intros H k r Hk Hin. left. apply H; assumption. Qed.

(* ================================================================== *)
(* 5. The abstraction of the helpers of Ops.v                          *)
(* ================================================================== *)

Definition pushc (ms : list micro) (gc : gst) : gst := (fst gc, ms ++ snd gc).
Definition addg (k : gkind) (m : nat) (gc : gst) : gst := (fst gc ++ [(k, m)], snd gc).
Definition delg (k : gkind) (m : nat) (gc : gst) : gst :=
  (match remove_last_guard (fst gc) k m with Some g => g | None => fst gc end, snd gc).
Definition demote (x : option lockst) : option lockst :=
  match x with Some (LkM _) => Some (LkM None) | y => y end.

Lemma absT_upd_thread e i f g :
  (forall t, tproj (f t) = g (tproj t)) -> absT (upd_thread e i f) = list_upd (absT e) i g.
Proof. intros H. unfold absT, upd_thread. cbn [e_threads ex_set_threads]. apply map_list_upd, H. Qed.

Lemma absT_upd_thread_id e i f :
  (forall t, tproj (f t) = tproj t) -> absT (upd_thread e i f) = absT e.
Proof. intros H. unfold absT, upd_thread. cbn [e_threads ex_set_threads]. apply map_list_upd_id, H. Qed.

Lemma absT_map_others e me p f :
  (forall t, tproj (f t) = tproj t) -> absT (map_others e me p f) = absT e.
Proof.
  intros H. unfold absT, map_others. cbn [e_threads ex_set_threads]. apply map_mapi_id.
  intros i x. destruct (negb (Nat.eqb i me) && p x); [apply H|reflexivity].
Qed.

Lemma absT_push_cont e me ms : absT (push_cont e me ms) = list_upd (absT e) me (pushc ms).
Proof. apply absT_upd_thread. reflexivity. Qed.
Lemma absT_push_guard e me k m : absT (push_guard e me k m) = list_upd (absT e) me (addg k m).
Proof. apply absT_upd_thread. reflexivity. Qed.
Lemma absT_drop_guard e me k m : absT (drop_guard e me k m) = list_upd (absT e) me (delg k m).
Proof.
  apply absT_upd_thread. intros t. unfold delg, tproj. cbn [fst snd].
  destruct (remove_last_guard (t_guards t) k m); reflexivity.
Qed.

Lemma absO_upd_const e i o :
  absO (upd_object e i (fun _ => o)) = list_upd (absO e) i (fun _ => oproj o).
Proof. unfold absO, upd_object. cbn [e_objects ex_set_objects]. apply map_list_upd. reflexivity. Qed.

Lemma absO_upd_same e i o o0 :
  nth_error (e_objects e) i = Some o0 -> oproj o = oproj o0 ->
  absO (upd_object e i (fun _ => o)) = absO e.
Proof.
  intros Hi Ho. rewrite absO_upd_const. apply list_upd_fix. intros x Hx.
  unfold absO in Hx. rewrite nth_error_map, Hi in Hx. cbn in Hx. congruence.
Qed.

Lemma absO_nth e i : nth_error (absO e) i = option_map oproj (nth_error (e_objects e) i).
Proof. apply nth_error_map. Qed.

Lemma absT_nth e i : nth_error (absT e) i = option_map tproj (nth_error (e_threads e) i).
Proof. apply nth_error_map. Qed.

(* ---- mutex ---- *)
Lemma release_lock_abs e me m :
  absT (release_lock e me m) = absT e /\
  e_bodies (release_lock e me m) = e_bodies e /\
  absO (release_lock e me m) = list_upd (absO e) m demote.
Proof.
  unfold release_lock. destruct (get_mutex e m) as [s|] eqn:Hg.
  - apply get_mutex_nth in Hg. cbv zeta.
    assert (Hd : list_upd (absO e) m demote = list_upd (absO e) m (fun _ => Some (LkM None))).
    { apply list_upd_const with (x := Some (LkM (mx_lock s))). rewrite absO_nth, Hg. reflexivity. }
    rewrite Hd. cbn [e_active upd_object ex_set_objects].
    destruct (e_active e).
    + repeat split.
      * rewrite absT_map_others by reflexivity. reflexivity.
      * unfold absO, map_others. cbn [e_objects ex_set_threads upd_object ex_set_objects].
        rewrite list_upd_twice. rewrite (map_list_upd _ _ oproj _ _ _ (fun _ => Some (LkM None))) by reflexivity.
        reflexivity.
    + repeat split. apply absO_upd_const.
  - repeat split. symmetry. apply list_upd_fix. intros x Hx. rewrite absO_nth in Hx.
    unfold get_mutex in Hg. destruct (nth_error (e_objects e) m) as [o|]; [|discriminate Hx].
    cbn in Hx. injection Hx as <-. destruct o; try reflexivity. discriminate Hg.
Qed.

(* the common tail of the three acquisitions: the lock word is written, the
   clock of [me] is joined, the other threads selected by [p] are blocked *)
Lemma acquired_abs e i o me c p (Q : Prop) :
  let e' := map_others (set_caus (upd_object e i (fun _ => o)) me c) me p set_blocked in
  (absO e' = list_upd (absO e) i (fun _ => oproj o) -> Q) ->
  absT e' = absT e /\ e_bodies e' = e_bodies e /\ (true = true -> Q) /\ (true = false -> e' = e).
Proof.
  intros e' HQ. subst e'.
  split; [|split; [reflexivity|split; [intros _; apply HQ, (absO_upd_const e i)|discriminate]]].
  rewrite absT_map_others by reflexivity. unfold set_caus.
  rewrite absT_upd_thread_id by reflexivity. reflexivity.
Qed.

Lemma post_acquire_abs e me m e' ok :
  post_acquire e me m = (e', ok) ->
  absT e' = absT e /\ e_bodies e' = e_bodies e /\
  (ok = true -> nth_error (absO e) m = Some (Some (LkM None)) /\
                absO e' = list_upd (absO e) m (fun _ => Some (LkM (Some me)))) /\
  (ok = false -> e' = e).
Proof.
  unfold post_acquire. destruct (get_mutex e m) as [s|] eqn:Hg.
  - apply get_mutex_nth in Hg. destruct (mx_lock s) as [o|] eqn:Hl; cbn [is_some].
    + intros H; injection H as <- <-. repeat split; intros; congruence.
    + intros H; injection H as <- <-. apply acquired_abs. intros HO.
      split; [rewrite absO_nth, Hg; cbn; rewrite Hl; reflexivity|exact HO].
  - intros H; injection H as <- <-. repeat split; intros; congruence.
Qed.

(* ---- rwlock ---- *)
Lemma post_acquire_read_abs e me r e' ok :
  post_acquire_read e me r = (e', ok) ->
  absT e' = absT e /\ e_bodies e' = e_bodies e /\
  (ok = true -> exists l l', nth_error (absO e) r = Some (Some (LkR l)) /\
                  absO e' = list_upd (absO e) r (fun _ => Some (LkR l')) /\
                  ~ iswrite l /\ ~ iswrite l' /\
                  forall t, In t (readers l') -> t = me \/ In t (readers l)) /\
  (ok = false -> e' = e).
Proof.
  unfold post_acquire_read. destruct (get_rw e r) as [s|] eqn:Hg.
  - apply get_rw_nth in Hg.
    assert (Hn : nth_error (absO e) r = Some (Some (LkR (rw_lock s)))) by (rewrite absO_nth, Hg; reflexivity).
    destruct (rw_lock s) as [[rs|w]|] eqn:Hl.
    + intros H; injection H as <- <-. apply acquired_abs. intros HO.
      exists (Some (RLRead rs)), (Some (RLRead (set_insert me rs))).
      split; [exact Hn|]. split; [exact HO|]. cbn [iswrite readers].
      split; [tauto|]. split; [tauto|].
      intros t. clear. induction rs as [|h tl IH]; cbn [set_insert In]; [intros [->|[]]; auto|].
      destruct (Nat.eqb h me); cbn [In]; tauto.
    + intros H; injection H as <- <-. repeat split; intros; congruence.
    + intros H; injection H as <- <-. apply acquired_abs. intros HO.
      exists None, (Some (RLRead [me])).
      split; [exact Hn|]. split; [exact HO|]. cbn [iswrite readers In]. intuition congruence.
  - intros H; injection H as <- <-. repeat split; intros; congruence.
Qed.

Lemma post_acquire_write_abs e me r e' ok :
  post_acquire_write e me r = (e', ok) ->
  absT e' = absT e /\ e_bodies e' = e_bodies e /\
  (ok = true -> nth_error (absO e) r = Some (Some (LkR None)) /\
                absO e' = list_upd (absO e) r (fun _ => Some (LkR (Some (RLWrite me))))) /\
  (ok = false -> e' = e).
Proof.
  unfold post_acquire_write. destruct (get_rw e r) as [s|] eqn:Hg.
  - apply get_rw_nth in Hg.
    assert (Hn : nth_error (absO e) r = Some (Some (LkR (rw_lock s)))) by (rewrite absO_nth, Hg; reflexivity).
    destruct (rw_lock s) as [lk|] eqn:Hl.
    + intros H; injection H as <- <-. repeat split; intros; congruence.
    + intros H; injection H as <- <-. apply acquired_abs. intros HO. split; [exact Hn|exact HO].
  - intros H; injection H as <- <-. repeat split; intros; congruence.
Qed.

Definition release_rw (k : gkind) : exec -> nat -> nat -> mres :=
  match k with GRead => release_read | _ => release_write end.

(* the last conjunct: what the release means for a thread that goes from gc to
   gc' by giving up its k-guard of r (rstep is defined in section 4) *)
Lemma release_rw_abs k e me r e' :
  k <> GMutex -> release_rw k e me r = MOk e' ->
  absT e' = absT e /\ e_bodies e' = e_bodies e /\
  exists l l', nth_error (absO e) r = Some (Some (LkR l)) /\
               absO e' = list_upd (absO e) r (fun _ => Some (LkR l')) /\
               forall gc gc',
                 (k = GRead -> (hasg GWrite r gc <-> hasg GWrite r gc')) ->
                 (k = GWrite -> hasg GWrite r gc /\ ~ hasg GWrite r gc') ->
                 rstep me r gc gc' l l'.
Proof.
  intros Hk. destruct k; [destruct (Hk eq_refl)| |]; cbn [release_rw].
  - unfold release_read. destruct (get_rw e r) as [s|] eqn:Hg; [|discriminate].
    apply get_rw_nth in Hg. cbv zeta.
    assert (Hn : nth_error (absO e) r = Some (Some (LkR (rw_lock s)))) by (rewrite absO_nth, Hg; reflexivity).
    destruct (rw_lock s) as [[rs|w]|] eqn:Hl; try discriminate.
    (* the 4th case of rstep: the readers left are old readers other than me *)
    assert (Hst : forall l' gc gc', ~ iswrite l' -> (forall t, In t (readers l') -> In t (set_remove me rs)) ->
              (hasg GWrite r gc <-> hasg GWrite r gc') -> rstep me r gc gc' (Some (RLRead rs)) l').
    { intros l' gc gc' Hw Hrs Hiff. right; right; right. split; [cbn; tauto|]. split; [exact Hw|].
      split; [exact Hiff|]. intros t Ht. right. apply Hrs in Ht. unfold set_remove in Ht.
      apply filter_In in Ht. destruct Ht as [Hin Hq]. apply negb_true_iff, Nat.eqb_neq in Hq. auto. }
    destruct (set_remove me rs) as [|h tl]; intros H; injection H as <-.
    + split; [rewrite absT_map_others by reflexivity; reflexivity|]. split; [reflexivity|].
      exists (Some (RLRead rs)), None. split; [exact Hn|]. split; [apply (absO_upd_const e r)|].
      intros gc gc' Hiff _. apply Hst; [cbn; tauto|intros t []|exact (Hiff eq_refl)].
    + split; [reflexivity|]. split; [reflexivity|].
      exists (Some (RLRead rs)), (Some (RLRead (h :: tl))). split; [exact Hn|].
      split; [apply (absO_upd_const e r)|].
      intros gc gc' Hiff _. apply Hst; [cbn; tauto|intros t Ht; exact Ht|exact (Hiff eq_refl)].
  - unfold release_write. destruct (get_rw e r) as [s|] eqn:Hg; [|discriminate].
    apply get_rw_nth in Hg. cbv zeta. intros H; injection H as <-.
    split; [rewrite absT_map_others by reflexivity; reflexivity|]. split; [reflexivity|].
    exists (rw_lock s), None. split; [rewrite absO_nth, Hg; reflexivity|].
    split; [apply (absO_upd_const e r)|].
    intros gc gc' _ Hw. destruct (Hw eq_refl) as [Hw1 Hw2]. right; right; left. auto.
Qed.

(* ================================================================== *)
(* 6. Neutral micro-operations: everything that does not touch a lock  *)
(* ================================================================== *)

Definition okO (O O' : list (option lockst)) : Prop :=
  forall i x, nth_error O' i = Some (Some x) -> nth_error O i = Some (Some x).

Definition fromb (B : list (list micro)) (gc : gst) : Prop :=
  fst gc = [] /\ (Forall clean B -> clean (snd gc)).

(* [e] is [e0] up to: [pre] pushed on the continuation of [me], the new
   threads [nw] (started on program bodies, without guards), and objects that
   are not locks *)
Definition nz (e0 : exec) (me : nat) (pre : list micro) (nw : list gst) (e : exec) : Prop :=
  absT e = list_upd (absT e0) me (pushc pre) ++ nw /\
  Forall (fromb (e_bodies e0)) nw /\
  okO (absO e0) (absO e) /\
  e_bodies e = e_bodies e0.

Definition fr (e e1 : exec) : Prop :=
  absT e1 = absT e /\ okO (absO e) (absO e1) /\ e_bodies e1 = e_bodies e.

Lemma okO_refl O : okO O O.
Proof. intros i x H. exact H. Qed.

Lemma okO_trans O1 O2 O3 : okO O1 O2 -> okO O2 O3 -> okO O1 O3.
Proof. intros H12 H23 i x H. apply H12, H23, H. Qed.

Lemma pushc_nil gc : pushc [] gc = gc.
Proof. destruct gc; reflexivity. Qed.

Lemma nz_refl e me : nz e me [] [] e.
Proof.
  split; [|split; [constructor|split; [apply okO_refl|reflexivity]]].
  rewrite app_nil_r. symmetry. apply list_upd_fix. intros x _. apply pushc_nil.
Qed.

Lemma nz_fr_k e0 me pre nw e e1 : fr e e1 -> nz e0 me pre nw e -> nz e0 me pre nw e1.
Proof.
  intros (HT & HO & HB) (H1 & H2 & H3 & H4). split; [congruence|]. split; [exact H2|].
  split; [eapply okO_trans; eassumption|congruence].
Qed.

(* what nz and fr read of a state; most helpers of Ops.v leave it alone *)
Definition proj3 (e : exec) := (absT e, absO e, e_bodies e).

Lemma nz_proj3_k e0 me pre nw e e1 : proj3 e1 = proj3 e -> nz e0 me pre nw e -> nz e0 me pre nw e1.
Proof.
  intros H. injection H as HT HO HB. apply nz_fr_k.
  split; [exact HT|]. split; [rewrite HO; apply okO_refl|exact HB].
Qed.

Lemma proj3_log_op e me r : proj3 (log_op e me r) = proj3 e.
Proof. unfold log_op. destruct (get_thread e me); reflexivity. Qed.

Lemma proj3_log_poll e me : proj3 (log_poll e me) = proj3 e.
Proof. unfold log_poll. destruct (get_thread e me); reflexivity. Qed.

Lemma excl_inv_proj3 e e' : proj3 e' = proj3 e -> excl_inv e -> excl_inv e'.
Proof. intros H. injection H as HT HO HB. unfold excl_inv. rewrite HT, HO, HB. exact (fun H => H). Qed.

Lemma proj3_upd_thread e i f : (forall t, tproj (f t) = tproj t) -> proj3 (upd_thread e i f) = proj3 e.
Proof. intros Hf. unfold proj3. rewrite (absT_upd_thread_id e i f Hf). reflexivity. Qed.

Lemma proj3_map_others e me p f :
  (forall t, tproj (f t) = tproj t) -> proj3 (map_others e me p f) = proj3 e.
Proof. intros Hf. unfold proj3. rewrite (absT_map_others e me p f Hf). reflexivity. Qed.

Lemma proj3_upd_object e i f : (forall o, oproj (f o) = oproj o) -> proj3 (upd_object e i f) = proj3 e.
Proof.
  intros Hf. unfold proj3, absO, upd_object. cbn [e_objects ex_set_objects].
  rewrite (map_list_upd_id oproj f _ i Hf). reflexivity.
Qed.

Lemma nz_push_cont_k e0 me pre e ms :
  nz e0 me pre [] e -> nz e0 me (ms ++ pre) [] (push_cont e me ms).
Proof.
  intros (H1 & H2 & H3 & H4). split; [|split; [exact H2|split; [exact H3|exact H4]]].
  rewrite absT_push_cont, H1, !app_nil_r, list_upd_twice. apply list_upd_ext.
  intros [g c]. unfold pushc. cbn [fst snd]. rewrite app_assoc. reflexivity.
Qed.

Lemma tproj_unparked t : tproj (set_unparked t) = tproj t.
Proof. unfold set_unparked. destruct (is_parked t); [reflexivity|]. destruct (is_terminated t); reflexivity. Qed.

Lemma proj3_threads_unpark e me id : proj3 (threads_unpark e me id) = proj3 e.
Proof.
  unfold threads_unpark. destruct (Nat.eqb id me); apply proj3_upd_thread.
  - apply tproj_unparked.
  - intros t. unfold thread_unpark. rewrite tproj_unparked. reflexivity.
Qed.

Lemma proj3_fold_unpark me l : forall e,
  proj3 (fold_left (fun e t => threads_unpark e me t) l e) = proj3 e.
Proof.
  induction l as [|h t IH]; intros e; cbn [fold_left]; [reflexivity|].
  rewrite IH. apply proj3_threads_unpark.
Qed.

Lemma okO_upd O i f :
  (forall x, f x = None \/ f x = x) -> okO O (list_upd O i f).
Proof.
  intros Hf j x H. destruct (Nat.eq_dec i j) as [<-|Hne].
  - rewrite nth_error_list_upd_same in H. destruct (nth_error O i) as [y|]; [|discriminate H].
    cbn in H. destruct (Hf y) as [Hy|Hy]; rewrite Hy in H; congruence.
  - rewrite nth_error_list_upd_other in H by exact Hne. exact H.
Qed.

Lemma nz_upd_object_k e0 me pre nw e i f :
  (forall o, oproj (f o) = None) ->
  nz e0 me pre nw e -> nz e0 me pre nw (upd_object e i f).
Proof.
  intros Hf. apply nz_fr_k. split; [reflexivity|]. split; [|reflexivity].
  unfold absO, upd_object. cbn [e_objects ex_set_objects].
  rewrite (map_list_upd _ _ oproj _ _ f (fun _ => None)) by exact Hf.
  apply okO_upd. intros x. left. reflexivity.
Qed.

Lemma nz_append_objects_k e0 me pre nw e l :
  Forall (fun o => oproj o = None) l ->
  nz e0 me pre nw e -> nz e0 me pre nw (ex_set_objects e (e_objects e ++ l)).
Proof.
  intros Hl. apply nz_fr_k. split; [reflexivity|]. split; [|reflexivity].
  intros j x H. unfold absO in *. cbn [e_objects ex_set_objects] in H. rewrite map_app in H.
  destruct (Nat.lt_ge_cases j (length (map oproj (e_objects e)))) as [Hlt|Hge].
  - rewrite nth_error_app1 in H by exact Hlt. exact H.
  - rewrite nth_error_app2 in H by exact Hge. apply nth_error_In in H.
    apply in_map_iff in H. destruct H as (o & Ho & Hin). rewrite Forall_forall in Hl.
    rewrite (Hl o Hin) in Ho. discriminate Ho.
Qed.

Lemma nz_append_thread_k e0 me pre nw e t :
  fromb (e_bodies e) (tproj t) ->
  nz e0 me pre nw e -> nz e0 me pre (nw ++ [tproj t]) (ex_set_threads e (e_threads e ++ [t])).
Proof.
  intros Hf (H1 & H2 & H3 & H4). split; [|split; [|split; [exact H3|exact H4]]].
  - unfold absT in *. cbn [e_threads ex_set_threads]. rewrite map_app, H1, <- app_assoc. reflexivity.
  - apply Forall_app. split; [exact H2|]. constructor; [|constructor]. rewrite <- H4. exact Hf.
Qed.

Lemma oproj_set_last_access o act tid pid v : oproj (set_last_access o act tid pid v) = oproj o.
Proof. destruct o; try reflexivity; destruct act; reflexivity. Qed.

Lemma proj3_schedule e : proj3 (res_exec (fst (schedule e))) = proj3 e.
Proof.
  destruct (schedule_shape e) as (Ht & Ho & _ & _ & _ & _ & _ & _ & Hb & _).
  unfold proj3, absT, absO. rewrite Hb. f_equal. f_equal.
  - apply (pointwise_map _ _ _ _ Ht). intros t t' (t1 & [->|[d ->]] & [->|[_ ->]]); reflexivity.
  - apply (pointwise_map _ _ _ _ Ho).
    intros o o' [->|(a & tid & pid & v & ->)]; [reflexivity|apply oproj_set_last_access].
Qed.

Lemma proj3_do_branch e me obj act blk : proj3 (res_exec (do_branch e me obj act blk)) = proj3 e.
Proof.
  unfold do_branch. rewrite proj3_schedule. apply proj3_upd_thread.
  intros t. destruct (block_now e obj blk); reflexivity.
Qed.

Lemma proj3_do_park e me : proj3 (res_exec (do_park e me)) = proj3 e.
Proof.
  unfold do_park. destruct (get_thread e me) as [t|]; [|reflexivity].
  destruct (t_token t); cbn [res_exec]; rewrite ?proj3_schedule; apply proj3_upd_thread; reflexivity.
Qed.

Lemma proj3_do_yield e me : proj3 (res_exec (do_yield e me)) = proj3 e.
Proof. unfold do_yield. rewrite proj3_schedule. apply proj3_upd_thread. reflexivity. Qed.

Lemma proj3_choose_store e seed : proj3 (fst (choose_store e seed)) = proj3 e.
Proof. unfold choose_store. destr_all; reflexivity. Qed.

Definition special (m : micro) : bool :=
  match m with
  | MLockPost _ _ | MUnlock _ | MReadPost _ _ | MWritePost _ _ | MUnread _ | MUnwrite _
  | MWait _ _ | MCvWait _ _ | MBoRegister _ _ _ _ _ | MWakerRelease _ | MWakeTake _ _
  | MReleaseAll => true
  | _ => false
  end.

Lemma special_dyn m : special m = false -> is_dyn m = false.
Proof. destruct m; try reflexivity; discriminate. Qed.

Definition nzres (e0 : exec) (me : nat) (m : micro) (e : exec) : Prop :=
  exists pre nw, nz e0 me pre nw e /\ clean pre /\ (is_skip m = true -> pre = []).

Lemma nth_clean (B : list (list micro)) b : Forall clean B -> clean (nth b B []).
Proof.
  intros H. rewrite Forall_forall in H.
  destruct (nth_in_or_default b B []) as [Hin|Hd]; [apply H, Hin|rewrite Hd; reflexivity].
Qed.

Lemma subst_waker_clean n k c : forall u, clean c -> clean (subst_waker n k u c).
Proof.
  induction c as [|y t IH]; intros u H; [reflexivity|].
  apply clean_cons in H. destruct H as [Hy Ht].
  destruct y; cbn [subst_waker]; try (apply clean_cons; split; [exact Hy|apply IH, Ht]).
  - destruct u; apply clean_cons; (split; [reflexivity|apply IH, Ht]).
  - destruct u; apply clean_cons; (split; [reflexivity|apply IH, Ht]).
Qed.

Lemma fromb_new e b c d :
  fromb (e_bodies e) (tproj (th_set_dpor (th_set_caus (thread_new b (nth b (e_bodies e) [])) c) d)).
Proof. split; [reflexivity|]. apply nth_clean. Qed.

Lemma fromb_new_w e b n k c d :
  fromb (e_bodies e)
    (tproj (th_set_dpor (th_set_caus (thread_new b (subst_waker n k false (nth b (e_bodies e) []))) c) d)).
Proof. split; [reflexivity|]. intros H. apply subst_waker_clean, nth_clean, H. Qed.

(* the equations [proj3 (F e ..) = proj3 e]; [simple apply] compares the head
   symbols only *)
Ltac proj3_eq :=
  first [simple apply proj3_upd_thread; intros ?; reflexivity
        | simple apply proj3_log_op | simple apply proj3_log_poll
        | simple apply proj3_map_others; intros ?; reflexivity
        | simple apply proj3_schedule | simple apply proj3_do_branch | simple apply proj3_do_park
        | simple apply proj3_do_yield | simple apply proj3_threads_unpark | simple apply proj3_fold_unpark].

Ltac zclose_step :=
  match goal with
  | |- nz ?e _ _ _ ?e => apply nz_refl
  | H : proj3 ?x = proj3 _ |- nz _ _ _ _ ?x => apply (nz_proj3_k _ _ _ _ _ _ H)
  | |- nz _ _ _ _ (push_cont _ _ _) => eapply nz_push_cont_k
  | |- nz _ _ _ _ (causality_inc _ _) => unfold causality_inc
  | |- nz _ _ _ _ (set_caus _ _ _) => unfold set_caus
  | |- nz _ _ _ _ (ex_set_objects ?e (e_objects ?e ++ _)) =>
      apply nz_append_objects_k; [repeat constructor|]
  | |- nz _ _ _ _ (ex_set_threads ?e (e_threads ?e ++ [_])) =>
      eapply nz_append_thread_k;
      [lazymatch goal with
       | |- context [subst_waker] => apply fromb_new_w
       | |- _ => apply fromb_new
       end|]
  | |- nz _ _ _ _ (upd_object _ _ _) => apply nz_upd_object_k; [intros ?; reflexivity|]
  | |- nz _ _ _ _ _ => eapply nz_proj3_k; [proj3_eq|]
  | |- nz _ _ _ _ ?x =>
      (* the setters of the fields that proj3 does not read *)
      let E := under_setter x in apply (nz_proj3_k _ _ _ _ E); [reflexivity|]
  | |- nz _ _ _ _ ?x =>
      let E := under_h_setter x in apply (nz_proj3_k _ _ _ _ E); [reflexivity|]
  end.

Ltac zclose :=
  cbn [res_exec]; unfold nzres; eexists; eexists; split;
  [repeat zclose_step
  |split; [reflexivity|first [intros _; reflexivity|let H := fresh in intros H; discriminate H]]].

Ltac zstep :=
  match goal with
  | |- context [choose_store ?e ?s] =>
      let H := fresh "Hfr" in
      pose proof (proj3_choose_store e s) as H;
      destruct (choose_store e s) as [? [?|?]]; cbn [fst] in H
  | |- context [match ?x with _ => _ end] =>
      lazymatch x with
      | context [match _ with _ => _ end] => fail
      | _ => destruct x
      end
  end; cbv beta iota.

Ltac nz_tac :=
  cbn [exec_micro]; unfold lift_path, mbind, load_post; cbv beta iota;
  repeat zstep; zclose.

Lemma exec_micro_nz e me m :
  special m = false -> nzres e me m (res_exec (exec_micro e me m)).
Proof.
  intros Hs. destruct m; try discriminate Hs; clear Hs.
  all: nz_tac.
Qed.

(* ================================================================== *)
(* 7. One step of Scheduler::run preserves the invariant               *)
(* ================================================================== *)

Lemma thr_ok_clean g c :
  clean c -> (forall i, gcount GMutex i g <= 1) -> (forall i, gcount GWrite i g <= 1) -> thr_ok (g, c).
Proof.
  intros Hc H1 H2. destruct (clean_phase c Hc) as (Hw & _ & Hi & Hn).
  unfold thr_ok. cbn [fst snd]. repeat split; auto.
  - intros m H. destruct (Hn m H).
  - intros m H. destruct (Hi m H).
Qed.

Lemma HO_upd (O : list (option lockst)) j F me gc gc' :
  (forall i x, i <> j -> nth_error O i = Some (Some x) -> ostep me i gc gc' x x) ->
  (forall x x', nth_error O j = Some x -> F x = Some x' ->
     exists x0, x = Some x0 /\ ostep me j gc gc' x0 x') ->
  forall i x', nth_error (list_upd O j F) i = Some (Some x') ->
    exists x, nth_error O i = Some (Some x) /\ ostep me i gc gc' x x'.
Proof.
  intros Hfr Hj i x' H. destruct (Nat.eq_dec j i) as [<-|Hne].
  - rewrite nth_error_list_upd_same in H. destruct (nth_error O j) as [x|] eqn:Hx; [|discriminate H].
    cbn in H. injection H as H. destruct (Hj x x' eq_refl H) as (x0 & -> & Hs). eauto.
  - rewrite nth_error_list_upd_other in H by exact Hne. exists x'. split; [exact H|].
    apply Hfr; [congruence|exact H].
Qed.

Lemma ostep_same me i gc gc' y :
  (act gc i <-> act gc' i) -> (forall k, k <> GMutex -> (hasg k i gc <-> hasg k i gc')) ->
  ostep me i gc gc' y y.
Proof.
  intros Ha Hg. destruct y as [l|l]; cbn [ostep]; left; (split; [reflexivity|]); [exact Ha|].
  split; apply Hg; discriminate.
Qed.

(* the second premise of HO_upd when the object at j is set to y' *)
Lemma ostep_set (O : list (option lockst)) j y y' me gc gc' :
  nth_error O j = Some (Some y) -> ostep me j gc gc' y y' ->
  forall x x', nth_error O j = Some x -> Some y' = Some x' ->
    exists x0, x = Some x0 /\ ostep me j gc gc' x0 x'.
Proof.
  intros Hn Hs x x' Hx Hx'. rewrite Hn in Hx. injection Hx as <-. injection Hx' as <-. eauto.
Qed.

Lemma remove_last_guard_facts g k0 m g' :
  remove_last_guard g k0 m = Some g' ->
  (forall k i, In (k, i) g' -> In (k, i) g) /\
  (forall k i, (k, i) <> (k0, m) -> In (k, i) g -> In (k, i) g') /\
  (forall k i, gcount k i g' <= gcount k i g) /\
  gcount k0 m g = S (gcount k0 m g').
Proof.
  intros H. pose proof (remove_last_guard_spec g k0 m) as Hs. rewrite H in Hs.
  destruct Hs as (g1 & g2 & -> & ->). repeat split.
  - intros k i Hin. apply in_app_iff in Hin. apply in_app_iff. cbn [In]. tauto.
  - intros k i Hne Hin. apply in_app_iff in Hin. apply in_app_iff. cbn [In] in Hin.
    destruct Hin as [Hin|[Hin|Hin]]; [tauto|congruence|tauto].
  - intros k i. rewrite gcount_mid. lia.
  - rewrite gcount_mid, gcount_single. destruct (gk_dec (k0, m) (k0, m)); [lia|congruence].
Qed.

Lemma In_remove_last_guard g k m : In (k, m) g -> exists g', remove_last_guard g k m = Some g'.
Proof.
  intros Hin. pose proof (remove_last_guard_spec g k m) as Hs.
  destruct (remove_last_guard g k m) as [g'|]; [eauto|]. destruct (Hs Hin).
Qed.

Lemma any_guard_false e k r :
  any_guard e k r = false ->
  forall t gt, nth_error (absT e) t = Some gt -> ~ In (k, r) (fst gt).
Proof.
  intros H t gt Ht Hin. rewrite absT_nth in Ht.
  destruct (nth_error (e_threads e) t) as [th|] eqn:Hth; [|discriminate Ht]. injection Ht as <-.
  unfold any_guard in H.
  assert (Hex : existsb (fun t0 => existsb (fun g0 => gkind_eqb (fst g0) k && Nat.eqb (snd g0) r) (t_guards t0))
                        (e_threads e) = true).
  { apply existsb_exists. exists th. split; [eapply nth_error_In, Hth|].
    apply existsb_exists. exists (k, r). split; [exact Hin|]. cbn [fst snd].
    apply andb_true_iff. split; [apply gkind_eqb_eq; reflexivity|apply Nat.eqb_refl]. }
  congruence.
Qed.

Lemma excl_inv_thr e t gc : excl_inv e -> nth_error (absT e) t = Some gc -> thr_ok gc.
Proof. intros [[HT _] _]. apply HT. Qed.

Lemma excl_inv_obj e i y : excl_inv e -> nth_error (absO e) i = Some (Some y) -> obj_ok (absT e) i y.
Proof. intros [(_ & HO & _) _]. apply HO. Qed.

Section Step.
  Variables (e : exec) (me : nat) (g : list (gkind * nat)) (x : micro) (rest : list micro).
  Variables (e1 : exec) (t1 : thread).
  Hypothesis Hinv : excl_inv e.
  Hypothesis Hme : nth_error (absT e) me = Some (g, x :: rest).
  Hypothesis HT1 : absT e1 = list_upd (absT e) me (fun _ => (g, rest)).
  Hypothesis HO1 : absO e1 = absO e.
  Hypothesis HB1 : e_bodies e1 = e_bodies e.
  Hypothesis Ht1 : get_thread e1 me = Some t1.
  Hypothesis Hg1 : t_guards t1 = g.

  Let c := x :: rest.

  Lemma Hthr : thr_ok (g, c).
  Proof. exact (excl_inv_thr e me _ Hinv Hme). Qed.

  Lemma Hme1 : nth_error (absT e1) me = Some (g, rest).
  Proof. rewrite HT1, nth_error_list_upd_same, Hme. reflexivity. Qed.

  Lemma guards_T1 t gt :
    nth_error (absT e) t = Some gt ->
    exists gt1, nth_error (absT e1) t = Some gt1 /\ fst gt1 = fst gt.
  Proof.
    intros H. rewrite HT1. destruct (Nat.eq_dec me t) as [<-|Hne].
    - rewrite nth_error_list_upd_same, Hme. rewrite Hme in H. injection H as <-.
      eexists. split; reflexivity.
    - rewrite nth_error_list_upd_other by exact Hne. eauto.
  Qed.

  Lemma Hholds k m : holds_guard e1 me k m = true <-> In (k, m) g.
  Proof. rewrite <- Hg1. apply holds_guard_In, Ht1. Qed.

  Lemma Hmtx m l : nth_error (absO e) m = Some (Some (LkM l)) -> mtx_ok (absT e) m l.
  Proof. exact (excl_inv_obj e m (LkM l) Hinv). Qed.

  Lemma Hrw r l : nth_error (absO e) r = Some (Some (LkR l)) -> rw_ok (absT e) r l.
  Proof. exact (excl_inv_obj e r (LkR l) Hinv). Qed.

  Lemma Hcnt : (forall i, gcount GMutex i g <= 1) /\ (forall i, gcount GWrite i g <= 1).
  Proof. destruct Hthr as (_ & _ & _ & H1 & H2). split; assumption. Qed.

  (* the general finishing lemma *)
  Lemma finish gc' nw e' :
    absT e' = list_upd (absT e1) me (fun _ => gc') ++ nw ->
    e_bodies e' = e_bodies e1 ->
    thr_ok gc' -> Forall fresh nw ->
    newg_ok (absT e) (g, c) gc' ->
    (forall i x', nth_error (absO e') i = Some (Some x') ->
       exists x0, nth_error (absO e) i = Some (Some x0) /\ ostep me i (g, c) gc' x0 x') ->
    excl_inv e'.
  Proof.
    intros HT' HB' Hok Hnw Hng HO'. destruct Hinv as [HI HBd]. split; [|rewrite HB', HB1; exact HBd].
    rewrite HT', HT1, list_upd_twice. eapply INV_step; eassumption.
  Qed.

  (* a step that leaves the locks alone *)
  Lemma step_nz pre nw e' :
    is_dyn x = false -> nz e1 me pre nw e' -> clean pre -> (is_skip x = true -> pre = []) ->
    excl_inv e'.
  Proof.
    intros Hd (HT' & Hnw & HO' & HB') Hpre Hsk.
    assert (Hc' : wfc (pre ++ rest) /\
                  (forall m, released (pre ++ rest) m <-> released c m) /\
                  (forall m, inwaker (pre ++ rest) m <-> inwaker c m) /\
                  (forall m, needg (pre ++ rest) m -> needg c m)).
    { destruct Hthr as (Hw & _). cbn [snd] in Hw.
      destruct (is_skip x) eqn:Hs.
      - rewrite (Hsk eq_refl). cbn [app]. unfold c, wfc, released, inwaker, needg in *.
        rewrite (skipc_skip _ _ Hs) in *. repeat split; auto.
      - pose proof (wfc_head_clean _ _ Hs Hd Hw) as Hr.
        pose proof (plain_head x rest Hs Hd) as Hp.
        destruct (clean_phase _ (clean_app _ _ Hpre Hr)) as (H1 & H2 & H3 & H4).
        split; [exact H1|]. split; [|split].
        + intros m. destruct (Hp m) as (Hq & _). split; [intros H; destruct (H2 m H)|intros H; destruct (Hq H)].
        + intros m. destruct (Hp m) as (_ & Hq & _). split; [intros H; destruct (H3 m H)|intros H; destruct (Hq H)].
        + intros m H. destruct (H4 m H). }
    destruct Hc' as (Hw' & Hrel & Hiw & Hng).
    apply (finish (g, pre ++ rest) nw).
    - rewrite HT'. f_equal. apply list_upd_const with (x := (g, rest)). exact Hme1.
    - exact HB'.
    - destruct Hthr as (_ & H2 & H3 & H4 & H5). unfold thr_ok, hasg in *. cbn [fst snd] in *.
      split; [exact Hw'|]. split; [|split; [|split; assumption]].
      + intros m H. apply H2, Hng, H.
      + intros m H. apply H3, Hiw, H.
    - rewrite Forall_forall in *. intros gc Hgc. destruct (Hnw gc Hgc) as [Hf Hs].
      split; [exact Hf|]. apply Hs. rewrite HB1. destruct Hinv as [_ HBd]. exact HBd.
    - apply newg_ok_sub. intros k r _ H. exact H.
    - intros i x' Hi. exists x'. rewrite HO1 in HO'. split; [apply HO', Hi|].
      assert (Ha : act (g, c) i <-> act (g, pre ++ rest) i).
      { unfold act, hasg. cbn [fst snd]. rewrite (Hrel i), (Hiw i). tauto. }
      apply ostep_same; [exact Ha|reflexivity].
  Qed.

  Lemma step_mutex m gc' F e' :
    absT e' = list_upd (absT e1) me (fun _ => gc') -> e_bodies e' = e_bodies e1 ->
    absO e' = list_upd (absO e1) m F ->
    thr_ok gc' ->
    (forall k i, k <> GMutex -> (In (k, i) g <-> In (k, i) (fst gc'))) ->
    (forall i, i <> m -> (act (g, c) i <-> act gc' i)) ->
    (forall x0 x', nth_error (absO e) m = Some x0 -> F x0 = Some x' ->
       exists y, x0 = Some y /\ ostep me m (g, c) gc' y x') ->
    excl_inv e'.
  Proof.
    intros HT' HB' HO' Hok Hg Ha Hm. apply (finish gc' []); auto.
    - rewrite app_nil_r. exact HT'.
    - apply newg_ok_sub. intros k r Hk H. apply (Hg k r Hk), H.
    - rewrite HO', HO1. apply HO_upd; [|exact Hm].
      intros i y Hne _. apply ostep_same; [apply Ha, Hne|intros k Hk; apply (Hg k i Hk)].
  Qed.

  Lemma step_rw r gc' F e' :
    absT e' = list_upd (absT e1) me (fun _ => gc') -> e_bodies e' = e_bodies e1 ->
    absO e' = list_upd (absO e1) r F ->
    thr_ok gc' -> newg_ok (absT e) (g, c) gc' ->
    (forall i, act (g, c) i <-> act gc' i) ->
    (forall k i, i <> r -> (In (k, i) g <-> In (k, i) (fst gc'))) ->
    (forall x0 x', nth_error (absO e) r = Some x0 -> F x0 = Some x' ->
       exists y, x0 = Some y /\ ostep me r (g, c) gc' y x') ->
    excl_inv e'.
  Proof.
    intros HT' HB' HO' Hok Hng Ha Hg Hm. apply (finish gc' []); auto.
    - rewrite app_nil_r. exact HT'.
    - rewrite HO', HO1. apply HO_upd; [|exact Hm].
      intros i y Hne _. apply ostep_same; [apply Ha|intros k _; apply (Hg k i Hne)].
  Qed.

  Lemma demote_ostep m gc' :
    act (g, c) m -> ~ act gc' m ->
    (forall k, k <> GMutex -> (In (k, m) g <-> In (k, m) (fst gc'))) ->
    forall x0 x', demote x0 = Some x' -> exists y, x0 = Some y /\ ostep me m (g, c) gc' y x'.
  Proof.
    intros Ha Hna Hg x0 x' H. destruct x0 as [[l|l]|]; cbn [demote] in H; [| |discriminate H];
      injection H as <-; eexists; (split; [reflexivity|]); cbn [ostep].
    - right; right. auto.
    - left. split; [reflexivity|]. unfold hasg. cbn [fst].
      pose proof (Hg GWrite) as H1. pose proof (Hg GRead) as H2.
      split; [apply H1; discriminate|apply H2; discriminate].
  Qed.

  (* dropping the guard (k0, m) when the continuation stays ordinary *)
  Lemma drop_facts k0 m c' :
    plain c -> clean c' -> In (k0, m) g ->
    exists g', remove_last_guard g k0 m = Some g' /\
      thr_ok (g', c') /\
      (forall k i, In (k, i) g' -> In (k, i) g) /\
      (forall k i, (k, i) <> (k0, m) -> (In (k, i) g <-> In (k, i) g')) /\
      (forall i, (GMutex, i) <> (k0, m) -> (act (g, c) i <-> act (g', c') i)) /\
      (gcount k0 m g <= 1 -> ~ In (k0, m) g').
  Proof.
    intros Hp Hc' Hin. destruct (In_remove_last_guard _ _ _ Hin) as (g' & Hr).
    destruct (remove_last_guard_facts _ _ _ _ Hr) as (F1 & F2 & F3 & F4).
    destruct Hcnt as [C1 C2].
    assert (Hio : forall k i, (k, i) <> (k0, m) -> (In (k, i) g <-> In (k, i) g')).
    { intros k i Hne. split; [apply F2, Hne|apply F1]. }
    exists g'. split; [exact Hr|]. split; [|split; [exact F1|split; [exact Hio|split]]].
    - apply thr_ok_clean; [exact Hc'| |]; intros i.
      + eapply Nat.le_trans; [apply F3|apply C1].
      + eapply Nat.le_trans; [apply F3|apply C2].
    - intros i Hne. rewrite (act_plain g c i Hp), (act_plain g' c' i (clean_plain _ Hc')). apply Hio, Hne.
    - intros Hle. apply gcount_zero. lia.
  Qed.

  (* ---- MUnlock / the mutex case of MReleaseAll ---- *)
  Lemma step_unlock_gen m c' e' :
    plain c -> clean c' -> In (GMutex, m) g ->
    absT e' = list_upd (absT e1) me (fun _ => (fst (delg GMutex m (g, rest)), c')) ->
    e_bodies e' = e_bodies e1 -> absO e' = list_upd (absO e1) m demote ->
    excl_inv e'.
  Proof.
    intros Hp Hc' Hin HT' HB' HO'.
    destruct (drop_facts GMutex m c' Hp Hc' Hin) as (g' & Hr & D1 & _ & D2 & D3 & D4).
    destruct Hcnt as [C1 _].
    apply (step_mutex m (g', c') demote); auto.
    - rewrite HT'. unfold delg. cbn [fst snd]. rewrite Hr. reflexivity.
    - intros k i Hk. cbn [fst]. apply D2. congruence.
    - intros i Hne. apply D3. congruence.
    - intros x0 x' _. apply demote_ostep.
      + apply (act_plain g c m Hp), Hin.
      + rewrite (act_plain g' c' m (clean_plain _ Hc')). apply D4, C1.
      + intros k Hk. cbn [fst]. apply D2. congruence.
  Qed.

  Lemma Hwfc : wfc c.
  Proof. destruct Hthr as (Hw & _). exact Hw. Qed.

  Lemma ordinary y : x = y -> is_skip y = false -> is_dyn y = false ->
    is_skip x = false /\ is_dyn x = false /\ plain c /\ clean rest.
  Proof.
    intros <- Hs Hd. split; [exact Hs|]. split; [exact Hd|].
    split; [exact (plain_head x rest Hs Hd)|exact (wfc_head_clean x rest Hs Hd Hwfc)].
  Qed.

  Lemma absT_e1_const : absT e1 = list_upd (absT e1) me (fun _ => (g, rest)).
  Proof. symmetry. apply list_upd_fix. intros y Hy. rewrite Hme1 in Hy. congruence. Qed.

  Lemma step_frame gc' e' :
    absT e' = list_upd (absT e1) me (fun _ => gc') -> e_bodies e' = e_bodies e1 ->
    absO e' = absO e1 -> thr_ok gc' ->
    (forall i, act (g, c) i <-> act gc' i) ->
    (forall k i, In (k, i) g <-> In (k, i) (fst gc')) ->
    excl_inv e'.
  Proof.
    intros HT' HB' HO' Hok Ha Hg. apply (finish gc' []); auto.
    - rewrite app_nil_r. exact HT'.
    - apply newg_ok_sub. intros k r _ H. apply (Hg k r), H.
    - rewrite HO', HO1. intros i y Hi. exists y. split; [exact Hi|].
      apply ostep_same; [apply Ha|intros k _; apply Hg].
  Qed.

  Lemma step_same e' : is_dyn x = false -> proj3 e' = proj3 e1 -> excl_inv e'.
  Proof.
    intros Hd Hp3. apply (step_nz [] []); [exact Hd| |reflexivity|reflexivity].
    apply (nz_proj3_k _ _ _ _ e1), nz_refl. exact Hp3.
  Qed.

  Lemma step_pop_log r e' :
    is_dyn x = false -> e' = log_op e1 me r -> excl_inv e'.
  Proof. intros Hd ->. apply (step_same _ Hd), proj3_log_op. Qed.

  Lemma step_push ms e2 :
    is_skip x = false -> is_dyn x = false -> clean ms -> proj3 e2 = proj3 e1 ->
    excl_inv (push_cont e2 me ms).
  Proof.
    intros Hs Hd Hms Hp3. apply (step_nz (ms ++ []) []); [exact Hd| |rewrite app_nil_r; exact Hms|].
    - apply nz_push_cont_k, (nz_proj3_k _ _ _ _ e1), nz_refl. exact Hp3.
    - intros Hk. rewrite Hs in Hk. discriminate Hk.
  Qed.

  (* ---- MUnlock ---- *)
  Lemma step_MUnlock m e' : x = MUnlock m -> exec_micro e1 me x = MOk e' -> excl_inv e'.
  Proof.
    intros Hx H. destruct (ordinary _ Hx eq_refl eq_refl) as (Hs & Hd & Hp & Hcr).
    rewrite Hx in H. cbn [exec_micro] in H.
    destruct (holds_guard e1 me GMutex m) eqn:Hh; injection H as H.
    - apply Hholds in Hh.
      destruct (release_lock_abs (drop_guard e1 me GMutex m) me m) as (R1 & R2 & R3).
      rewrite <- H. apply (excl_inv_proj3 _ _ (proj3_log_op _ _ _)).
      apply (step_unlock_gen m rest); auto.
      rewrite R1, absT_drop_guard. rewrite (list_upd_const _ _ _ _ Hme1). reflexivity.
    - eapply step_pop_log; eauto.
  Qed.

  Lemma push_facts k r :
    plain c -> clean rest -> (k <> GRead -> ~ In (k, r) g) ->
    thr_ok (g ++ [(k, r)], rest) /\
    (forall i, (GMutex, i) <> (k, r) -> (act (g, c) i <-> act (g ++ [(k, r)], rest) i)) /\
    (forall k' i, (k', i) <> (k, r) -> (In (k', i) g <-> In (k', i) (g ++ [(k, r)]))).
  Proof.
    intros Hp Hcr Hw. destruct Hcnt as [C1 C2].
    assert (Hio : forall k' i, (k', i) <> (k, r) -> (In (k', i) g <-> In (k', i) (g ++ [(k, r)]))).
    { intros k' i Hne. rewrite in_app_iff. cbn [In]. intuition congruence. }
    assert (Hc : forall k', k' <> GRead -> (forall i, gcount k' i g <= 1) ->
                   forall i, gcount k' i (g ++ [(k, r)]) <= 1).
    { intros k' Hk' C i. rewrite gcount_app, gcount_single.
      destruct (gk_dec (k, r) (k', i)) as [Heq|Hne]; [|pose proof (C i); lia].
      injection Heq as -> ->. apply gcount_zero in Hw; [lia|exact Hk']. }
    split; [|split; [|exact Hio]].
    - apply thr_ok_clean; [exact Hcr| |]; apply Hc; try discriminate; assumption.
    - intros i Hne. rewrite (act_plain g c i Hp), (act_plain _ rest i (clean_plain _ Hcr)).
      apply Hio, Hne.
  Qed.

  (* ---- MLockPost ---- *)
  Lemma step_lock_ok m e2 r :
    post_acquire e1 me m = (e2, true) -> plain c -> clean rest ->
    excl_inv (log_op (push_guard e2 me GMutex m) me r).
  Proof.
    intros Hpa Hp Hcr. apply (excl_inv_proj3 _ _ (proj3_log_op _ _ _)).
    destruct (post_acquire_abs _ _ _ _ _ Hpa) as (P1 & P2 & P3 & _).
    destruct (P3 eq_refl) as [Hn PO]. rewrite HO1 in Hn.
    destruct (Hmtx m None Hn) as [_ HB].
    assert (Hnin : ~ In (GMutex, m) g).
    { intros Hin. apply (act_plain g c m Hp) in Hin. discriminate (HB me _ Hme Hin). }
    destruct (push_facts GMutex m Hp Hcr (fun _ => Hnin)) as (F1 & F2 & F3).
    apply (step_mutex m (g ++ [(GMutex, m)], rest) (fun _ => Some (LkM (Some me)))); auto.
    - rewrite absT_push_guard, P1. rewrite (list_upd_const _ _ _ _ Hme1). reflexivity.
    - intros k i Hk. cbn [fst]. apply F3. congruence.
    - intros i Hne. apply F2. congruence.
    - apply (ostep_set _ _ _ _ _ _ _ Hn). right; left. split; [reflexivity|]. split; [reflexivity|].
      apply (act_plain _ rest m (clean_plain _ Hcr)). apply in_app_iff. right. left. reflexivity.
  Qed.

  Lemma step_MLockPost m mode e' : x = MLockPost m mode -> exec_micro e1 me x = MOk e' -> excl_inv e'.
  Proof.
    intros Hx H. rewrite Hx in H. cbn [exec_micro] in H.
    destruct (post_acquire e1 me m) as [e2 ok] eqn:Hpa.
    destruct (post_acquire_abs _ _ _ _ _ Hpa) as (P1 & P2 & P3 & P4).
    destruct ok.
    - destruct (P3 eq_refl) as [Pn PO]. rewrite HO1 in Pn.
      destruct mode; injection H as H.
      1, 2: rewrite <- H; destruct (ordinary _ Hx eq_refl eq_refl) as (_ & _ & Hp & Hcr);
        exact (step_lock_ok m e2 _ Hpa Hp Hcr).
      + pose proof Hwfc as Hw. destruct Hthr as (_ & Hng & _ & C1 & C2). cbn [fst snd] in *.
        unfold c, wfc in Hw. rewrite Hx in Hw. cbn [skipc is_skip wfc_hd] in Hw.
        assert (Hin : In (GMutex, m) g).
        { apply Hng. unfold c, needg. rewrite Hx. cbn [skipc is_skip needg_hd]. reflexivity. }
        destruct (clean_phase rest Hw) as (_ & Hnr & Hni & _).
        rewrite <- H. apply (excl_inv_proj3 _ _ (proj3_log_op _ _ _)).
        apply (step_mutex m (g, rest) (fun _ => Some (LkM (Some me)))); auto.
        * rewrite P1. apply absT_e1_const.
        * apply thr_ok_clean; assumption.
        * reflexivity.
        * intros i Hne. unfold act, hasg, c. cbn [fst snd]. unfold released at 1, inwaker at 1.
          rewrite Hx. cbn [skipc is_skip released_hd inwaker_hd].
          pose proof (Hnr i). pose proof (Hni i). intuition congruence.
        * apply (ostep_set _ _ _ _ _ _ _ Pn). right; left. split; [reflexivity|]. split; [reflexivity|].
          left. split; [exact Hin|apply Hnr].
    - rewrite (P4 eq_refl) in *. destruct mode; try discriminate H. injection H as H.
      eapply step_pop_log; [rewrite Hx; reflexivity|symmetry; exact H].
  Qed.

  Lemma step_rw_push k r e2 l l' res :
    k <> GMutex -> plain c -> clean rest ->
    absT e2 = absT e1 -> e_bodies e2 = e_bodies e1 ->
    any_guard e2 GWrite r = false -> (k = GWrite -> any_guard e2 GRead r = false) ->
    nth_error (absO e) r = Some (Some (LkR l)) ->
    absO e2 = list_upd (absO e1) r (fun _ => Some (LkR l')) ->
    rstep me r (g, c) (g ++ [(k, r)], rest) l l' ->
    excl_inv (log_op (push_guard e2 me k r) me res).
  Proof.
    intros Hk Hp Hcr P1 P2 Hagw Hagr Pn PO Hst. apply (excl_inv_proj3 _ _ (proj3_log_op _ _ _)).
    assert (Hno : forall k' t gt, k' = GWrite \/ (k' = GRead /\ k = GWrite) ->
                    nth_error (absT e) t = Some gt -> ~ In (k', r) (fst gt)).
    { intros k' t gt Hk' Ht. destruct (guards_T1 t gt Ht) as (gt1 & Ht1' & <-). rewrite <- P1 in Ht1'.
      destruct Hk' as [->|[-> Hw]].
      - exact (any_guard_false _ _ _ Hagw t gt1 Ht1').
      - exact (any_guard_false _ _ _ (Hagr Hw) t gt1 Ht1'). }
    destruct (push_facts k r Hp Hcr) as (F1 & F2 & F3).
    { intros Hr. destruct k; [destruct (Hk eq_refl)|destruct (Hr eq_refl)|].
      exact (Hno GWrite me _ (or_introl eq_refl) Hme). }
    apply (step_rw r (g ++ [(k, r)], rest) (fun _ => Some (LkR l'))); auto.
    - rewrite absT_push_guard, P1. rewrite (list_upd_const _ _ _ _ Hme1). reflexivity.
    - intros k0 i Hk0 Hin. cbn [fst] in *. apply in_app_iff in Hin.
      destruct Hin as [Hin|[Heq|[]]]; [left; exact Hin|].
      injection Heq as <- <-. right. split.
      + intros t gt Ht. split; [|intros Hw]; apply (Hno _ t gt); auto.
      + intros k' Hk' Hin'. apply in_app_iff in Hin'. destruct Hin' as [Hin'|[Heq|[]]]; [|congruence].
        destruct k'; [destruct (Hk' eq_refl)| |destruct (Hno GWrite me _ (or_introl eq_refl) Hme Hin')].
        destruct k; [destruct (Hk eq_refl)|reflexivity|].
        destruct (Hno GRead me _ (or_intror (conj eq_refl eq_refl)) Hme Hin').
    - intros i. apply F2. congruence.
    - intros k0 i Hne. cbn [fst]. apply F3. congruence.
    - exact (ostep_set _ _ (LkR l) (LkR l') _ _ _ Pn Hst).
  Qed.

  (* ---- MReadPost ---- *)
  Lemma step_MReadPost r try e' : x = MReadPost r try -> exec_micro e1 me x = MOk e' -> excl_inv e'.
  Proof.
    intros Hx H. destruct (ordinary _ Hx eq_refl eq_refl) as (Hs & Hd & Hp & Hcr).
    rewrite Hx in H. cbn [exec_micro] in H.
    destruct (post_acquire_read e1 me r) as [e2 ok] eqn:Hpa.
    destruct (post_acquire_read_abs _ _ _ _ _ Hpa) as (P1 & P2 & P3 & P4).
    destruct ok; cbn [andb] in H.
    - destruct (any_guard e2 GWrite r) eqn:Hag; [discriminate H|].
      destruct (P3 eq_refl) as (l & l' & Pn & PO & Pw & Pw' & Prs). rewrite HO1 in Pn.
      assert (H' : e' = log_op (push_guard e2 me GRead r) me (if try then RBool true else RUnit)).
      { destruct try; injection H as <-; reflexivity. }
      rewrite H'. apply (step_rw_push GRead r e2 l l'); auto; try discriminate.
      right; right; right. split; [exact Pw|]. split; [exact Pw'|]. unfold hasg. cbn [fst].
      split; [rewrite in_app_iff; cbn [In]; intuition congruence|].
      intros t Ht. destruct (Nat.eq_dec t me) as [->|Hne].
      + left. split; [reflexivity|]. apply in_app_iff. right. left. reflexivity.
      + right. split; [exact Hne|]. destruct (Prs t Ht); [contradiction|assumption].
    - rewrite (P4 eq_refl) in *. destruct try; try discriminate H. injection H as H.
      eapply step_pop_log; eauto.
  Qed.

  (* ---- MWritePost ---- *)
  Lemma step_MWritePost r try e' : x = MWritePost r try -> exec_micro e1 me x = MOk e' -> excl_inv e'.
  Proof.
    intros Hx H. destruct (ordinary _ Hx eq_refl eq_refl) as (Hs & Hd & Hp & Hcr).
    rewrite Hx in H. cbn [exec_micro] in H.
    destruct (post_acquire_write e1 me r) as [e2 ok] eqn:Hpa.
    destruct (post_acquire_write_abs _ _ _ _ _ Hpa) as (P1 & P2 & P3 & P4).
    destruct ok; cbn [andb] in H.
    - destruct (any_guard e2 GRead r) eqn:Hagr; [discriminate H|].
      destruct (any_guard e2 GWrite r) eqn:Hagw; [discriminate H|]. cbn [orb] in H.
      destruct (P3 eq_refl) as (Pn & PO). rewrite HO1 in Pn.
      assert (H' : e' = log_op (push_guard e2 me GWrite r) me (if try then RBool true else RUnit)).
      { destruct try; injection H as <-; reflexivity. }
      rewrite H'. apply (step_rw_push GWrite r e2 None (Some (RLWrite me))); auto;
        try discriminate.
      right; left. split; [reflexivity|]. split; [reflexivity|]. unfold hasg. cbn [fst].
      apply in_app_iff. right. left. reflexivity.
    - rewrite (P4 eq_refl) in *. destruct try; try discriminate H. injection H as H.
      eapply step_pop_log; eauto.
  Qed.

  (* ---- MUnread, MUnwrite / the read and write cases of MReleaseAll ---- *)
  Lemma step_unrw_gen k r c' e2 e' :
    k <> GMutex -> plain c -> clean c' -> In (k, r) g ->
    release_rw k (drop_guard e1 me k r) me r = MOk e2 ->
    absT e' = list_upd (absT e2) me (fun _ => (fst (delg k r (g, rest)), c')) ->
    e_bodies e' = e_bodies e2 -> absO e' = absO e2 ->
    excl_inv e'.
  Proof.
    intros Hk Hp Hc' Hin Hrr HT' HB' HO'.
    destruct (release_rw_abs _ _ _ _ _ Hk Hrr) as (R1 & R2 & l & l' & Rn & RO & Rst).
    change (absO (drop_guard e1 me k r)) with (absO e1) in *. rewrite HO1 in Rn.
    destruct (drop_facts k r c' Hp Hc' Hin) as (g' & Hr & D1 & D0 & D2 & D3 & D4).
    destruct Hcnt as [_ C2].
    apply (step_rw r (g', c') (fun _ => Some (LkR l'))); auto.
    - rewrite HT', R1, absT_drop_guard, list_upd_twice. unfold delg. cbn [fst snd]. rewrite Hr. reflexivity.
    - rewrite HB', R2. reflexivity.
    - rewrite HO'. exact RO.
    - apply newg_ok_sub. intros k0 i _. cbn [fst]. apply D0.
    - intros i. apply D3. congruence.
    - intros k0 i Hne. cbn [fst]. apply D2. congruence.
    - apply (ostep_set _ _ _ _ _ _ _ Rn), Rst; unfold hasg; cbn [fst]; intros ->.
      + apply D2. discriminate.
      + split; [exact Hin|apply D4, C2].
  Qed.

  Lemma step_unrw k r e' :
    k <> GMutex -> is_dyn x = false -> plain c -> clean rest ->
    (if holds_guard e1 me k r
     then mbind (release_rw k (drop_guard e1 me k r) me r) (fun e => MOk (log_op e me RUnit))
     else MOk (log_op e1 me RX)) = MOk e' ->
    excl_inv e'.
  Proof.
    intros Hk Hd Hp Hcr H. destruct (holds_guard e1 me k r) eqn:Hh.
    - apply Hholds in Hh. unfold mbind in H.
      destruct (release_rw k (drop_guard e1 me k r) me r) as [e2|e2 pn] eqn:Hrr; [|discriminate H].
      injection H as <-. apply (excl_inv_proj3 _ _ (proj3_log_op _ _ _)).
      apply (step_unrw_gen k r rest e2); auto. destruct (release_rw_abs _ _ _ _ _ Hk Hrr) as (R1 & _).
      rewrite R1, absT_drop_guard, list_upd_twice. rewrite (list_upd_const _ _ _ _ Hme1). reflexivity.
    - injection H as H. eapply step_pop_log; eauto.
  Qed.

  Lemma step_MUnread r e' : x = MUnread r -> exec_micro e1 me x = MOk e' -> excl_inv e'.
  Proof.
    intros Hx H. destruct (ordinary _ Hx eq_refl eq_refl) as (_ & Hd & Hp & Hcr). rewrite Hx in H.
    apply (step_unrw GRead r e'); [discriminate|exact Hd|exact Hp|exact Hcr|exact H].
  Qed.

  Lemma step_MUnwrite r e' : x = MUnwrite r -> exec_micro e1 me x = MOk e' -> excl_inv e'.
  Proof.
    intros Hx H. destruct (ordinary _ Hx eq_refl eq_refl) as (_ & Hd & Hp & Hcr). rewrite Hx in H.
    apply (step_unrw GWrite r e'); [discriminate|exact Hd|exact Hp|exact Hcr|exact H].
  Qed.

  (* ---- MWait: the Condvar::wait sequence is pushed ---- *)
  Lemma step_MWait cv m e' : x = MWait cv m -> exec_micro e1 me x = MOk e' -> excl_inv e'.
  Proof.
    intros Hx H. destruct (ordinary _ Hx eq_refl eq_refl) as (Hs & Hd & Hp & Hcr).
    rewrite Hx in H. cbn [exec_micro] in H.
    destruct (holds_guard e1 me GMutex m) eqn:Hh; injection H as H.
    - apply Hholds in Hh.
      destruct Hcnt as [C1 C2]. subst e'.
      match goal with |- excl_inv (push_cont _ _ ?ms) => set (ws := ms) end.
      apply (step_frame (g, ws ++ rest)).
      + rewrite absT_push_cont. rewrite (list_upd_const _ _ _ _ Hme1). reflexivity.
      + reflexivity.
      + reflexivity.
      + unfold thr_ok, hasg, wfc, needg, inwaker. cbn [fst snd ws app skipc is_skip wfc_hd needg_hd inwaker_hd].
        split; [eexists; split; [reflexivity|exact Hcr]|].
        split; [intros i <-; exact Hh|]. split; [intros i []|]. split; assumption.
      + intros i. rewrite (act_plain g c i Hp). unfold act, hasg, released, inwaker.
        cbn [fst snd ws app skipc is_skip released_hd inwaker_hd]. tauto.
      + reflexivity.
    - eapply step_pop_log; eauto.
  Qed.

  (* ---- MCvWait: the waiter gives the mutex up and keeps its guard ---- *)
  Lemma step_MCvWait cv m e' : x = MCvWait cv m -> exec_micro e1 me x = MOk e' -> excl_inv e'.
  Proof.
    intros Hx H. rewrite Hx in H. cbn [exec_micro] in H.
    destruct (nth_error (e_objects e1) cv) as [[]|] eqn:Hcv; try discriminate H. injection H as H.
    pose proof Hwfc as Hw. destruct Hthr as (_ & Hng & _ & C1 & C2). cbn [fst snd] in *.
    unfold c, wfc in Hw. rewrite Hx in Hw. cbn [skipc is_skip wfc_hd] in Hw.
    destruct Hw as (r' & Hrest & Hcr').
    assert (Hin : In (GMutex, m) g).
    { apply Hng. unfold c, needg. rewrite Hx. cbn [skipc is_skip needg_hd]. reflexivity. }
    match type of H with release_lock ?E _ _ = _ => set (e1' := E) in * end.
    destruct (release_lock_abs e1' me m) as (R1 & R2 & R3).
    assert (HO1' : absO e1' = absO e1).
    { unfold e1'. eapply absO_upd_same; [exact Hcv|reflexivity]. }
    assert (Hph : wfc rest /\ (forall i, released rest i <-> m = i) /\ (forall i, ~ inwaker rest i) /\
                  (forall i, needg rest i <-> m = i)).
    { rewrite Hrest. unfold wfc, released, inwaker, needg.
      cbn [skipc is_skip wfc_hd released_hd inwaker_hd needg_hd]. repeat split; auto. }
    destruct Hph as (W1 & W2 & W3 & W4).
    apply (step_mutex m (g, rest) demote).
    - rewrite <- H, R1. apply absT_e1_const.
    - rewrite <- H, R2. reflexivity.
    - rewrite <- H, R3, HO1'. reflexivity.
    - unfold thr_ok, hasg. cbn [fst snd]. split; [exact W1|].
      split; [intros i Hi; apply W4 in Hi; subst i; exact Hin|].
      split; [intros i Hi; destruct (W3 i Hi)|]. split; assumption.
    - reflexivity.
    - intros i Hne. unfold act, hasg, c. cbn [fst snd]. unfold released at 1, inwaker at 1.
      rewrite Hx. cbn [skipc is_skip released_hd inwaker_hd].
      pose proof (W2 i). pose proof (W3 i). intuition congruence.
    - intros x0 x' _. apply demote_ostep.
      + left. split; [exact Hin|]. unfold c, released. rewrite Hx. cbn. tauto.
      + intros [[_ Hn]|Hi]; [apply Hn, W2; reflexivity|exact (W3 m Hi)].
      + reflexivity.
  Qed.

  (* ---- MWakerRelease ---- *)
  Lemma step_MWakerRelease w e' : x = MWakerRelease w -> exec_micro e1 me x = MOk e' -> excl_inv e'.
  Proof.
    intros Hx H. rewrite Hx in H. cbn [exec_micro] in H. injection H as H.
    pose proof Hwfc as Hw. destruct Hthr as (_ & _ & Hnw & C1 & C2). cbn [fst snd] in *.
    unfold c, wfc in Hw. rewrite Hx in Hw. cbn [skipc is_skip wfc_hd] in Hw.
    assert (Hiw : inwaker c w) by (unfold c, inwaker; rewrite Hx; cbn; reflexivity).
    pose proof (Hnw w Hiw) as Hnin. unfold hasg in Hnin. cbn [fst] in Hnin.
    destruct (clean_phase rest Hw) as (_ & Hnr & Hni & _).
    destruct (release_lock_abs e1 me w) as (R1 & R2 & R3).
    apply (step_mutex w (g, rest) demote).
    - rewrite <- H, R1. apply absT_e1_const.
    - rewrite <- H, R2. reflexivity.
    - rewrite <- H, R3. reflexivity.
    - apply thr_ok_clean; assumption.
    - reflexivity.
    - intros i Hne. unfold act, hasg, c. cbn [fst snd]. unfold released at 1, inwaker at 1.
      rewrite Hx. cbn [skipc is_skip released_hd inwaker_hd].
      pose proof (Hnr i). pose proof (Hni i). intuition congruence.
    - intros x0 x' _. apply demote_ostep.
      + right. exact Hiw.
      + rewrite (act_plain g rest w (clean_plain _ Hw)). exact Hnin.
      + reflexivity.
  Qed.

  (* ---- MBoRegister: AtomicWaker::register takes the waker lock ---- *)
  Lemma step_waker_acq w sk tl e2 e' :
    plain c -> clean rest ->
    nth_error (absO e) w = Some (Some (LkM None)) ->
    forallb is_skip sk = true -> clean tl ->
    absT e2 = absT e1 -> e_bodies e2 = e_bodies e1 ->
    absO e2 = list_upd (absO e1) w (fun _ => Some (LkM (Some me))) ->
    e' = push_cont e2 me (sk ++ MWakerRelease w :: tl) -> excl_inv e'.
  Proof.
    intros Hp Hcr Hn Hsk Htl HT2 HB2 HO2 ->. set (ms := sk ++ MWakerRelease w :: tl).
    assert (Hsc : skipc (ms ++ rest) = MWakerRelease w :: tl ++ rest).
    { unfold ms. rewrite <- app_assoc, (skipc_app _ _ Hsk). reflexivity. }
    assert (W1 : wfc (ms ++ rest)) by (unfold wfc; rewrite Hsc; exact (clean_app _ _ Htl Hcr)).
    assert (W2 : forall i, inwaker (ms ++ rest) i <-> w = i).
    { intros i. unfold inwaker. rewrite Hsc. reflexivity. }
    assert (W3 : forall i, ~ released (ms ++ rest) i) by (intros i; unfold released; rewrite Hsc; intros []).
    assert (W4 : forall i, ~ needg (ms ++ rest) i) by (intros i; unfold needg; rewrite Hsc; intros []).
    destruct (Hmtx w None Hn) as [_ HB]. destruct Hcnt as [C1 C2].
    assert (Hnin : ~ In (GMutex, w) g).
    { intros Hin. apply (act_plain g c w Hp) in Hin. discriminate (HB me _ Hme Hin). }
    apply (step_mutex w (g, ms ++ rest) (fun _ => Some (LkM (Some me)))).
    - rewrite absT_push_cont, HT2. rewrite (list_upd_const _ _ _ _ Hme1). reflexivity.
    - exact HB2.
    - exact HO2.
    - unfold thr_ok, hasg. cbn [fst snd]. split; [exact W1|].
      split; [intros i Hi; destruct (W4 i Hi)|].
      split; [intros i Hi; apply W2 in Hi; subst i; exact Hnin|]. split; assumption.
    - reflexivity.
    - intros i Hne. rewrite (act_plain g c i Hp). unfold act, hasg. cbn [fst snd].
      pose proof (W2 i). pose proof (W3 i). intuition congruence.
    - apply (ostep_set _ _ _ _ _ _ _ Hn). right; left. split; [reflexivity|]. split; [reflexivity|].
      right. apply W2. reflexivity.
  Qed.

  Lemma step_MBoRegister a v w n k e' :
    x = MBoRegister a v w n k -> exec_micro e1 me x = MOk e' -> excl_inv e'.
  Proof.
    intros Hx H. destruct (ordinary _ Hx eq_refl eq_refl) as (Hs & Hd & Hp & Hcr).
    rewrite Hx in H. cbn [exec_micro] in H.
    destruct (post_acquire e1 me w) as [e2 ok] eqn:Hpa.
    destruct (post_acquire_abs _ _ _ _ _ Hpa) as (P1 & P2 & P3 & P4).
    destruct ok.
    - destruct (P3 eq_refl) as [Pn PO]. rewrite HO1 in Pn.
      destruct (ho_waker (get_h e2 w)) as [[n' k']|]; injection H as H; symmetry in H.
      + refine (step_waker_acq w [MBranch k' ARefDec BNever; MArcDecRaw k'] _ _ _ Hp Hcr Pn eq_refl _ _ _ _ H);
          [reflexivity|exact P1|exact P2|exact PO].
      + refine (step_waker_acq w [] _ _ _ Hp Hcr Pn eq_refl _ _ _ _ H);
          [reflexivity|exact P1|exact P2|exact PO].
    - rewrite (P4 eq_refl) in *. injection H as <-.
      apply step_push; [exact Hs|exact Hd|reflexivity|reflexivity].
  Qed.

  (* ---- MWakeTake: the waker lock is taken and released in one micro-op ---- *)
  Lemma step_MWakeTake w wake e' : x = MWakeTake w wake -> exec_micro e1 me x = MOk e' -> excl_inv e'.
  Proof.
    intros Hx H. destruct (ordinary _ Hx eq_refl eq_refl) as (Hs & Hd & Hp & Hcr).
    rewrite Hx in H. cbn [exec_micro] in H.
    destruct (post_acquire e1 me w) as [e2 ok] eqn:Hpa.
    destruct (post_acquire_abs _ _ _ _ _ Hpa) as (P1 & P2 & P3 & P4).
    destruct ok; cbn [negb] in H; [|discriminate H].
    destruct (P3 eq_refl) as [Pn PO].
    match type of H with context [release_lock ?E me w] => set (e3 := E) in * end.
    destruct (release_lock_abs e3 me w) as (R1 & R2 & R3).
    (* taken and released: the lock word of w is what it was *)
    assert (Hp3 : proj3 (release_lock e3 me w) = proj3 e1).
    { unfold proj3. f_equal; [f_equal|]; [rewrite R1; exact P1| |rewrite R2; exact P2].
      rewrite R3. change (absO e3) with (absO e2). rewrite PO, list_upd_twice.
      apply list_upd_fix. intros y Hy. rewrite Pn in Hy. injection Hy as <-. reflexivity. }
    destruct (ho_waker (get_h e2 w)) as [[n k]|]; [destruct wake|]; injection H as <-.
    1, 2: apply step_push; [exact Hs|exact Hd|reflexivity|exact Hp3].
    apply (step_same _ Hd). rewrite proj3_log_op. exact Hp3.
  Qed.

  (* ---- MReleaseAll: the guards still held at the end of the thread ---- *)
  Lemma step_MReleaseAll e' : x = MReleaseAll -> exec_micro e1 me x = MOk e' -> excl_inv e'.
  Proof.
    intros Hx H. destruct (ordinary _ Hx eq_refl eq_refl) as (Hs & Hd & Hp & Hcr).
    assert (Hc' : clean (MReleaseAll :: rest)) by (apply clean_cons; split; [reflexivity|exact Hcr]).
    rewrite Hx in H. cbn [exec_micro] in H. rewrite Ht1, Hg1 in H.
    destruct (rev g) as [|[k m] tl] eqn:Hrev.
    - injection H as <-. apply (step_same _ Hd). reflexivity.
    - assert (Hin : In (k, m) g) by (apply in_rev; rewrite Hrev; left; reflexivity).
      assert (Hrw : k <> GMutex ->
                mbind (release_rw k (drop_guard e1 me k m) me m) (fun e => MOk (push_cont e me [MReleaseAll])) = MOk e' ->
                excl_inv e').
      { intros Hk H'. unfold mbind in H'.
        destruct (release_rw k (drop_guard e1 me k m) me m) as [e2|e2 pn] eqn:Hrr; [|discriminate H'].
        injection H' as <-. apply (step_unrw_gen k m (MReleaseAll :: rest) e2); auto.
        rewrite absT_push_cont. destruct (release_rw_abs _ _ _ _ _ Hk Hrr) as (R1 & _).
        rewrite R1, absT_drop_guard, !list_upd_twice. rewrite (list_upd_const _ _ _ _ Hme1). reflexivity. }
      destruct k; [|apply Hrw; [discriminate|exact H]..].
      injection H as H.
      destruct (release_lock_abs (drop_guard e1 me GMutex m) me m) as (R1 & R2 & R3).
      apply (step_unlock_gen m (MReleaseAll :: rest)); auto.
      + rewrite <- H, absT_push_cont, R1, absT_drop_guard, list_upd_twice.
        rewrite (list_upd_const _ _ _ _ Hme1). reflexivity.
      + rewrite <- H. exact R2.
      + rewrite <- H. exact R3.
  Qed.

  (* ---- all micro-operations ---- *)
  Theorem step_excl_inv e' : exec_micro e1 me x = MOk e' -> excl_inv e'.
  Proof.
    intros H. destruct (special x) eqn:Hsp.
    - pose (y := x). assert (Hx : x = y) by reflexivity. clearbody y.
      rewrite Hx in Hsp. destruct y; try discriminate Hsp.
      + eapply step_MLockPost; eauto.
      + eapply step_MUnlock; eauto.
      + eapply step_MReadPost; eauto.
      + eapply step_MWritePost; eauto.
      + eapply step_MUnread; eauto.
      + eapply step_MUnwrite; eauto.
      + eapply step_MWait; eauto.
      + eapply step_MCvWait; eauto.
      + eapply step_MBoRegister; eauto.
      + eapply step_MWakerRelease; eauto.
      + eapply step_MWakeTake; eauto.
      + eapply step_MReleaseAll; eauto.
    - pose proof (exec_micro_nz e1 me x Hsp) as (pre & nw & Hnz & Hpre & Hsk).
      rewrite H in Hnz. cbn [res_exec] in Hnz.
      apply (step_nz pre nw); auto using special_dyn.
  Qed.
End Step.

(* ================================================================== *)
(* 8. The initial state, executions, Scheduler::run                    *)
(* ================================================================== *)

Lemma expand_clean b pc i : clean (expand b pc i).
Proof.
  destruct i; try reflexivity.
  (* ILazyGet k: [MLazyGetY k] for the yielding static, [MLazyGet k] otherwise; no lock micro-op *)
  cbn [expand]. match goal with |- context [Nat.eqb ?k 2] => destruct (Nat.eqb k 2) end; reflexivity.
Qed.

Lemma expand_body_clean b l : forall pc, clean (expand_body_from b pc l).
Proof.
  induction l as [|i t IH]; intros pc; cbn [expand_body_from]; [reflexivity|].
  apply clean_cons. split; [reflexivity|]. apply clean_app; [apply expand_clean|apply IH].
Qed.

Lemma expand_prog_clean_from bs : forall k,
  Forall clean (mapi_from k (fun b l => expand_body_from b 0 l ++ exit_seq b) bs).
Proof.
  induction bs as [|l t IH]; intros k; cbn [mapi_from].
  - constructor.
  - constructor; [|apply IH]. apply clean_app; [apply expand_body_clean|].
    destruct k; reflexivity.
Qed.

Lemma expand_prog_clean p : Forall clean (expand_prog p).
Proof. apply expand_prog_clean_from. Qed.

Definition unlocked (o : object) : Prop :=
  oproj o = None \/ oproj o = Some (LkM None) \/ oproj o = Some (LkR None).

Lemma create_objects_unlocked ds c r : forall os,
  create_objects ds c r = inl os -> Forall unlocked os.
Proof.
  induction ds as [|d t IH]; intros os H; cbn [create_objects] in H.
  - injection H as <-. constructor.
  - destruct (create_object d c r) as [o|pn] eqn:Ho; [|discriminate H].
    destruct (create_objects t c r) as [os'|pn]; [|discriminate H].
    injection H as <-. constructor; [|apply IH; reflexivity].
    unfold unlocked. destruct d; cbn [create_object] in Ho;
      try (injection Ho as <-; cbn; tauto).
Qed.

Theorem init_excl_inv p pa : excl_inv (init_exec p pa).
Proof.
  split; [|apply expand_prog_clean].
  pose proof (nth_clean _ 0 (expand_prog_clean p)) as Hc.
  assert (Hf : forall t gc, nth_error (absT (init_exec p pa)) t = Some gc -> fresh gc).
  { intros t gc H. unfold absT, init_exec in H. cbn [e_threads map] in H.
    destruct t as [|t]; [|destruct t; discriminate H]. injection H as <-. split; [reflexivity|exact Hc]. }
  split; [|split].
  - intros t gc H. apply (fresh_ok gc (Hf t gc H)).
  - intros i y Hi. rewrite absO_nth in Hi. unfold init_exec in Hi. cbn [e_objects] in Hi.
    assert (Hu : Forall unlocked (match create_objects (p_decls p) vv_new vv_new with inl os => os | inr _ => [] end)).
    { destruct (create_objects (p_decls p) vv_new vv_new) eqn:Hco; [|constructor].
      eapply create_objects_unlocked, Hco. }
    destruct (nth_error _ i) as [o|] eqn:Ho; [|discriminate Hi]. cbn in Hi.
    rewrite Forall_forall in Hu. pose proof (Hu o (nth_error_In _ _ Ho)) as [H0|[H0|H0]];
      rewrite H0 in Hi; try discriminate Hi; injection Hi as <-; cbn [obj_ok].
    + split; [intros t Ht; discriminate Ht|].
      intros t gc Hg Ha. destruct (fresh_ok gc (Hf t gc Hg)) as (_ & _ & Hn). destruct (Hn i Ha).
    + split; [intros t Ht; discriminate Ht|]. split; [|intros rs t Ht; discriminate Ht].
      intros t gc Hg Hh. destruct (fresh_ok gc (Hf t gc Hg)) as (_ & Hn & _). destruct (Hn _ _ Hh).
  - intros a b ga gb r k Ha _ Hia. destruct (fresh_ok ga (Hf a ga Ha)) as (_ & Hn & _).
    destruct (Hn _ _ Hia).
Qed.

(* one step of Scheduler::run: the active thread's next micro-operation *)
Theorem run_step_excl_inv e me t m rest e' :
  excl_inv e ->
  nth_error (e_threads e) me = Some t -> t_cont t = m :: rest ->
  exec_micro (upd_thread e me (fun t => th_set_cont t rest)) me m = MOk e' ->
  excl_inv e'.
Proof.
  intros Hinv Ht Hc Hx.
  apply (step_excl_inv e me (t_guards t) m rest (upd_thread e me (fun t => th_set_cont t rest))
           (th_set_cont t rest)); auto.
  - rewrite absT_nth, Ht. unfold tproj. cbn [option_map]. rewrite Hc. reflexivity.
  - rewrite (absT_upd_thread e me _ (fun gc => (fst gc, rest))) by reflexivity.
    apply list_upd_const with (x := (t_guards t, m :: rest)).
    rewrite absT_nth, Ht. unfold tproj. cbn [option_map]. rewrite Hc. reflexivity.
  - rewrite get_thread_upd_thread_same. unfold get_thread. rewrite Ht. reflexivity.
Qed.

Theorem steps_excl_inv e e' : steps e e' -> excl_inv e -> excl_inv e'.
Proof.
  apply steps_invariant. intros e0 me t m rest e1 Hinv _. apply run_step_excl_inv, Hinv.
Qed.

(* Execution::schedule itself (every scheduling point goes through it) *)
Theorem schedule_excl_inv e : excl_inv e -> excl_inv (res_exec (fst (schedule e))).
Proof.
  apply excl_inv_proj3, proj3_schedule.
Qed.

Definition not_panic (r : iter_end) : Prop := r = IterDone \/ r = IterFuel.

Theorem run_excl_inv_from fuel e : excl_inv e -> not_panic (snd (run fuel e)) -> excl_inv (fst (run fuel e)).
Proof.
  intros Hinv Hr. destruct (run fuel e) as [e' r] eqn:Hrun. cbn [fst snd] in *.
  eapply steps_excl_inv; [eapply run_steps; eassumption|exact Hinv].
Qed.

Theorem run_excl_inv fuel p pa :
  not_panic (snd (run fuel (init_exec p pa))) -> excl_inv (fst (run fuel (init_exec p pa))).
Proof. apply run_excl_inv_from, init_excl_inv. Qed.

(* ================================================================== *)
(* 9. The invariant in terms of the state, and the corollaries         *)
(* ================================================================== *)

Lemma released_dec c m : {released c m} + {~ released c m}.
Proof.
  unfold released. destruct (skipc c) as [|y r]; [right; intros []|].
  destruct y; try (right; intros H; exact H). destruct mode; try (right; intros H; exact H).
  cbn [released_hd]. apply Nat.eq_dec.
Qed.

(* [released c m]: up to scheduling points and park, the next micro-operation
   of the continuation is the pending re-acquisition of m by Condvar::wait *)
Lemma released_spec c m :
  released c m <->
  exists pre r, c = pre ++ MLockPost m LMReacquire :: r /\ forallb is_skip pre = true.
Proof.
  unfold released. induction c as [|y t IH]; cbn [skipc].
  - split; [intros []|]. intros (pre & r & H & _). destruct pre; discriminate H.
  - destruct (is_skip y) eqn:Hs.
    + rewrite IH. split.
      * intros (pre & r & -> & Hp). exists (y :: pre), r. split; [reflexivity|]. cbn. rewrite Hs. exact Hp.
      * intros (pre & r & H & Hp). destruct pre as [|z pre].
        -- injection H as -> _. discriminate Hs.
        -- injection H as _ ->. exists pre, r. split; [reflexivity|]. cbn in Hp.
           apply andb_true_iff in Hp. tauto.
    + split.
      * intros H. exists [], t. split; [|reflexivity].
        destruct y; try destruct H. destruct mode; try destruct H. reflexivity.
      * intros (pre & r & H & Hp). destruct pre as [|z pre].
        -- injection H as -> _. reflexivity.
        -- injection H as <- _. cbn in Hp. rewrite Hs in Hp. discriminate Hp.
Qed.

Lemma get_thread_absT e t th : get_thread e t = Some th -> nth_error (absT e) t = Some (t_guards th, t_cont th).
Proof. intros H. unfold get_thread in H. rewrite absT_nth, H. reflexivity. Qed.

Lemma mutex_inv e m s : excl_inv e -> get_mutex e m = Some s -> mtx_ok (absT e) m (mx_lock s).
Proof.
  intros Hinv Hg. apply (excl_inv_obj e m (LkM (mx_lock s)) Hinv).
  apply get_mutex_nth in Hg. rewrite absO_nth, Hg. reflexivity.
Qed.

Lemma rw_inv e r s : excl_inv e -> get_rw e r = Some s -> rw_ok (absT e) r (rw_lock s).
Proof.
  intros Hinv Hg. apply (excl_inv_obj e r (LkR (rw_lock s)) Hinv).
  apply get_rw_nth in Hg. rewrite absO_nth, Hg. reflexivity.
Qed.

Lemma thread_inv e t th : excl_inv e -> get_thread e t = Some th -> thr_ok (t_guards th, t_cont th).
Proof. intros Hinv Hth. exact (excl_inv_thr e t _ Hinv (get_thread_absT _ _ _ Hth)). Qed.

Lemma absT_owner e t (P : gst -> Prop) :
  (exists gc, nth_error (absT e) t = Some gc /\ P gc) -> exists th, get_thread e t = Some th /\ P (tproj th).
Proof.
  intros (gc & H & HP). rewrite absT_nth in H. unfold get_thread.
  destruct (nth_error (e_threads e) t) as [th|]; [|discriminate H]. injection H as <-. eauto.
Qed.

(* a thread is inside mutex m: it owns a guard of m and is not waiting on a
   Condvar with it, or it is in the critical section of AtomicWaker::register *)
Definition inside (th : thread) (m : nat) : Prop :=
  (In (GMutex, m) (t_guards th) /\ ~ released (t_cont th) m) \/ inwaker (t_cont th) m.

(* ---- the mutex part of the invariant ---- *)
Theorem mutex_lock_owner e m s t :
  excl_inv e -> get_mutex e m = Some s -> mx_lock s = Some t ->
  exists th, get_thread e t = Some th /\ inside th m.
Proof.
  intros Hinv Hg Hl. apply (absT_owner e t (fun gc => act gc m)).
  exact (proj1 (mutex_inv e m s Hinv Hg) t Hl).
Qed.

Theorem mutex_inside_owner e m s t th :
  excl_inv e -> get_mutex e m = Some s -> get_thread e t = Some th -> inside th m ->
  mx_lock s = Some t.
Proof.
  intros Hinv Hg Hth Hin. exact (proj2 (mutex_inv e m s Hinv Hg) t _ (get_thread_absT _ _ _ Hth) Hin).
Qed.

Theorem mutex_guard_once e t th m :
  excl_inv e -> get_thread e t = Some th -> gcount GMutex m (t_guards th) <= 1.
Proof.
  intros Hinv Hth. destruct (thread_inv e t th Hinv Hth) as (_ & _ & _ & H & _). apply H.
Qed.

Theorem wait_keeps_guard e t th m :
  excl_inv e -> get_thread e t = Some th -> released (t_cont th) m -> In (GMutex, m) (t_guards th).
Proof.
  intros Hinv Hth Hr. destruct (thread_inv e t th Hinv Hth) as (_ & H & _).
  apply (H m). unfold needg, released in *. cbn [snd].
  destruct (skipc (t_cont th)) as [|y r]; [destruct Hr|]. destruct y; try destruct Hr.
  destruct mode; try destruct Hr. reflexivity.
Qed.

(* MUTUAL EXCLUSION, as a state invariant *)
Theorem mutex_exclusion_inv e m s a b ta tb :
  excl_inv e -> get_mutex e m = Some s -> a <> b ->
  get_thread e a = Some ta -> get_thread e b = Some tb ->
  In (GMutex, m) (t_guards ta) -> In (GMutex, m) (t_guards tb) ->
  released (t_cont ta) m \/ released (t_cont tb) m.
Proof.
  intros Hinv Hg Hne Ha Hb Hia Hib.
  destruct (released_dec (t_cont ta) m) as [Hra|Hra]; [left; exact Hra|].
  destruct (released_dec (t_cont tb) m) as [Hrb|Hrb]; [right; exact Hrb|].
  exfalso. apply Hne.
  pose proof (mutex_inside_owner e m s a ta Hinv Hg Ha (or_introl (conj Hia Hra))) as H1.
  pose proof (mutex_inside_owner e m s b tb Hinv Hg Hb (or_introl (conj Hib Hrb))) as H2.
  congruence.
Qed.

(* at most one thread is inside a mutex *)
Theorem mutex_inside_unique e m s a b ta tb :
  excl_inv e -> get_mutex e m = Some s ->
  get_thread e a = Some ta -> get_thread e b = Some tb ->
  inside ta m -> inside tb m -> a = b.
Proof.
  intros Hinv Hg Ha Hb Hia Hib.
  pose proof (mutex_inside_owner e m s a ta Hinv Hg Ha Hia) as H1.
  pose proof (mutex_inside_owner e m s b tb Hinv Hg Hb Hib) as H2. congruence.
Qed.

(* ... in every reachable state of every program under every schedule (path) *)
Theorem mutex_exclusion fuel p pa e r m s a b ta tb :
  run fuel (init_exec p pa) = (e, r) -> not_panic r ->
  get_mutex e m = Some s -> a <> b ->
  get_thread e a = Some ta -> get_thread e b = Some tb ->
  In (GMutex, m) (t_guards ta) -> In (GMutex, m) (t_guards tb) ->
  released (t_cont ta) m \/ released (t_cont tb) m.
Proof.
  intros Hrun Hr. pose proof (run_excl_inv fuel p pa) as Hinv. rewrite Hrun in Hinv.
  apply mutex_exclusion_inv. exact (Hinv Hr).
Qed.

(* ---- MLockPost pushes a guard only when the mutex is free ---- *)
Theorem lock_acquire_only_when_free e me m mode e' th th' :
  exec_micro e me (MLockPost m mode) = MOk e' ->
  get_thread e me = Some th -> get_thread e' me = Some th' ->
  t_guards th' <> t_guards th ->
  exists s, get_mutex e m = Some s /\ mx_lock s = None.
Proof.
  intros H Hth Hth' Hne. cbn [exec_micro] in H.
  destruct (post_acquire e me m) as [e2 ok] eqn:Hpa. destruct ok.
  - unfold post_acquire in Hpa. destruct (get_mutex e m) as [s|]; [|discriminate Hpa].
    exists s. split; [reflexivity|]. destruct (mx_lock s); [discriminate Hpa|reflexivity].
  - exfalso. apply post_acquire_fail_id in Hpa. subst e2.
    destruct mode; try discriminate H. injection H as <-.
    apply Hne. unfold get_thread in *. rewrite e_threads_log_op in Hth'. congruence.
Qed.

(* together with the invariant: while another thread is inside m, the only
   MLockPost that does not panic is a failing try_lock, which changes nothing *)
Theorem lock_no_second_owner e me m mode e' s b tb :
  excl_inv e -> get_mutex e m = Some s -> get_thread e b = Some tb -> inside tb m -> b <> me ->
  exec_micro e me (MLockPost m mode) = MOk e' ->
  mode = LMTry /\ e' = log_op e me (RBool false).
Proof.
  intros Hinv Hg Hb Hin Hne H.
  pose proof (mutex_inside_owner e m s b tb Hinv Hg Hb Hin) as Hl.
  cbn [exec_micro] in H.
  assert (Hpa : post_acquire e me m = (e, false)).
  { unfold post_acquire. rewrite Hg, Hl. reflexivity. }
  rewrite Hpa in H. destruct mode; try discriminate H. injection H as <-. auto.
Qed.

(* ---- the rwlock part of the invariant ---- *)
Theorem rwlock_write_owner e r s t :
  excl_inv e -> get_rw e r = Some s -> rw_lock s = Some (RLWrite t) ->
  exists th, get_thread e t = Some th /\ In (GWrite, r) (t_guards th).
Proof.
  intros Hinv Hg Hl. apply (absT_owner e t (hasg GWrite r)).
  exact (proj1 (rw_inv e r s Hinv Hg) t Hl).
Qed.

Theorem rwlock_reader_has_guard e r s rs t :
  excl_inv e -> get_rw e r = Some s -> rw_lock s = Some (RLRead rs) -> In t rs ->
  exists th, get_thread e t = Some th /\ In (GRead, r) (t_guards th).
Proof.
  intros Hinv Hg Hl Hin. apply (absT_owner e t (hasg GRead r)).
  exact (proj2 (proj2 (rw_inv e r s Hinv Hg)) rs t Hl Hin).
Qed.

Theorem rwlock_write_guard_owner e r s t th :
  excl_inv e -> get_rw e r = Some s -> get_thread e t = Some th -> In (GWrite, r) (t_guards th) ->
  rw_lock s = Some (RLWrite t).
Proof.
  intros Hinv Hg Hth Hin.
  exact (proj1 (proj2 (rw_inv e r s Hinv Hg)) t _ (get_thread_absT _ _ _ Hth) Hin).
Qed.

Theorem rwlock_write_guard_once e t th r :
  excl_inv e -> get_thread e t = Some th -> gcount GWrite r (t_guards th) <= 1.
Proof.
  intros Hinv Hth. destruct (thread_inv e t th Hinv Hth) as (_ & _ & _ & _ & H). apply H.
Qed.

(* a write guard determines the lock word: no registered reader *)
Theorem rwlock_write_guard_lock_word e r s a ta :
  excl_inv e -> get_rw e r = Some s ->
  get_thread e a = Some ta -> In (GWrite, r) (t_guards ta) ->
  rw_lock s = Some (RLWrite a) /\ (forall rs, rw_lock s <> Some (RLRead rs)).
Proof.
  intros Hinv Hg Ha Hin.
  pose proof (rwlock_write_guard_owner e r s a ta Hinv Hg Ha Hin) as Hl.
  split; [exact Hl|]. intros rs Hrs. congruence.
Qed.

(* A WRITER EXCLUDES EVERYBODY ELSE, as a state invariant: a write guard of r
   never coexists with a read or write guard of r owned by another thread *)
Theorem rwlock_writer_excludes_inv e r a b ta tb :
  excl_inv e -> a <> b ->
  get_thread e a = Some ta -> get_thread e b = Some tb ->
  In (GWrite, r) (t_guards ta) ->
  ~ In (GRead, r) (t_guards tb) /\ ~ In (GWrite, r) (t_guards tb).
Proof.
  intros [(_ & _ & HW) _] Hne Ha Hb Hin.
  pose proof (get_thread_absT _ _ _ Ha) as Ha'. pose proof (get_thread_absT _ _ _ Hb) as Hb'.
  split; intros Hin'.
  - destruct (HW a b _ _ r GRead Ha' Hb' Hin Hin' ltac:(discriminate)) as [H _]. exact (Hne H).
  - destruct (HW a b _ _ r GWrite Ha' Hb' Hin Hin' ltac:(discriminate)) as [H _]. exact (Hne H).
Qed.

(* ... nor with a read guard of r owned by the same thread *)
Theorem rwlock_writer_no_own_read e r a ta :
  excl_inv e -> get_thread e a = Some ta -> In (GWrite, r) (t_guards ta) ->
  ~ In (GRead, r) (t_guards ta).
Proof.
  intros [(_ & _ & HW) _] Ha Hin Hin'. pose proof (get_thread_absT _ _ _ Ha) as Ha'.
  destruct (HW a a _ _ r GRead Ha' Ha' Hin Hin' ltac:(discriminate)) as [_ H]. discriminate H.
Qed.

Theorem rwlock_writer_excludes fuel p pa e res r a b ta tb :
  run fuel (init_exec p pa) = (e, res) -> not_panic res -> a <> b ->
  get_thread e a = Some ta -> get_thread e b = Some tb ->
  In (GWrite, r) (t_guards ta) ->
  ~ In (GRead, r) (t_guards tb) /\ ~ In (GWrite, r) (t_guards tb).
Proof.
  intros Hrun Hr. pose proof (run_excl_inv fuel p pa) as Hinv. rewrite Hrun in Hinv.
  apply rwlock_writer_excludes_inv. exact (Hinv Hr).
Qed.

(* ================================================================== *)
(* 10. Witnesses (vm_compute)                                          *)
(* ================================================================== *)

Definition xcfg : config := mkConfig 5 1000 None None None false.
Definition xstate (p : prog) (fuel : nat) : exec * iter_end :=
  run fuel (init_exec p (initial_path (p_cfg p))).
Definition guards_of (e : exec) (t : nat) : list (gkind * nat) :=
  match get_thread e t with Some th => t_guards th | None => [] end.
Definition cont_of (e : exec) (t : nat) : list micro :=
  match get_thread e t with Some th => t_cont th | None => [] end.

(* non-vacuity: main holds the mutex while thread 1 exists *)
Definition p_lock : prog :=
  mkProg xcfg [DMutex] [[ISpawn 1; ILock 0; IUnlock 0; IJoin 1]; [ILock 0; IUnlock 0]].

Example lock_held_reachable :
  let e := fst (xstate p_lock 5) in
  snd (xstate p_lock 5) = IterFuel /\
  length (e_threads e) = 2 /\
  option_map mx_lock (get_mutex e 0) = Some (Some 0) /\
  guards_of e 0 = [(GMutex, 0)] /\ guards_of e 1 = [].
Proof. vm_compute. repeat split; reflexivity. Qed.

(* non-vacuity of the Condvar clause: main waits on the condvar with mutex 0
   (it keeps its guard), thread 1 is inside the mutex: two guards of the same
   mutex, and the invariant's way out is that main has not re-acquired *)
Definition p_wait : prog :=
  mkProg xcfg [DMutex; DCondvar]
    [[ILock 0; ISpawn 1; IWait 1 0; IUnlock 0; IJoin 1]; [ILock 0; INotifyOne 1; IUnlock 0]].

Example two_guards_reachable :
  let e := fst (xstate p_wait 13) in
  snd (xstate p_wait 13) = IterFuel /\
  option_map mx_lock (get_mutex e 0) = Some (Some 1) /\
  guards_of e 0 = [(GMutex, 0)] /\ guards_of e 1 = [(GMutex, 0)] /\
  cont_of e 0 = MBranch 0 AOpaque BMutexLocked :: MLockPost 0 LMReacquire :: skipn 2 (cont_of e 0).
Proof. vm_compute. repeat split; reflexivity. Qed.

Example two_guards_released : released (cont_of (fst (xstate p_wait 13)) 0) 0.
Proof. vm_compute. reflexivity. Qed.

(* the recursive read lock: a thread that read-locks twice and drops one guard
   is no longer a registered reader (rt::RwLock keeps a SET of thread ids), the
   lock word becomes free and rt lets a writer in although the first thread
   still owns a read guard.  The std::sync::RwLock inside sync::RwLock catches
   it: "loom::RwLock state corrupt" (observed on the real code with this very
   program); in the model MWritePost fails with PanicRwCorrupt, which is what
   makes rwlock_writer_excludes hold without side condition.
     main: spawn 1; read r; read r; drop one read guard; join 1 ...
     t1:   write r
   schedule: the default one (main runs until it blocks in join, then t1). *)
Definition p_rr : prog :=
  mkProg xcfg [DRwLock]
    [[ISpawn 1; IRead 0; IRead 0; IUnread 0; IJoin 1; IUnread 0]; [IWrite 0; IUnwrite 0]].

Example recursive_read_state :
  let e := fst (xstate p_rr 16) in
  snd (xstate p_rr 16) = IterFuel /\
  option_map rw_lock (get_rw e 0) = Some None /\
  guards_of e 0 = [(GRead, 0)] /\ guards_of e 1 = [] /\
  hd MSkip (cont_of e 1) = MWritePost 0 false.
Proof. vm_compute. repeat split; reflexivity. Qed.

Example recursive_read_corrupt :
  snd (xstate p_rr 17) = IterPanic PanicRwCorrupt /\ snd (xstate p_rr 1000) = IterPanic PanicRwCorrupt.
Proof. vm_compute. split; reflexivity. Qed.

(* exec_micro alone, on a state that does not come from Scheduler::run, does
   not preserve the invariant: the hypotheses of run_step_excl_inv (the
   micro-operation is the head of the active thread's continuation) matter.
   MWakerRelease executed by a thread that is not inside AtomicWaker::register
   frees a mutex that another thread holds. *)
Example exec_micro_alone_breaks :
  let e := fst (xstate p_lock 5) in
  match exec_micro e 1 (MWakerRelease 0) with
  | MOk e' => option_map mx_lock (get_mutex e' 0) = Some None /\ guards_of e' 0 = [(GMutex, 0)] /\
              cont_of e' 0 = cont_of e 0
  | MFail _ _ => False
  end.
Proof. vm_compute. repeat split; reflexivity. Qed.

Print Assumptions init_excl_inv.
Print Assumptions run_step_excl_inv.
Print Assumptions steps_excl_inv.
Print Assumptions schedule_excl_inv.
Print Assumptions run_excl_inv.
Print Assumptions mutex_lock_owner.
Print Assumptions mutex_inside_owner.
Print Assumptions mutex_exclusion_inv.
Print Assumptions mutex_exclusion.
Print Assumptions lock_acquire_only_when_free.
Print Assumptions lock_no_second_owner.
Print Assumptions rwlock_writer_excludes_inv.
Print Assumptions rwlock_writer_excludes.
Print Assumptions rwlock_reader_has_guard.
Print Assumptions lock_held_reachable.
Print Assumptions two_guards_reachable.
Print Assumptions rwlock_write_guard_lock_word.
Print Assumptions rwlock_writer_no_own_read.
Print Assumptions recursive_read_state.
Print Assumptions recursive_read_corrupt.
Print Assumptions exec_micro_alone_breaks.
