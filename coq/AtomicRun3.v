(* AtomicRun3: the REPLAY hypothesis of AtomicRun2.RunOK2, discharged from the
   decision stack as far as it can be without a determinism theorem.

   1. "traversed" (pos = length of the stack) is kept by every micro-operation
      (ExecFacts.exec_micro_trv) and along executions ([steps_traversed]).
   2. On a traversed path a load pushes a fresh entry that records exactly its
      candidate list and answers the first element ([fresh_load_is_candidate]).
      Hence the replay clause holds at every access of every run that starts on a
      traversed path -- the first iteration of every program
      ([first_iteration_goodAt], [first_iteration_coherence]: only the ring
      hypothesis RunOK3 is left) -- and, in any iteration, from the point where
      the stored prefix has been consumed ([after_prefix_ReplayAt]).
   3. For a replayed entry the clause follows from [Recorded]: the entry under
      the cursor is a Load entry whose values are the candidate list of this
      access and whose position is inside it ([recorded_ReplayAt],
      [recorded_run_goodAt]).  Facts for the general proof: a Load entry is never
      modified during an iteration ([steps_load_entry_fixed]); Path::step keeps
      the values of every Load entry it keeps and advances the position of the
      last one inside the list ([step_load_entry]).
   4. NOT PROVED in general: RecordedOK for every path of the exploration.  It
      needs "an iteration is a function of the consumed prefix of the stack":
      if pb = step (end path of the run on pa) then, up to the advanced entry,
      the run on pb goes through the same states (all components but e_path)
      as the run on pa.  That is a two-run simulation over all micro-operations,
      which additionally needs (i) every a_path_id stored in an object is below
      pos of the path, (ii) backtrack is idempotent on entries that already
      carry its marks.  None of the three exists in the development.
      Instead: a sound CHECKER.  [explore_rec] runs the whole exploration and
      checks [Recorded] at every replayed load; [explore_rec_sound] /
      [explored_run_goodAt]: if it answers (_, _, true, true) then for EVERY path
      of the exploration ([Explored]; [check_records_Explored]: the begin path of
      every record of Builder::check is one) and every state of its iteration,
      GoodAt a e holds given ring room.  Checked by vm_compute for two programs
      ([p_sl_checked]: 25 iterations, 28 replayed loads; [p_mp_checked]: 72 / 181).

   Nothing is admitted; Print Assumptions at the end: all closed. *)
From Coq Require Import List Arith Lia Bool NArith.
Import ListNotations.
From LV Require Import Base VV VVFacts Path PathSpec PathApi Prog Objects Exec Atomic Ops Check
  CheckFacts SyncFacts ExecFacts SyncMono NotifyFacts ClockFacts AtomicFacts AtomicCoherence
  AtomicCoRR AtomicClosure AtomicBridge AtomicRun AtomicRun2.

(* ================================================================== *)
(* 1. "traversed" is kept by every micro-operation                      *)
(* ================================================================== *)

(* what a load does on a traversed path: a fresh entry that records the seed *)
Lemma choose_store_traversed e sd e2 idx :
  is_traversed (e_path e) = true -> choose_store e (Some sd) = (e2, inl idx) ->
  e_path e2 = set_pos (set_branches (e_path e) (branches (e_path e) ++ [ELoad (mkLoad sd 0 (exploring (e_path e)))]))
                      (S (pos (e_path e))) /\
  idx = nth 0 sd 0.
Proof.
  intros Ht H. unfold choose_store in H. rewrite Ht in H.
  destruct (push_load (e_path e) sd) as [p1|x] eqn:Hp; [|discriminate].
  destruct (push_load_cases _ _ _ Hp) as (_ & _ & ->).
  unfold branch_load in H.
  assert (Hnt : is_traversed (set_branches (e_path e)
                   (branches (e_path e) ++ [ELoad (mkLoad sd 0 (exploring (e_path e)))])) = false).
  { unfold is_traversed in *. cbn [set_branches pos branches]. apply Nat.eqb_eq in Ht.
    apply Nat.eqb_neq. rewrite app_length. cbn [length]. lia. }
  rewrite Hnt in H. cbn [set_branches pos branches] in H.
  unfold is_traversed in Ht. apply Nat.eqb_eq in Ht.
  rewrite Ht, nth_error_app2, Nat.sub_diag in H by apply Nat.le_refl.
  cbn [nth_error l_vals l_pos] in H.
  destruct sd as [|v sd'].
  - cbn [nth_error] in H. destruct (Nat.ltb 0 MAX_ATOMIC_HISTORY); [|discriminate].
    injection H as <- <-. rewrite ex_set_path_path, Ht. split; reflexivity.
  - cbn [nth_error] in H. injection H as <- <-. rewrite ex_set_path_path, Ht. split; reflexivity.
Qed.

Theorem steps_traversed : forall e e', steps e e' ->
  is_traversed (e_path e) = true -> is_traversed (e_path e') = true.
Proof.
  apply (steps_invariant (fun e => is_traversed (e_path e) = true)).
  intros e me t m rest e1 Hi _ _ _ Hx.
  pose proof (exec_micro_trv (upd_thread e me (fun t => th_set_cont t rest)) me m) as Hk.
  rewrite Hx in Hk. apply Hk. exact Hi.
Qed.

(* ================================================================== *)
(* 2. The replay clause, and the run-level theorem with the ring only    *)
(* ================================================================== *)

(* the replay clause of SideOK2, on its own *)
Definition ReplayAt (a : nat) (e : exec) (me : nat) (m : micro) : Prop :=
  forall s t0 seed e2 idx l,
    get_atomic e a = Some s -> get_thread e me = Some t0 -> micro_seed s me t0 m = Some seed ->
    choose_store (causality_inc e me) seed = (e2, inl idx) -> seed = Some l -> l <> [] -> In idx l.

(* a fresh Load entry answers a candidate *)
Theorem fresh_load_is_candidate : forall e l e2 idx,
  is_traversed (e_path e) = true -> choose_store e (Some l) = (e2, inl idx) -> l <> [] ->
  In idx l /\
  nth_error (branches (e_path e2)) (pos (e_path e)) = Some (ELoad (mkLoad l 0 (exploring (e_path e)))) /\
  pos (e_path e2) = S (pos (e_path e)).
Proof.
  intros e l e2 idx Ht H Hne. destruct (choose_store_traversed e l e2 idx Ht H) as [Hp ->].
  split; [destruct l as [|v l']; [contradiction|left; reflexivity]|].
  rewrite Hp. cbn [set_pos set_branches branches pos]. split; [|reflexivity].
  unfold is_traversed in Ht. apply Nat.eqb_eq in Ht.
  rewrite Ht, nth_error_app2, Nat.sub_diag by apply Nat.le_refl. reflexivity.
Qed.

Lemma traversed_ReplayAt : forall a e me m, is_traversed (e_path e) = true -> ReplayAt a e me m.
Proof.
  intros a e me m Ht s t0 seed e2 idx l _ _ _ H -> Hne.
  assert (Ht' : is_traversed (e_path (causality_inc e me)) = true) by (rewrite causality_inc_path; exact Ht).
  exact (proj1 (fresh_load_is_candidate _ l e2 idx Ht' H Hne)).
Qed.

(* the only hypothesis left for such runs: the ring of a has room at every access *)
Definition RunOK3 (p : prog) (pa : path) (a : nat) : Prop :=
  forall e me t m rest s,
    steps (init_exec p pa) e -> e_active e = Some me ->
    nth_error (e_threads e) me = Some t -> t_cont t = m :: rest -> acc_on a m ->
    get_atomic e a = Some s -> at_cnt s < MAX_ATOMIC_HISTORY.

(* the replay clause at every access of a reachable state *)
Definition ReplayOK (p : prog) (pa : path) (a : nat) : Prop :=
  forall e me t m rest,
    steps (init_exec p pa) e -> e_active e = Some me ->
    nth_error (e_threads e) me = Some t -> t_cont t = m :: rest -> acc_on a m ->
    ReplayAt a (upd_thread e me (fun t => th_set_cont t rest)) me m.

Theorem RunOK3_RunOK2 : forall p pa a, ReplayOK p pa a -> RunOK3 p pa a -> RunOK2 p pa a.
Proof.
  intros p pa a Hrep Hring e me t m rest Hs Hact Ht Hc Ha. split.
  - intros s Hg. destruct (pop_cont_frame e me rest) as [_ Hg0]. rewrite Hg0 in Hg.
    exact (Hring e me t m rest s Hs Hact Ht Hc Ha Hg).
  - exact (Hrep e me t m rest Hs Hact Ht Hc Ha).
Qed.

Theorem traversed_ReplayOK : forall p pa a, is_traversed pa = true -> ReplayOK p pa a.
Proof.
  intros p pa a Ht e me t m rest Hs _ _ _ _. apply traversed_ReplayAt.
  rewrite upd_thread_path. apply (steps_traversed _ _ Hs). rewrite init_exec_path. exact Ht.
Qed.

Theorem traversed_run_goodAt : forall p pa a s0 e,
  max_threads (p_cfg p) <= MAX_THREADS -> is_traversed pa = true ->
  get_atomic (init_exec p pa) a = Some s0 -> RunOK3 p pa a ->
  steps (init_exec p pa) e -> GoodAt a e.
Proof.
  intros p pa a s0 e Hm Ht Hs0 Hring Hs.
  exact (run_goodAt2 p pa a s0 e Hm Hs0
           (RunOK3_RunOK2 p pa a (traversed_ReplayOK p pa a Ht) Hring) Hs).
Qed.

Theorem first_iteration_goodAt : forall p a s0 e,
  max_threads (p_cfg p) <= MAX_THREADS ->
  get_atomic (init_exec p (initial_path (p_cfg p))) a = Some s0 ->
  RunOK3 p (initial_path (p_cfg p)) a ->
  steps (init_exec p (initial_path (p_cfg p))) e -> GoodAt a e.
Proof.
  intros p a s0 e Hm. apply (traversed_run_goodAt p _ a s0 e Hm (initial_path_traversed _)).
Qed.

Theorem first_iteration_coherence : forall p a s0 e e' s t i j,
  max_threads (p_cfg p) <= MAX_THREADS ->
  get_atomic (init_exec p (initial_path (p_cfg p))) a = Some s0 ->
  RunOK3 p (initial_path (p_cfg p)) a ->
  steps (init_exec p (initial_path (p_cfg p))) e -> steps e e' ->
  get_atomic e a = Some s -> t < MAX_THREADS -> i < at_cnt s -> j < at_cnt s ->
  vv_lt (mo s i) (mo s j) = true ->
  is_seen_by_current (st_seen (get_store s j)) (caus_of e t) = true ->
  exists s', get_atomic e' a = Some s' /\
    (forall ly o l, match_load_to_stores s' t (vv_inc (caus_of e' t) t) ly o = Some l -> ~ In i l) /\
    (forall l, match_rmw_to_stores s' = Some l -> ~ In i l).
Proof.
  intros p a s0 e e' s t i j Hm Hs0 Hring.
  apply (CoRR_CoWR_steps2 p _ a s0 e e' s t i j Hm Hs0).
  apply RunOK3_RunOK2; [apply traversed_ReplayOK, initial_path_traversed|exact Hring].
Qed.

(* once an iteration has left its stored prefix, every later access of a is fine *)
Theorem after_prefix_ReplayAt : forall a e0 e me t m rest,
  is_traversed (e_path e0) = true -> steps e0 e ->
  nth_error (e_threads e) me = Some t -> t_cont t = m :: rest ->
  ReplayAt a (upd_thread e me (fun t => th_set_cont t rest)) me m.
Proof.
  intros a e0 e me t m rest Ht Hs _ _. apply traversed_ReplayAt.
  rewrite upd_thread_path. exact (steps_traversed _ _ Hs Ht).
Qed.

(* ================================================================== *)
(* 3. Replayed entries: what the stack has to record                    *)
(* ================================================================== *)

(* the entry under the cursor records the candidate list of this access, with
   its position inside the list *)
Definition Recorded (a : nat) (e : exec) (me : nat) (m : micro) : Prop :=
  forall s t0 l,
    get_atomic e a = Some s -> get_thread e me = Some t0 ->
    micro_seed s me t0 m = Some (Some l) -> l <> [] ->
    is_traversed (e_path e) = false ->
    exists ld, nth_error (branches (e_path e)) (pos (e_path e)) = Some (ELoad ld) /\
               l_vals ld = l /\ l_pos ld < length l.

Lemma replayed_load_answer : forall e sd e2 idx ld,
  is_traversed (e_path e) = false ->
  nth_error (branches (e_path e)) (pos (e_path e)) = Some (ELoad ld) ->
  l_pos ld < length (l_vals ld) ->
  choose_store e sd = (e2, inl idx) -> nth_error (l_vals ld) (l_pos ld) = Some idx.
Proof.
  intros e sd e2 idx ld Ht Hn Hp H. unfold choose_store in H. rewrite Ht in H.
  unfold branch_load in H. rewrite Ht, Hn in H.
  destruct (nth_error (l_vals ld) (l_pos ld)) as [v|] eqn:Hv.
  - injection H as _ <-. reflexivity.
  - apply nth_error_None in Hv. lia.
Qed.

Theorem recorded_ReplayAt : forall a e me m, Recorded a e me m -> ReplayAt a e me m.
Proof.
  intros a e me m Hrec s t0 seed e2 idx l Hat Hth Hseed H -> Hne.
  destruct (is_traversed (e_path e)) eqn:Ht.
  - exact (traversed_ReplayAt a e me m Ht s t0 (Some l) e2 idx l Hat Hth Hseed H eq_refl Hne).
  - destruct (Hrec s t0 l Hat Hth Hseed Hne Ht) as (ld & Hn & Hv & Hp).
    assert (Ht' : is_traversed (e_path (causality_inc e me)) = false)
      by (rewrite causality_inc_path; exact Ht).
    assert (Hn' : nth_error (branches (e_path (causality_inc e me))) (pos (e_path (causality_inc e me)))
                  = Some (ELoad ld)) by (rewrite causality_inc_path; exact Hn).
    rewrite <- Hv in Hp.
    pose proof (replayed_load_answer _ _ e2 idx ld Ht' Hn' Hp H) as Hi.
    rewrite <- Hv. eapply nth_error_In. exact Hi.
Qed.

Definition RecordedOK (p : prog) (pa : path) (a : nat) : Prop :=
  forall e me t m rest,
    steps (init_exec p pa) e -> e_active e = Some me ->
    nth_error (e_threads e) me = Some t -> t_cont t = m :: rest -> acc_on a m ->
    Recorded a (upd_thread e me (fun t => th_set_cont t rest)) me m.

Theorem RecordedOK_ReplayOK : forall p pa a, RecordedOK p pa a -> ReplayOK p pa a.
Proof.
  intros p pa a H e me t m rest Hs Hact Ht Hc Ha. apply recorded_ReplayAt.
  exact (H e me t m rest Hs Hact Ht Hc Ha).
Qed.

Theorem recorded_run_goodAt : forall p pa a s0 e,
  max_threads (p_cfg p) <= MAX_THREADS ->
  get_atomic (init_exec p pa) a = Some s0 -> RecordedOK p pa a -> RunOK3 p pa a ->
  steps (init_exec p pa) e -> GoodAt a e.
Proof.
  intros p pa a s0 e Hm Hs0 Hrec Hring Hs.
  exact (run_goodAt2 p pa a s0 e Hm Hs0
           (RunOK3_RunOK2 p pa a (RecordedOK_ReplayOK p pa a Hrec) Hring) Hs).
Qed.

(* ---- the facts about the stack that a proof of RecordedOK for the paths of
        the exploration can use ---- *)

Lemma steps_path_ok : forall e e', steps e e' -> path_ok (e_path e) (e_path e').
Proof.
  intros e e' H. apply (steps_invariant (fun e1 => path_ok (e_path e) (e_path e1))) with (2 := H);
    [|apply path_ok_refl].
  intros e0 me t m rest e1 H0 _ _ _ Hx.
  pose proof (exec_micro_path_ok (upd_thread e0 me (fun t => th_set_cont t rest)) me m) as Hm.
  rewrite upd_thread_path, Hx in Hm. eapply path_ok_trans; [exact H0|exact Hm].
Qed.

(* a Load entry is never modified during an iteration *)
Theorem steps_load_entry_fixed : forall e e' i ld,
  steps e e' -> nth_error (branches (e_path e)) i = Some (ELoad ld) ->
  nth_error (branches (e_path e')) i = Some (ELoad ld).
Proof.
  intros e e' i ld Hs Hn. destruct (steps_path_ok _ _ Hs) as ((_ & _ & _ & old & new & Hb & Hf) & _).
  rewrite Hb.
  assert (Hi : i < length (branches (e_path e))) by (apply nth_error_Some; congruence).
  pose proof (Forall2_len _ _ _ _ _ Hf) as Hlen.
  rewrite nth_error_app1 by lia.
  clear Hb Hlen. revert i Hn Hi. induction Hf as [|x y l l' Hxy Hf IH]; intros i Hn Hi; [cbn in Hi; lia|].
  destruct i as [|i]; cbn [nth_error] in *.
  - injection Hn as ->. destruct (ext_inv _ _ Hxy) as [->|(s & th & Hs' & _)]; [reflexivity|discriminate].
  - apply IH; [exact Hn|cbn [length] in Hi; lia].
Qed.

(* Path::step keeps the candidate list of every Load entry it keeps, and the
   position stays inside the list *)
Theorem step_load_entry : forall p p' i ld',
  step p = Some p' -> nth_error (branches p') i = Some (ELoad ld') ->
  exists ld, nth_error (branches p) i = Some (ELoad ld) /\ l_vals ld' = l_vals ld /\
             (ld' = ld \/ (S i = length (branches p') /\ l_pos ld' = S (l_pos ld) /\
                           l_pos ld' < length (l_vals ld'))).
Proof.
  intros p p' i ld' H Hn.
  destruct (step_cases _ _ H) as (kept & e0 & e' & popped & Hb & Hb' & He & _).
  rewrite Hb' in Hn. rewrite Hb, Hb'.
  destruct (Nat.lt_ge_cases i (length kept)) as [Hlt|Hge].
  - rewrite nth_error_app1 in Hn by assumption. exists ld'.
    rewrite nth_error_app1 by assumption. auto.
  - rewrite nth_error_app2 in Hn by assumption. rewrite nth_error_app2 by assumption.
    destruct (i - length kept) as [|k] eqn:Hk; cbn [nth_error] in *; [|destruct k; discriminate].
    injection Hn as ->. destruct e0 as [s|l|s]; cbn [advance_entry] in He.
    + destruct (negb (s_ex s)); [discriminate|]. destruct (activate_pending _); discriminate.
    + destruct (negb (l_ex l)); [discriminate|].
      destruct (Nat.ltb (S (l_pos l)) (length (l_vals l))) eqn:Hl; [|discriminate].
      injection He as <-. apply Nat.ltb_lt in Hl. exists l. split; [reflexivity|].
      split; [reflexivity|]. right. rewrite app_length. cbn [length l_pos l_vals].
      split; [lia|]. split; [reflexivity|exact Hl].
    + destruct (negb (p_ex s)); [discriminate|]. destruct (p_spur s); discriminate.
Qed.


(* ================================================================== *)
(* 4. A checker for RecordedOK over a whole exploration                  *)
(* ================================================================== *)
(* The general statement "every path that Path::step produces from the end of
   an iteration records, at each replayed Load entry, the candidate list of the
   re-run" needs the determinism of an iteration as a function of the consumed
   prefix of the stack, which is not available (item 4 of the header).  What follows
   is a sound boolean check of it, iteration by iteration, so that it can be
   established for a given program by computation. *)

Definition acc_idx (m : micro) : option nat :=
  match m with
  | MLoadPost b _ _ | MFuLoadPost b _ _ _ _ | MRmwPost b _ _ _
  | MBoLoad b _ _ _ _ _ | MBsLoad b _ _ _ _ _ _ => Some b
  | _ => None
  end.

Fixpoint list_nat_eqb (a b : list nat) : bool :=
  match a, b with
  | [], [] => true
  | x :: a', y :: b' => Nat.eqb x y && list_nat_eqb a' b'
  | _, _ => false
  end.

Lemma list_nat_eqb_eq : forall a b, list_nat_eqb a b = true -> a = b.
Proof.
  induction a as [|x a IH]; intros [|y b] H; cbn [list_nat_eqb] in H; try discriminate; [reflexivity|].
  apply andb_true_iff in H. destruct H as [H1 H2]. apply Nat.eqb_eq in H1. subst y.
  rewrite (IH b H2). reflexivity.
Qed.

(* (number of replayed loads checked, verdict) at one micro-operation *)
Definition rec_check (e1 : exec) (me : nat) (m : micro) : nat * bool :=
  match acc_idx m with
  | None => (0, true)
  | Some a =>
    match get_atomic e1 a, get_thread e1 me with
    | Some s, Some t0 =>
        match micro_seed s me t0 m with
        | Some (Some l) =>
            if is_traversed (e_path e1) then (0, true)
            else match nth_error (branches (e_path e1)) (pos (e_path e1)) with
                 | Some (ELoad ld) => (1, list_nat_eqb (l_vals ld) l && Nat.ltb (l_pos ld) (length l))
                 | _ => (1, false)
                 end
        | _ => (0, true)
        end
    | _, _ => (0, true)
    end
  end.

Lemma rec_check_sound : forall a e1 me m,
  snd (rec_check e1 me m) = true -> acc_on a m -> Recorded a e1 me m.
Proof.
  intros a e1 me m H Ha s t0 l Hat Hth Hseed Hne Ht. unfold rec_check in H.
  assert (Hidx : acc_idx m = Some a).
  { destruct m; cbn [acc_on] in Ha; try contradiction; subst; cbn [acc_idx micro_seed] in *;
      try reflexivity; discriminate Hseed. }
  rewrite Hidx, Hat, Hth, Hseed, Ht in H.
  destruct (nth_error (branches (e_path e1)) (pos (e_path e1))) as [[x|ld|x]|]; cbn [snd] in H;
    try discriminate.
  apply andb_true_iff in H. destruct H as [H1 H2]. apply list_nat_eqb_eq in H1.
  apply Nat.ltb_lt in H2. exists ld. auto.
Qed.

(* Scheduler::run (Check.run) with the check at every micro-operation *)
Fixpoint run_rec (fuel : nat) (e : exec) (n : nat) (ok : bool) : exec * iter_end * nat * bool :=
  match fuel with
  | 0 => (e, IterFuel, n, ok)
  | S fuel' =>
      match e_active e with
      | None => (e, IterDone, n, ok)
      | Some me =>
          match nth_error (e_threads e) me with
          | None => (e, IterPanic (PanicModel 30), n, ok)
          | Some t =>
              match t_cont t with
              | [] => (e, IterPanic (PanicModel 31), n, ok)
              | m :: rest =>
                  let e1 := upd_thread e me (fun t => th_set_cont t rest) in
                  match exec_micro e1 me m with
                  | MOk e2 => run_rec fuel' e2 (n + fst (rec_check e1 me m)) (ok && snd (rec_check e1 me m))
                  | MFail e2 p => (e2, IterPanic p, n + fst (rec_check e1 me m), ok && snd (rec_check e1 me m))
                  end
              end
          end
      end
  end.

Lemma run_rec_run : forall fuel e n ok e' r n' ok',
  run_rec fuel e n ok = (e', r, n', ok') -> run fuel e = (e', r).
Proof.
  induction fuel as [|fuel IH]; intros e n ok e' r n' ok' H; cbn [run_rec run] in *.
  - injection H as <- <- _ _. reflexivity.
  - destruct (e_active e) as [me|]; [|injection H as <- <- _ _; reflexivity].
    destruct (nth_error (e_threads e) me) as [t|]; [|injection H as <- <- _ _; reflexivity].
    destruct (t_cont t) as [|m rest]; [injection H as <- <- _ _; reflexivity|].
    cbv zeta in H. destruct (exec_micro _ me m) as [e2|e2 p].
    + eapply IH. exact H.
    + injection H as <- <- _ _. reflexivity.
Qed.

Lemma run_rec_ok_in : forall fuel e n ok e' r n',
  run_rec fuel e n ok = (e', r, n', true) -> ok = true.
Proof.
  induction fuel as [|fuel IH]; intros e n ok e' r n' H; cbn [run_rec] in H.
  - injection H as _ _ _ ->. reflexivity.
  - destruct (e_active e) as [me|]; [|injection H as _ _ _ ->; reflexivity].
    destruct (nth_error (e_threads e) me) as [t|]; [|injection H as _ _ _ ->; reflexivity].
    destruct (t_cont t) as [|m rest]; [injection H as _ _ _ ->; reflexivity|].
    cbv zeta in H. destruct (exec_micro _ me m) as [e2|e2 p].
    + apply IH in H. apply andb_true_iff in H. tauto.
    + injection H as _ _ _ H. apply andb_true_iff in H. tauto.
Qed.

Theorem run_rec_sound : forall a fuel e n ok e' r n',
  run_rec fuel e n ok = (e', r, n', true) -> r <> IterFuel ->
  forall e1 me t m rest,
    steps e e1 -> e_active e1 = Some me -> nth_error (e_threads e1) me = Some t ->
    t_cont t = m :: rest -> acc_on a m ->
    Recorded a (upd_thread e1 me (fun t => th_set_cont t rest)) me m.
Proof.
  intros a. induction fuel as [|fuel IH]; intros e n ok e' r n' H Hr e1 me t m rest Hs Hact Ht Hc Ha;
    cbn [run_rec] in H.
  - injection H as _ <- _ _. contradiction.
  - destruct Hs as [e|e me0 t0 m0 rest0 e2 e3 Hact0 Ht0 Hc0 Hx0 Hs0].
    + rewrite Hact, Ht, Hc in H. cbv zeta in H.
      apply rec_check_sound; [|exact Ha].
      destruct (exec_micro _ me m) as [e2|e2 p].
      * apply run_rec_ok_in in H. apply andb_true_iff in H. tauto.
      * injection H as _ _ _ H. apply andb_true_iff in H. tauto.
    + rewrite Hact0, Ht0, Hc0 in H. cbv zeta in H. rewrite Hx0 in H.
      pose proof (run_rec_ok_in _ _ _ _ _ _ _ H) as Hok.
      exact (IH _ _ _ _ _ _ H Hr e3 me t m rest Hs0 Hact Ht Hc Ha).
Qed.

(* the paths of an exploration: the begin path, and Path::step of the end path
   of every completed iteration (a superset of the begin paths of Builder::check,
   which also stops at a leak) *)
Inductive Explored (fuel : nat) (p : prog) (pa0 : path) : path -> Prop :=
  | Explored_first : Explored fuel p pa0 pa0
  | Explored_next pa e pa' :
      Explored fuel p pa0 pa -> run fuel (init_exec p pa) = (e, IterDone) ->
      step (e_path e) = Some pa' -> Explored fuel p pa0 pa'.

(* the loop: (iterations, replayed loads checked, verdict, finished) *)
Fixpoint explore_rec (ifuel fuel : nat) (p : prog) (pa : path) (its n : nat) (ok : bool)
  : nat * nat * bool * bool :=
  match ifuel with
  | 0 => (its, n, ok, false)
  | S ifuel' =>
      match run_rec fuel (init_exec p pa) n ok with
      | (e, IterDone, n', ok') =>
          match step (e_path e) with
          | Some pa' => explore_rec ifuel' fuel p pa' (S its) n' ok'
          | None => (S its, n', ok', true)
          end
      | (_, _, n', ok') => (S its, n', ok', false)
      end
  end.

Lemma explore_rec_ok_in : forall ifuel fuel p pa its n ok its' n' fin,
  explore_rec ifuel fuel p pa its n ok = (its', n', true, fin) -> ok = true.
Proof.
  induction ifuel as [|ifuel IH]; intros fuel p pa its n ok its' n' fin H; cbn [explore_rec] in H.
  - injection H as _ _ -> _. reflexivity.
  - destruct (run_rec fuel (init_exec p pa) n ok) as [[[e r] n1] ok1] eqn:Hr.
    assert (Hk : ok1 = true -> ok = true).
    { intros ->. exact (run_rec_ok_in _ _ _ _ _ _ _ Hr). }
    destruct r; try (injection H as _ _ -> _; auto).
    destruct (step (e_path e)) as [pa'|]; [|injection H as _ _ -> _; auto].
    apply Hk. exact (IH _ _ _ _ _ _ _ _ _ H).
Qed.

Theorem explore_rec_sound : forall a ifuel fuel p pa0 its n its' n',
  explore_rec ifuel fuel p pa0 its n true = (its', n', true, true) ->
  forall pa, Explored fuel p pa0 pa ->
    RecordedOK p pa a /\
    exists k its1 n1 e, k <= ifuel /\
      explore_rec (S k) fuel p pa its1 n1 true = (its', n', true, true) /\
      fst (fst (run_rec fuel (init_exec p pa) n1 true)) = (e, IterDone).
Proof.
  intros a ifuel fuel p pa0 its n its' n' H pa Hex.
  assert (Hmain : exists k its1 n1, S k <= ifuel /\
            explore_rec (S k) fuel p pa its1 n1 true = (its', n', true, true)).
  { induction Hex as [|pa e pa' Hex IH Hrun Hstep].
    - destruct ifuel as [|k]; [cbn in H; discriminate|]. exists k, its, n. split; [lia|exact H].
    - destruct IH as (k & its1 & n1 & Hk & He). cbn [explore_rec] in He.
      destruct (run_rec fuel (init_exec p pa) n1 true) as [[[e1 r1] n2] ok2] eqn:Hr.
      pose proof (run_rec_run _ _ _ _ _ _ _ _ Hr) as Hrr. rewrite Hrun in Hrr.
      injection Hrr as <- <-. rewrite Hstep in He.
      pose proof (explore_rec_ok_in _ _ _ _ _ _ _ _ _ _ He) as ->.
      destruct k as [|k]; [cbn in He; discriminate|].
      exists k, (S its1), n2. split; [lia|exact He]. }
  destruct Hmain as (k & its1 & n1 & Hk & He).
  pose proof He as He0. cbn [explore_rec] in He.
  destruct (run_rec fuel (init_exec p pa) n1 true) as [[[e1 r1] n2] ok2] eqn:Hr.
  assert (Hok2 : ok2 = true /\ r1 = IterDone).
  { destruct r1; try discriminate He.
    destruct (step (e_path e1)); [|injection He as _ _ ->; auto].
    split; [exact (explore_rec_ok_in _ _ _ _ _ _ _ _ _ _ He)|reflexivity]. }
  destruct Hok2 as [-> ->]. split.
  - intros e me t m rest Hs Hact Ht Hc Ha.
    refine (run_rec_sound a fuel (init_exec p pa) n1 true e1 IterDone n2 Hr _ e me t m rest Hs Hact Ht Hc Ha).
    discriminate.
  - exists k, its1, n1, e1. split; [lia|]. split; [exact He0|rewrite Hr; reflexivity].
Qed.

(* the headline for a checked exploration: for EVERY path of the exploration and
   every state of its iteration, the atomic a is good, given room in the ring *)
Theorem explored_run_goodAt : forall a ifuel fuel p its' n' pa s0 e,
  max_threads (p_cfg p) <= MAX_THREADS ->
  explore_rec ifuel fuel p (initial_path (p_cfg p)) 0 0 true = (its', n', true, true) ->
  Explored fuel p (initial_path (p_cfg p)) pa ->
  get_atomic (init_exec p pa) a = Some s0 -> RunOK3 p pa a ->
  steps (init_exec p pa) e -> GoodAt a e.
Proof.
  intros a ifuel fuel p its' n' pa s0 e Hm Hchk Hex Hs0 Hring Hs.
  destruct (explore_rec_sound a ifuel fuel p _ 0 0 its' n' Hchk pa Hex) as [Hrec _].
  exact (recorded_run_goodAt p pa a s0 e Hm Hs0 Hrec Hring Hs).
Qed.

(* the begin path of every record of Builder::check is such a path *)
Lemma rec_of_done : forall fuel p pa,
  ir_result (rec_of fuel p pa) = IterDone ->
  exists e, run fuel (init_exec p pa) = (e, IterDone) /\ ir_end (rec_of fuel p pa) = e_path e.
Proof.
  intros fuel p pa. unfold rec_of. rewrite iteration_unfold.
  destruct (run fuel (init_exec p pa)) as [e r]. destruct r; cbn [ir_result ir_end]; try discriminate.
  - destruct (check_for_leaks (e_objects e)); cbn [ir_result ir_end]; [discriminate|].
    intros _. exists e. auto.
Qed.

Lemma Loop_Explored : forall fuel p pa0 n i pa ck rest fin ck',
  Loop fuel p n i pa ck rest fin ck' -> Explored fuel p pa0 pa ->
  forall r, In r rest -> Explored fuel p pa0 (ir_begin r).
Proof.
  intros fuel p pa0 n i pa ck rest fin ck' HL.
  induction HL as [i pa ck|n i pa ck Hst|n i pa ck pn Hst Hres|n i pa ck Hst Hres
                  |n i pa ck Hst Hres Hstep|n i pa ck pa' rest fin ck' Hst Hres Hstep HL IH];
    intros Hex r Hin; cbn [In] in Hin; try contradiction.
  1-3: destruct Hin as [<-|[]]; rewrite rec_of_begin; exact Hex.
  - destruct Hin as [<-|Hin]; [rewrite rec_of_begin; exact Hex|].
    apply IH; [|exact Hin]. destruct (rec_of_done _ _ _ Hres) as (e & Hrun & Hend).
    rewrite Hend in Hstep. exact (Explored_next fuel p pa0 pa e pa' Hex Hrun Hstep).
Qed.

Theorem check_records_Explored : forall ifuel fuel p recs fin ck r,
  check ifuel fuel p = (recs, fin, ck) -> In r recs ->
  Explored fuel p (initial_path (p_cfg p)) (ir_begin r).
Proof.
  intros ifuel fuel p recs fin ck r H Hin. unfold check in H.
  apply (proj1 (check_loop_Loop fuel p ifuel 1 (initial_path (p_cfg p)) None [] recs fin ck)) in H.
  exact (Loop_Explored fuel p _ _ _ _ _ _ _ _ H (Explored_first fuel p _) r Hin).
Qed.

(* two explorations checked by computation: (iterations, replayed loads, ok, finished) *)
Definition cfgT : config := mkConfig 5 1000 None None None false.
Definition p_sl : prog :=
  mkProg cfgT [DAtomic 0]
    [[ISpawn 1; IStore 0 1 Relaxed; ILoad 0 Relaxed; IJoin 1]; [IStore 0 2 Relaxed; ILoad 0 Relaxed]].
Definition p_mp : prog :=
  mkProg cfgT [DAtomic 0; DAtomic 0]
    [[ISpawn 1; IStore 0 1 Relaxed; ILoad 1 Acquire; ILoad 0 Relaxed; IJoin 1];
     [IStore 1 1 Release; IRmw 0 RAdd 10 AcqRel; ILoad 0 Relaxed]].

Lemma p_sl_checked : explore_rec 2000 2000 p_sl (initial_path cfgT) 0 0 true = (25, 28, true, true).
Proof. vm_compute. reflexivity. Qed.
Lemma p_mp_checked : explore_rec 2000 2000 p_mp (initial_path cfgT) 0 0 true = (72, 181, true, true).
Proof. vm_compute. reflexivity. Qed.

Print Assumptions exec_micro_trv.
Print Assumptions steps_traversed.
Print Assumptions fresh_load_is_candidate.
Print Assumptions traversed_ReplayOK.
Print Assumptions RunOK3_RunOK2.
Print Assumptions traversed_run_goodAt.
Print Assumptions first_iteration_goodAt.
Print Assumptions first_iteration_coherence.
Print Assumptions after_prefix_ReplayAt.
Print Assumptions recorded_ReplayAt.
Print Assumptions recorded_run_goodAt.
Print Assumptions steps_load_entry_fixed.
Print Assumptions step_load_entry.
Print Assumptions run_rec_sound.
Print Assumptions explore_rec_sound.
Print Assumptions explored_run_goodAt.
Print Assumptions p_sl_checked.
Print Assumptions p_mp_checked.
Print Assumptions check_records_Explored.
