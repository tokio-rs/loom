(* ClockFacts: well-formedness of the vector clocks over whole runs (supports
   "Data races are reported exactly").

   own e u      = vv_get (caus_of e u) u : what thread u knows about itself
                  (0 for a thread that does not exist: caus_of is vv_new)
   bndf w v     : every component u of the view v is at most w u
   clock_wf e   : every view of the state is bounded by [own e]:
                  the clock t_caus and the released clock t_rel of every
                  thread, the views of mutexes / rwlocks / notifies / arcs, the
                  sender view and every queued per-message view of a channel,
                  st_sync of every store of every atomic and the four tracking
                  clocks of the atomic (loaded / unsync_loaded / stored /
                  unsync_mut), the read and write clocks of every cell, the
                  seq-cst clock e_seqcst and the views of the lazy statics.
                  (+ every thread clock has at least MAX_THREADS components.)
                  "Nobody knows more about u than u itself"; components of
                  threads that do not exist yet are 0 (clock_wf_caus,
                  clock_wf_absent, clock_wf_rel, clock_wf_seqcst, clock_wf_object).

   Main theorems
     exec_micro_clock_wf : every micro-operation, also the state carried by
                           MFail (one tactic over all micro-ops; MRecvPost and
                           the atomic accesses by hand)
     init_clock_wf, run_clock_wf, iteration_clock_wf
     own_component_increases (C2), tracked_ops_from_inc
     cell_write_stamp / cell_read_stamp / store_stamp / load_stamp /
     store_first_seen_stamp (C3), no_future_knowledge, seen_only_if_acquired

   DEVIATIONS: see the end of the file. *)
Require Import LV.Base LV.VV LV.VVFacts LV.Path LV.PathSpec LV.PathApi LV.Prog LV.Objects
               LV.Exec LV.Atomic LV.Ops LV.Check LV.SyncFacts LV.ExecFacts LV.SyncMono.
From Coq Require Import List Arith Lia Bool.
Import ListNotations.

(* ================================================================== *)
(* 1. Bounded views                                                    *)
(* ================================================================== *)

Definition bndf (w : nat -> nat) (v : vv) : Prop := forall u, vv_get v u <= w u.

Lemma bndf_mono w w' v : (forall u, w u <= w' u) -> bndf w v -> bndf w' v.
Proof. intros Hw H u. specialize (H u). specialize (Hw u). lia. Qed.

Lemma bndf_new w : bndf w vv_new.
Proof. intros u. rewrite vv_new_get. lia. Qed.

Lemma bndf_join w a b : bndf w a -> bndf w b -> bndf w (vv_join a b).
Proof. intros Ha Hb u. rewrite vv_get_join. specialize (Ha u). specialize (Hb u). lia. Qed.

Lemma bndf_vle w a b : vle a b -> bndf w b -> bndf w a.
Proof. intros Hle Hb u. specialize (Hle u). specialize (Hb u). lia. Qed.

Lemma bndf_sync_load w c s o : bndf w c -> bndf w s -> bndf w (sync_load c s o).
Proof. intros Hc Hs. unfold sync_load. destruct (ord_acq o); [apply bndf_join; assumption|exact Hc]. Qed.

Lemma bndf_sync_store w s c r o : bndf w s -> bndf w c -> bndf w r -> bndf w (sync_store s c r o).
Proof.
  intros Hs Hc Hr. unfold sync_store. destruct (ord_rel o); repeat apply bndf_join; assumption.
Qed.

Lemma sync_load_length c s o : length c <= length (sync_load c s o).
Proof. unfold sync_load. destruct (ord_acq o); [rewrite vv_join_length; lia|lia]. Qed.

(* ---- lists ---- *)
Lemma Forall_list_upd (A : Type) (P : A -> Prop) (l : list A) i f :
  Forall P l -> (forall x, P x -> P (f x)) -> Forall P (list_upd l i f).
Proof.
  intros Hl Hf. unfold list_upd. destruct (nth_error l i) as [x|] eqn:Hx; [|exact Hl].
  apply Forall_list_set; [exact Hl|]. apply Hf. rewrite Forall_forall in Hl.
  apply Hl. eapply nth_error_In; exact Hx.
Qed.

Lemma Forall_nth_default (A : Type) (P : A -> Prop) (l : list A) i d :
  Forall P l -> P d -> P (nth i l d).
Proof.
  intros Hl Hd. destruct (nth_in_or_default i l d) as [Hin | ->]; [|exact Hd].
  rewrite Forall_forall in Hl. apply Hl, Hin.
Qed.

(* ---- atomics ---- *)
Definition atomic_wf (w : nat -> nat) (s : atomic_state) : Prop :=
  Forall (fun x => bndf w (st_sync x)) (at_stores s) /\
  bndf w (at_loaded s) /\ bndf w (at_unsync_loaded s) /\
  bndf w (at_stored s) /\ bndf w (at_unsync_mut s).

Lemma atomic_wf_mono w w' s : (forall u, w u <= w' u) -> atomic_wf w s -> atomic_wf w' s.
Proof.
  intros Hw (H1 & H2 & H3 & H4 & H5). repeat split; eauto using bndf_mono.
  eapply Forall_impl; [|exact H1]. intros x. apply bndf_mono, Hw.
Qed.

Lemma get_store_wf w s i : atomic_wf w s -> bndf w (st_sync (get_store s i)).
Proof.
  intros (H1 & _). unfold get_store.
  apply (Forall_nth_default _ (fun x => bndf w (st_sync x))); [exact H1|]. apply bndf_new.
Qed.

Lemma track_load_wf w s c s1 :
  track_load s c = inl s1 -> atomic_wf w s -> bndf w c -> atomic_wf w s1.
Proof.
  unfold track_load. intros H (H1 & H2 & H3 & H4 & H5) Hc.
  destruct (at_mutating s); [discriminate H|]. destruct (vv_ahead c _); [discriminate H|].
  injection H as <-. repeat split; cbn; auto using bndf_join.
Qed.

Lemma track_unsync_load_wf w s c s1 :
  track_unsync_load s c = inl s1 -> atomic_wf w s -> bndf w c -> atomic_wf w s1.
Proof.
  unfold track_unsync_load. intros H (H1 & H2 & H3 & H4 & H5) Hc.
  destruct (at_mutating s); [discriminate H|]. destruct (vv_ahead c _); [discriminate H|].
  destruct (vv_ahead c _); [discriminate H|].
  injection H as <-. repeat split; cbn; auto using bndf_join.
Qed.

Lemma track_store_wf w s c s1 :
  track_store s c = inl s1 -> atomic_wf w s -> bndf w c -> atomic_wf w s1.
Proof.
  unfold track_store. intros H (H1 & H2 & H3 & H4 & H5) Hc.
  destruct (at_mutating s); [discriminate H|]. destruct (vv_ahead c _); [discriminate H|].
  destruct (vv_ahead c _); [discriminate H|].
  injection H as <-. repeat split; cbn; auto using bndf_join.
Qed.

Lemma track_unsync_mut_wf w s c s1 :
  track_unsync_mut s c = inl s1 -> atomic_wf w s -> bndf w c -> atomic_wf w s1.
Proof.
  unfold track_unsync_mut. intros H (H1 & H2 & H3 & H4 & H5) Hc.
  destruct (at_mutating s); [discriminate H|].
  repeat (destruct (vv_ahead c _); [discriminate H|]).
  injection H as <-. repeat split; cbn; auto using bndf_join.
Qed.

Lemma set_stores_wf w s st cnt :
  atomic_wf w s -> Forall (fun x => bndf w (st_sync x)) st -> atomic_wf w (at_set_stores s st cnt).
Proof. intros (H1 & H2 & H3 & H4 & H5) Hst. repeat split; assumption. Qed.

Lemma load_view_wf w s me c idx : atomic_wf w s -> atomic_wf w (load_view s me c idx).
Proof.
  intros Hs. unfold load_view. cbv zeta.
  assert (Ha : atomic_wf w (apply_load_coherence s c idx)).
  { destruct Hs as (H1 & H2 & H3 & H4 & H5).
    assert (Hst : Forall (fun x => bndf w (st_sync x)) (at_stores (apply_load_coherence s c idx))).
    { apply Forall_forall. intros x Hx.
      destruct (In_nth _ _ store_default Hx) as (j & Hj & Hnth).
      rewrite alc_keeps_length in Hj.
      pose proof (alc_keeps_sync s c idx j) as Hsy. unfold get_store in Hsy.
      rewrite Hnth in Hsy. rewrite Hsy.
      rewrite Forall_forall in H1. apply H1. apply nth_In. exact Hj. }
    unfold apply_load_coherence in *. cbv zeta in *.
    repeat split; assumption. }
  apply set_stores_wf; [exact Ha|].
  apply Forall_list_upd; [exact (proj1 Ha)|]. intros x Hx. exact Hx.
Qed.

Lemma atomic_store_from_wf w s me c r sync0 v o src :
  atomic_wf w s -> bndf w c -> bndf w r -> bndf w sync0 ->
  atomic_wf w (atomic_store_from s me c r sync0 v o src).
Proof.
  intros Hs Hc Hr H0. unfold atomic_store_from. cbv zeta. apply set_stores_wf; [exact Hs|].
  apply Forall_list_set; [exact (proj1 Hs)|]. cbn [st_sync]. apply bndf_sync_store; assumption.
Qed.

Lemma atomic_load_wf w s me c idx o s' c' v :
  atomic_load s me c idx o = inl (s', c', v) -> atomic_wf w s -> bndf w c ->
  atomic_wf w s' /\ bndf w c' /\ vle c c' /\ length c <= length c'.
Proof.
  rewrite atomic_load_eq. intros H Hs Hc.
  destruct (track_load s c) as [s1|pn] eqn:Ht; [|discriminate H].
  pose proof (track_load_wf _ _ _ _ Ht Hs Hc) as H1.
  pose proof (load_view_wf w s1 me c idx H1) as H3.
  injection H as <- <- _. split; [exact H3|].
  split; [apply bndf_sync_load; [exact Hc|apply get_store_wf, H3]|].
  split; [apply sync_load_keeps|apply sync_load_length].
Qed.

Lemma atomic_rmw_wf w s me c r idx so fo f s' c' prev ok :
  atomic_rmw s me c r idx so fo f = inl (s', c', prev, ok) ->
  atomic_wf w s -> bndf w c -> bndf w r ->
  atomic_wf w s' /\ bndf w c' /\ vle c c' /\ length c <= length c'.
Proof.
  rewrite atomic_rmw_eq. intros H Hs Hc Hr.
  destruct (track_load s c) as [s1|pn] eqn:Ht; [|discriminate H].
  pose proof (track_load_wf _ _ _ _ Ht Hs Hc) as H1.
  pose proof (load_view_wf w s1 me c idx H1) as H3. cbv zeta in H.
  destruct (f _) as [next|].
  - destruct (track_store _ c) as [s4|pn] eqn:Hts; [|discriminate H].
    pose proof (track_store_wf _ _ _ _ Hts H3 Hc) as H4.
    injection H as <- <- _ _.
    assert (Hc' : bndf w (sync_load c (st_sync (get_store s4 idx)) so))
      by (apply bndf_sync_load; [exact Hc|apply get_store_wf, H4]).
    split; [apply atomic_store_from_wf; [exact H4|exact Hc'|exact Hr|apply get_store_wf, H4]|].
    split; [exact Hc'|]. split; [apply sync_load_keeps|apply sync_load_length].
  - injection H as <- <- _ _. split; [exact H3|].
    split; [apply bndf_sync_load; [exact Hc|apply get_store_wf, H3]|].
    split; [apply sync_load_keeps|apply sync_load_length].
Qed.

Lemma fence_acq_atomic_wf w s me : atomic_wf w s ->
  forall c, bndf w c -> bndf w (fence_acq_atomic s me c).
Proof.
  intros Hs. unfold fence_acq_atomic. induction (stores_order (at_cnt s)) as [|i l IH]; intros c Hc;
    cbn [fold_left]; [exact Hc|].
  apply IH. destruct (is_read_by_current _ _); [|exact Hc].
  apply bndf_join; [exact Hc|apply get_store_wf, Hs].
Qed.

Lemma fence_acq_atomic_length s me : forall c, length c <= length (fence_acq_atomic s me c).
Proof.
  unfold fence_acq_atomic. induction (stores_order (at_cnt s)) as [|i l IH]; intros c;
    cbn [fold_left]; [lia|].
  eapply Nat.le_trans; [|apply IH]. destruct (is_read_by_current _ _); [|lia].
  rewrite vv_join_length. lia.
Qed.

(* ---- cells ---- *)
Definition cell_wf (w : nat -> nat) (s : cell_state) : Prop := bndf w (ce_read s) /\ bndf w (ce_write s).

Lemma cell_track_read_wf w s c s1 :
  cell_track_read s c = inl s1 -> cell_wf w s -> bndf w c -> cell_wf w s1.
Proof.
  unfold cell_track_read. intros H [H1 H2] Hc. destruct (vv_ahead c _); [discriminate H|].
  injection H as <-. split; cbn; auto using bndf_join.
Qed.

Lemma cell_track_write_wf w s c s1 :
  cell_track_write s c = inl s1 -> cell_wf w s -> bndf w c -> cell_wf w s1.
Proof.
  unfold cell_track_write. intros H [H1 H2] Hc. destruct (vv_ahead c _); [discriminate H|].
  destruct (vv_ahead c _); [discriminate H|].
  injection H as <-. split; cbn; auto using bndf_join.
Qed.

(* ================================================================== *)
(* 2. The invariant                                                    *)
(* ================================================================== *)

Definition own (e : exec) (u : nat) : nat := vv_get (caus_of e u) u.

Definition thread_wf (w : nat -> nat) (t : thread) : Prop :=
  bndf w (t_caus t) /\ bndf w (t_rel t) /\ MAX_THREADS <= length (t_caus t).

Definition obj_wf (w : nat -> nat) (o : object) : Prop :=
  match o with
  | OMutex s => bndf w (mx_sync s)
  | ORwLock s => bndf w (rw_sync s)
  | ONotify s => bndf w (nt_sync s)
  | OArc s => bndf w (arc_sync s)
  | OChannel s => bndf w (ch_sender_sync s) /\ Forall (bndf w) (ch_recv_sync s)
  | OAtomic s => atomic_wf w s
  | OCell s => cell_wf w s
  | OCondvar _ | OAlloc _ => True
  end.

Definition lazy_wf (w : nat -> nat) (l : option (list (nat * (nat * vv)))) : Prop :=
  match l with
  | None => True
  | Some lz => Forall (fun x => bndf w (snd (snd x))) lz
  end.

Definition CWw (w : nat -> nat) (e : exec) : Prop :=
  (forall i t, nth_error (e_threads e) i = Some t -> thread_wf w t) /\
  (forall i o, nth_error (e_objects e) i = Some o -> obj_wf w o) /\
  bndf w (e_seqcst e) /\ lazy_wf w (e_lazy e).

Definition clock_wf (e : exec) : Prop := CWw (own e) e.

Lemma obj_wf_mono w w' o : (forall u, w u <= w' u) -> obj_wf w o -> obj_wf w' o.
Proof.
  intros Hw. destruct o; cbn [obj_wf]; eauto using bndf_mono, atomic_wf_mono.
  - intros [H1 H2]. split; [eauto using bndf_mono|].
    eapply Forall_impl; [|exact H2]. intros v. apply bndf_mono, Hw.
  - intros [H1 H2]. split; eauto using bndf_mono.
Qed.

Lemma thread_wf_mono w w' t : (forall u, w u <= w' u) -> thread_wf w t -> thread_wf w' t.
Proof. intros Hw (H1 & H2 & H3). repeat split; eauto using bndf_mono. Qed.

Lemma CWw_mono w w' e : (forall u, w u <= w' u) -> CWw w e -> CWw w' e.
Proof.
  intros Hw (Ht & Ho & Hs & Hl). split; [|split; [|split]].
  - intros i t Hi. destruct (Ht i t Hi) as (H1 & H2 & H3). repeat split; eauto using bndf_mono.
  - intros i o Hi. eapply obj_wf_mono; [exact Hw|eauto].
  - eauto using bndf_mono.
  - unfold lazy_wf in *. destruct (e_lazy e) as [lz|]; [|exact I].
    eapply Forall_impl; [|exact Hl]. intros x. apply bndf_mono, Hw.
Qed.

(* ---- reading the invariant ---- *)
Lemma CWw_caus_of w e j : CWw w e -> bndf w (caus_of e j).
Proof.
  intros (Ht & _). unfold caus_of, get_thread. destruct (nth_error (e_threads e) j) as [t|] eqn:Hj;
    [exact (proj1 (Ht j t Hj))|apply bndf_new].
Qed.

Lemma CWw_rel_of w e j : CWw w e -> bndf w (rel_of e j).
Proof.
  intros (Ht & _). unfold rel_of, get_thread. destruct (nth_error (e_threads e) j) as [t|] eqn:Hj;
    [exact (proj1 (proj2 (Ht j t Hj)))|apply bndf_new].
Qed.

Lemma CWw_seqcst w e : CWw w e -> bndf w (e_seqcst e).
Proof. intros (_ & _ & H & _). exact H. Qed.

Lemma CWw_thread w e j t : CWw w e -> get_thread e j = Some t -> bndf w (t_caus t) /\ bndf w (t_rel t).
Proof. intros (Ht & _) Hj. destruct (Ht j t Hj) as (H1 & H2 & _). auto. Qed.

(* the views of an object: [get_X e i = Some s] gives the entry through
   SyncFacts.get_X_nth, and obj_wf of the entry computes to the bound on its views *)
Lemma CWw_object w e i o : CWw w e -> nth_error (e_objects e) i = Some o -> obj_wf w o.
Proof. intros (_ & Ho & _) Hi. exact (Ho i o Hi). Qed.

Lemma fence_acq_wf w e me : CWw w e -> forall c, bndf w c -> bndf w (fence_acq (e_objects e) me c).
Proof.
  intros (_ & Ho & _). unfold fence_acq.
  assert (Hall : Forall (obj_wf w) (e_objects e)).
  { rewrite Forall_forall. intros o Hin. destruct (In_nth_error _ _ Hin) as (i & Hi). eauto. }
  clear Ho. induction Hall as [|o l Ho _ IH]; intros c Hc; cbn [fold_left]; [exact Hc|].
  apply IH. destruct o; try exact Hc. apply fence_acq_atomic_wf; [exact Ho|exact Hc].
Qed.

Lemma fence_acq_length objs me : forall c, length c <= length (fence_acq objs me c).
Proof.
  unfold fence_acq. induction objs as [|o l IH]; intros c; cbn [fold_left]; [lia|].
  eapply Nat.le_trans; [|apply IH]. destruct o; try lia. apply fence_acq_atomic_length.
Qed.

(* the requested reading of the invariant *)
Lemma clock_wf_caus e t u : clock_wf e -> vv_get (caus_of e t) u <= vv_get (caus_of e u) u.
Proof. intros H. exact (CWw_caus_of _ _ t H u). Qed.

Lemma own_absent e u : length (e_threads e) <= u -> own e u = 0.
Proof.
  intros Hu. unfold own, caus_of, get_thread.
  apply nth_error_None in Hu. rewrite Hu. apply vv_new_get.
Qed.

Lemma clock_wf_absent e t u :
  clock_wf e -> length (e_threads e) <= u -> vv_get (caus_of e t) u = 0.
Proof. intros H Hu. pose proof (clock_wf_caus e t u H) as Hle. fold (own e u) in Hle. rewrite own_absent in Hle by exact Hu. lia. Qed.

Lemma clock_wf_rel e t u : clock_wf e -> vv_get (rel_of e t) u <= vv_get (caus_of e u) u.
Proof. intros H. exact (CWw_rel_of _ _ t H u). Qed.

Lemma clock_wf_seqcst e u : clock_wf e -> vv_get (e_seqcst e) u <= vv_get (caus_of e u) u.
Proof. intros H. exact (CWw_seqcst _ _ H u). Qed.

Lemma clock_wf_object e i o : clock_wf e -> nth_error (e_objects e) i = Some o -> obj_wf (own e) o.
Proof. apply CWw_object. Qed.

(* ================================================================== *)
(* 3. The frame, continuation style                                    *)
(* ================================================================== *)

Definition ck (e e' : exec) : Prop := clock_wf e -> clock_wf e'.

Lemma ck_refl e : ck e e.
Proof. intros H. exact H. Qed.
Lemma ck_trans e1 e2 e3 : ck e1 e2 -> ck e2 e3 -> ck e1 e3.
Proof. unfold ck. auto. Qed.
Lemma ck_k e0 e e' : ck e e' -> ck e0 e -> ck e0 e'.
Proof. unfold ck. auto. Qed.

Lemma ck_same e e' :
  e_threads e' = e_threads e -> e_objects e' = e_objects e ->
  e_seqcst e' = e_seqcst e -> e_lazy e' = e_lazy e -> ck e e'.
Proof.
  intros Ht Ho Hs Hl. unfold ck, clock_wf, CWw, own, caus_of, get_thread.
  rewrite Ht, Ho, Hs, Hl. auto.
Qed.

Lemma ck_same_k e0 e e' :
  e_threads e' = e_threads e -> e_objects e' = e_objects e ->
  e_seqcst e' = e_seqcst e -> e_lazy e' = e_lazy e -> ck e0 e -> ck e0 e'.
Proof. intros H1 H2 H3 H4. apply ck_k, ck_same; assumption. Qed.

(* the general step: new views bounded by the new own, own does not decrease *)
Lemma clock_wf_step e e' :
  clock_wf e -> (forall u, own e u <= own e' u) ->
  (forall i t', nth_error (e_threads e') i = Some t' -> thread_wf (own e') t') ->
  (forall i o, nth_error (e_objects e') i = Some o ->
     obj_wf (own e') o \/ exists j, nth_error (e_objects e) j = Some o) ->
  (bndf (own e') (e_seqcst e') \/ e_seqcst e' = e_seqcst e) ->
  (lazy_wf (own e') (e_lazy e') \/ e_lazy e' = e_lazy e) ->
  clock_wf e'.
Proof.
  intros (Ht & Ho & Hs & Hl) Hown Ht' Ho' Hs' Hl'. split; [exact Ht'|]. split; [|split].
  - intros i o Hi. destruct (Ho' i o Hi) as [H|(j & Hj)]; [exact H|].
    eapply obj_wf_mono; [exact Hown|eauto].
  - destruct Hs' as [H| ->]; [exact H|eauto using bndf_mono].
  - destruct Hl' as [H| ->]; [exact H|].
    unfold lazy_wf in *. destruct (e_lazy e) as [lz|]; [|exact I].
    eapply Forall_impl; [|exact Hl]. intros x. apply bndf_mono, Hown.
Qed.

(* ---- threads: updates that do not change the own components ---- *)
Lemma ck_set_threads_k e0 e ths :
  (clock_wf e ->
     length ths = length (e_threads e) /\
     forall j t t', nth_error (e_threads e) j = Some t -> nth_error ths j = Some t' ->
       vle (t_caus t) (t_caus t') /\ length (t_caus t) <= length (t_caus t') /\
       bndf (own e) (t_caus t') /\ bndf (own e) (t_rel t')) ->
  ck e0 e -> ck e0 (ex_set_threads e ths).
Proof.
  intros Hf. apply ck_k. intros Hcw. destruct (Hf Hcw) as [Hlen Hj].
  assert (Hown : forall u, own (ex_set_threads e ths) u = own e u).
  { intros u. unfold own, caus_of, get_thread. cbn [ex_set_threads e_threads].
    destruct (nth_error (e_threads e) u) as [t|] eqn:Hu.
    - destruct (nth_error ths u) as [t'|] eqn:Hu'.
      + destruct (Hj u t t' Hu Hu') as (Hle & _ & Hb & _).
        specialize (Hle u). specialize (Hb u). unfold own, caus_of, get_thread in Hb.
        rewrite Hu in Hb. lia.
      + apply nth_error_None in Hu'. assert (u < length (e_threads e)) by (apply nth_error_Some; congruence). lia.
    - destruct (nth_error ths u) as [t'|] eqn:Hu'; [|reflexivity].
      apply nth_error_None in Hu. assert (u < length ths) by (apply nth_error_Some; congruence). lia. }
  apply (clock_wf_step e); try (right; reflexivity); [exact Hcw|intros u; rewrite Hown; lia| |].
  - intros i t' Hi. cbn [ex_set_threads e_threads] in Hi.
    destruct (nth_error (e_threads e) i) as [t|] eqn:Hi0.
    + destruct (Hj i t t' Hi0 Hi) as (_ & Hl & Hb1 & Hb2).
      destruct Hcw as (Ht & _). destruct (Ht i t Hi0) as (_ & _ & Hmax).
      apply (thread_wf_mono (own e)); [intros u; rewrite Hown; lia|]. repeat split; [exact Hb1|exact Hb2|lia].
    + apply nth_error_None in Hi0. assert (i < length ths) by (apply nth_error_Some; congruence). lia.
  - intros i o Hi. right. exists i. exact Hi.
Qed.

Definition tstep (e : exec) (t t' : thread) : Prop :=
  (t_caus t' = t_caus t \/
   exists c, t_caus t' = vv_join (t_caus t) c /\ forall w, CWw w e -> bndf w c) /\
  (t_rel t' = t_rel t \/ t_rel t' = t_caus t').

Lemma tstep_refl e t : tstep e t t.
Proof. split; left; reflexivity. Qed.

Lemma tstep_ok e j t t' :
  clock_wf e -> nth_error (e_threads e) j = Some t -> tstep e t t' ->
  vle (t_caus t) (t_caus t') /\ length (t_caus t) <= length (t_caus t') /\
  bndf (own e) (t_caus t') /\ bndf (own e) (t_rel t').
Proof.
  intros Hcw Hj [Hc Hr]. destruct (proj1 Hcw j t Hj) as (Hb1 & Hb2 & _).
  assert (Hc' : vle (t_caus t) (t_caus t') /\ length (t_caus t) <= length (t_caus t') /\
                bndf (own e) (t_caus t')).
  { destruct Hc as [->|(c & -> & Hbc)].
    - split; [apply vle_refl|]. split; [lia|exact Hb1].
    - split; [apply vle_join_l|]. split; [rewrite vv_join_length; lia|].
      apply bndf_join; [exact Hb1|apply Hbc, Hcw]. }
  destruct Hc' as (H1 & H2 & H3). repeat split; try assumption.
  destruct Hr as [->| ->]; assumption.
Qed.

Lemma ck_upd_thread_k e0 e i f :
  (forall t, tstep e t (f t)) -> ck e0 e -> ck e0 (upd_thread e i f).
Proof.
  intros Hf. apply ck_set_threads_k. intros Hcw. split; [apply list_upd_length|].
  intros j t t' Hj Hj'. destruct (Nat.eq_dec i j) as [->|Hne].
  - rewrite nth_error_list_upd_same, Hj in Hj'. cbn [option_map] in Hj'. injection Hj' as <-.
    eapply tstep_ok; [exact Hcw|exact Hj|apply Hf].
  - rewrite nth_error_list_upd_other in Hj' by exact Hne.
    assert (t' = t) by congruence. subst t'. eapply tstep_ok; [exact Hcw|exact Hj|apply tstep_refl].
Qed.

Lemma ck_mapi_k e0 e g :
  (forall id t, tstep e t (g id t)) -> ck e0 e -> ck e0 (ex_set_threads e (mapi g (e_threads e))).
Proof.
  intros Hg. apply ck_set_threads_k. intros Hcw. split; [apply mapi_from_length|].
  intros j t t' Hj Hj'. rewrite nth_error_mapi, Hj in Hj'. cbn [option_map] in Hj'. injection Hj' as <-.
  eapply tstep_ok; [exact Hcw|exact Hj|apply Hg].
Qed.

Lemma ck_map_others_k e0 e me p f :
  (forall t, tstep e t (f t)) -> ck e0 e -> ck e0 (map_others e me p f).
Proof.
  intros Hf. unfold map_others. apply ck_mapi_k. intros id t.
  destruct (negb (Nat.eqb id me) && p t); [apply Hf|apply tstep_refl].
Qed.

(* ---- threads: the clock of one thread is replaced ---- *)
Lemma set_caus_absent e me v : get_thread e me = None -> e_threads (set_caus e me v) = e_threads e.
Proof.
  intros H. unfold set_caus, upd_thread. cbn [ex_set_threads e_threads]. unfold list_upd.
  unfold get_thread in H. rewrite H. reflexivity.
Qed.

(* one entry of the thread table is replaced or added (n = the length): the
   own component of n may grow, the other components of its clock are bounded *)
Lemma ck_thread_at_k e0 e ths n nt :
  (forall j, j <> n -> nth_error ths j = nth_error (e_threads e) j) ->
  nth_error ths n = Some nt ->
  (clock_wf e ->
     own e n <= vv_get (t_caus nt) n /\
     (forall u, u <> n -> vv_get (t_caus nt) u <= own e u) /\
     bndf (own e) (t_rel nt) /\ MAX_THREADS <= length (t_caus nt)) ->
  ck e0 e -> ck e0 (ex_set_threads e ths).
Proof.
  intros Hoth Hn Hf. apply ck_k. intros Hcw. destruct (Hf Hcw) as (Hge & Hle & Hr & Hmax).
  assert (Hown_o : forall u, u <> n -> own (ex_set_threads e ths) u = own e u).
  { intros u Hu. unfold own, caus_of, get_thread. cbn [ex_set_threads e_threads].
    rewrite (Hoth u Hu). reflexivity. }
  assert (Hown_n : own (ex_set_threads e ths) n = vv_get (t_caus nt) n).
  { unfold own, caus_of, get_thread. cbn [ex_set_threads e_threads]. rewrite Hn. reflexivity. }
  assert (Hown : forall u, own e u <= own (ex_set_threads e ths) u).
  { intros u. destruct (Nat.eq_dec u n) as [->|Hu]; [rewrite Hown_n; exact Hge|].
    rewrite Hown_o by exact Hu. lia. }
  apply (clock_wf_step e); try (right; reflexivity); [exact Hcw|exact Hown| |].
  - intros j t' Hj. cbn [ex_set_threads e_threads] in Hj. destruct (Nat.eq_dec j n) as [->|Hne].
    + rewrite Hn in Hj. injection Hj as <-. split; [|split; [|exact Hmax]].
      * intros u. destruct (Nat.eq_dec u n) as [->|Hu]; [rewrite Hown_n; lia|].
        rewrite Hown_o by exact Hu. apply Hle, Hu.
      * eapply bndf_mono; [exact Hown|exact Hr].
    + rewrite (Hoth j Hne) in Hj.
      apply (thread_wf_mono (own e)); [exact Hown|exact (proj1 Hcw j t' Hj)].
  - intros i o Hi. right. exists i. exact Hi.
Qed.

Lemma ck_set_caus_gen_k e0 e me v :
  (clock_wf e -> vle (caus_of e me) v /\ length (caus_of e me) <= length v /\
                 forall u, u <> me -> vv_get v u <= own e u) ->
  ck e0 e -> ck e0 (set_caus e me v).
Proof.
  intros Hf H0. destruct (get_thread e me) as [t|] eqn:Hme.
  2:{ revert H0. apply ck_same_k; try reflexivity. apply set_caus_absent, Hme. }
  revert H0. apply (ck_thread_at_k _ _ _ me (th_set_caus t v)).
  - intros j Hj. apply nth_error_list_upd_other. congruence.
  - rewrite nth_error_list_upd_same. unfold get_thread in Hme. rewrite Hme. reflexivity.
  - intros Hcw. destruct (Hf Hcw) as (Hle & Hlen & Hoth).
    rewrite (caus_of_get_thread _ _ _ Hme) in Hle, Hlen.
    destruct (proj1 Hcw me t Hme) as (_ & Hb2 & Hmax). cbn [t_caus t_rel th_set_caus].
    split; [unfold own; rewrite (caus_of_get_thread _ _ _ Hme); apply Hle|].
    split; [exact Hoth|]. split; [exact Hb2|lia].
Qed.

(* a clock obtained from bounded views only *)
Lemma ck_set_caus_k e0 e me v :
  (forall w, CWw w e -> bndf w v) -> vle (caus_of e me) v -> length (caus_of e me) <= length v ->
  ck e0 e -> ck e0 (set_caus e me v).
Proof.
  intros Hb Hle Hlen. apply ck_set_caus_gen_k. intros Hcw. split; [exact Hle|]. split; [exact Hlen|].
  intros u _. apply (Hb _ Hcw).
Qed.

Lemma causality_inc_eq e me : causality_inc e me = set_caus e me (vv_inc (caus_of e me) me).
Proof.
  unfold causality_inc, set_caus, upd_thread, caus_of, get_thread, list_upd.
  destruct (nth_error (e_threads e) me) as [t|]; reflexivity.
Qed.

Lemma ck_causality_inc_k e0 e me : ck e0 e -> ck e0 (causality_inc e me).
Proof.
  rewrite causality_inc_eq. apply ck_set_caus_gen_k. intros Hcw.
  split; [apply vle_inc|]. split; [rewrite vv_inc_length; lia|].
  intros u Hu. rewrite vv_get_inc_other by congruence. apply (CWw_caus_of _ _ me Hcw).
Qed.

(* ---- a new thread ---- *)
Lemma vv_new_length : length vv_new = MAX_THREADS.
Proof. apply repeat_length. Qed.

Lemma ck_spawn_k e0 e nt pc :
  t_caus nt = vv_inc (vv_join vv_new pc) (length (e_threads e)) -> t_rel nt = vv_new ->
  (forall w, CWw w e -> bndf w pc) ->
  ck e0 e -> ck e0 (ex_set_threads e (e_threads e ++ [nt])).
Proof.
  intros Hc Hr Hpc. apply (ck_thread_at_k _ _ _ (length (e_threads e)) nt).
  - intros j Hj. destruct (Nat.lt_ge_cases j (length (e_threads e))) as [Hlt|Hge].
    + apply nth_error_app1, Hlt.
    + rewrite nth_error_app2 by exact Hge.
      destruct (j - length (e_threads e)) as [|d] eqn:Hd; [lia|].
      symmetry. destruct d; apply nth_error_None; exact Hge.
  - rewrite nth_error_app2, Nat.sub_diag by apply Nat.le_refl. reflexivity.
  - intros Hcw. rewrite (own_absent e _ (Nat.le_refl _)). split; [lia|]. split; [|split].
    + intros u Hu. rewrite Hc, vv_get_inc_other by congruence.
      rewrite vv_get_join, vv_new_get. cbn [Nat.max]. apply (Hpc _ Hcw).
    + rewrite Hr. apply bndf_new.
    + rewrite Hc, vv_inc_length, vv_join_length, vv_new_length. lia.
Qed.

(* ---- objects, seq-cst clock, lazy statics ---- *)
Lemma own_objects e e' : e_threads e' = e_threads e -> forall u, own e' u = own e u.
Proof. intros H u. unfold own, caus_of, get_thread. rewrite H. reflexivity. Qed.

Lemma ck_upd_object_f_k e0 e i f :
  (forall w o, CWw w e -> nth_error (e_objects e) i = Some o -> obj_wf w (f o)) ->
  ck e0 e -> ck e0 (upd_object e i f).
Proof.
  intros Hf. apply ck_k. intros Hcw.
  assert (Hown : forall u, own (upd_object e i f) u = own e u) by (apply own_objects; reflexivity).
  apply (clock_wf_step e); try (right; reflexivity); [exact Hcw|intros u; rewrite Hown; lia| |].
  - intros j t' Hj. apply (thread_wf_mono (own e)); [intros u; rewrite Hown; lia|].
    exact (proj1 Hcw j t' Hj).
  - intros j o Hj. rewrite e_objects_upd_object in Hj. destruct (Nat.eq_dec i j) as [->|Hne].
    + rewrite nth_error_list_upd_same in Hj. destruct (nth_error (e_objects e) j) as [o0|] eqn:Hn;
        cbn [option_map] in Hj; [|discriminate Hj]. injection Hj as <-. left.
      eapply obj_wf_mono; [|apply (Hf _ _ Hcw eq_refl)]. intros u. rewrite Hown. lia.
    + rewrite nth_error_list_upd_other in Hj by exact Hne. right. eauto.
Qed.

Lemma ck_upd_object_k e0 e i o' :
  (forall w, CWw w e -> obj_wf w o') -> ck e0 e -> ck e0 (upd_object e i (fun _ => o')).
Proof. intros Hf. apply ck_upd_object_f_k. intros w o Hw _. apply Hf, Hw. Qed.

Lemma ck_append_objects_k e0 e l :
  (forall w, CWw w e -> Forall (obj_wf w) l) ->
  ck e0 e -> ck e0 (ex_set_objects e (e_objects e ++ l)).
Proof.
  intros Hl. apply ck_k. intros Hcw.
  assert (Hown : forall u, own (ex_set_objects e (e_objects e ++ l)) u = own e u)
    by (apply own_objects; reflexivity).
  apply (clock_wf_step e); try (right; reflexivity); [exact Hcw|intros u; rewrite Hown; lia| |].
  - intros j t' Hj. apply (thread_wf_mono (own e)); [intros u; rewrite Hown; lia|].
    exact (proj1 Hcw j t' Hj).
  - intros j o Hj. change (nth_error (e_objects e ++ l) j = Some o) in Hj.
    destruct (Nat.lt_ge_cases j (length (e_objects e))) as [Hlt|Hge].
    + rewrite nth_error_app1 in Hj by exact Hlt. right. eauto.
    + rewrite nth_error_app2 in Hj by exact Hge. apply nth_error_In in Hj. left.
      pose proof (Hl _ Hcw) as Hall. rewrite Forall_forall in Hall.
      eapply obj_wf_mono; [|apply Hall, Hj]. intros u. rewrite Hown. lia.
Qed.

Lemma ck_set_seqcst_k e0 e v :
  (forall w, CWw w e -> bndf w v) -> ck e0 e -> ck e0 (ex_set_seqcst e v).
Proof.
  intros Hv. apply ck_k. intros Hcw.
  apply (clock_wf_step e); try (right; reflexivity); [exact Hcw|intros u; apply Nat.le_refl| | |].
  - intros j t' Hj. exact (proj1 Hcw j t' Hj).
  - intros j o Hj. right. eauto.
  - left. exact (Hv _ Hcw).
Qed.

Lemma ck_set_lazy_k e0 e l :
  (forall w, CWw w e -> lazy_wf w l) -> ck e0 e -> ck e0 (ex_set_lazy e l).
Proof.
  intros Hv. apply ck_k. intros Hcw.
  apply (clock_wf_step e); try (right; reflexivity); [exact Hcw|intros u; apply Nat.le_refl| | |].
  - intros j t' Hj. exact (proj1 Hcw j t' Hj).
  - intros j o Hj. right. eauto.
  - left. exact (Hv _ Hcw).
Qed.

(* ---- the helpers of Ops.v ---- *)
(* the conditions are about a variable state, so that checking them does not
   depend on the size of e *)
Lemma ck_frame_k (g : exec -> exec) e0 e :
  (forall s, e_threads (g s) = e_threads s) -> (forall s, e_objects (g s) = e_objects s) ->
  (forall s, e_seqcst (g s) = e_seqcst s) -> (forall s, e_lazy (g s) = e_lazy s) ->
  ck e0 e -> ck e0 (g e).
Proof. intros H1 H2 H3 H4. apply ck_same_k; auto. Qed.

Lemma ck_set_h_k e0 e x : ck e0 e -> ck e0 (ex_set_h e x).
Proof. apply ck_same_k; reflexivity. Qed.

(* [ck_frame_at e]: the goal is [ck e0 x], and x applies to e a helper that
   writes none of the four components *)
Ltac ck_frame_at e :=
  lazymatch goal with
  | |- ck _ ?x =>
      lazymatch eval pattern e in x with
      | ?g _ => apply (ck_frame_k g); [(intro; reflexivity)..|]
      end
  end.

Lemma ck_log_op_k e0 e me r : ck e0 e -> ck e0 (log_op e me r).
Proof. unfold log_op. destruct (get_thread e me); [apply ck_same_k; reflexivity|auto]. Qed.
Lemma ck_log_poll_k e0 e me : ck e0 e -> ck e0 (log_poll e me).
Proof. unfold log_poll. destruct (get_thread e me); [apply ck_same_k; reflexivity|auto]. Qed.

Lemma tstep_keep e t t' : t_caus t' = t_caus t -> t_rel t' = t_rel t -> tstep e t t'.
Proof. intros H1 H2. split; left; assumption. Qed.

Lemma tstep_join e t t' c :
  t_caus t' = vv_join (t_caus t) c -> t_rel t' = t_rel t -> (forall w, CWw w e -> bndf w c) ->
  tstep e t t'.
Proof. intros H1 H2 H3. split; [right; exists c; auto|left; exact H2]. Qed.

Lemma t_rel_set_unparked t : t_rel (set_unparked t) = t_rel t.
Proof.
  unfold set_unparked. destruct (is_parked t); [reflexivity|]. destruct (is_terminated t); reflexivity.
Qed.
Lemma t_rel_thread_unpark t c : t_rel (thread_unpark t c) = t_rel t.
Proof. unfold thread_unpark. rewrite t_rel_set_unparked. reflexivity. Qed.

(* [bnd Hw], where [Hw : CWw w e] says that every view stored in state e is
   bounded by w: a view built from views of e (by join, sync_load, sync_store,
   fence_acq) is bounded by w.  pre_obj, bnd2, awf and cwf below take the same Hw. *)
Ltac bnd Hw :=
  first
    [ apply bndf_new
    | exact (CWw_caus_of _ _ _ Hw)
    | exact (CWw_rel_of _ _ _ Hw)
    | exact (CWw_seqcst _ _ Hw)
    | assumption
    | match goal with
      | Hg : get_mutex _ ?m = Some ?s |- bndf _ (mx_sync ?s) => exact (CWw_object _ _ _ _ Hw (get_mutex_nth _ _ _ Hg))
      | Hg : get_rw _ ?m = Some ?s |- bndf _ (rw_sync ?s) => exact (CWw_object _ _ _ _ Hw (get_rw_nth _ _ _ Hg))
      | Hg : get_notify _ ?m = Some ?s |- bndf _ (nt_sync ?s) => exact (CWw_object _ _ _ _ Hw (get_notify_nth _ _ _ Hg))
      | Hg : get_arc _ ?m = Some ?s |- bndf _ (arc_sync ?s) => exact (CWw_object _ _ _ _ Hw (get_arc_nth _ _ _ Hg))
      | Hg : get_chan _ ?m = Some ?s |- bndf _ (ch_sender_sync ?s) =>
          exact (proj1 (CWw_object _ _ _ _ Hw (get_chan_nth _ _ _ Hg)))
      | Ht : get_thread _ ?j = Some ?t |- bndf _ (t_caus ?t) => exact (proj1 (CWw_thread _ _ _ _ Hw Ht))
      | Ht : get_thread _ ?j = Some ?t |- bndf _ (t_rel ?t) => exact (proj2 (CWw_thread _ _ _ _ Hw Ht))
      end
    | match goal with
      | |- bndf _ (sync_load _ _ _) => apply bndf_sync_load; bnd Hw
      | |- bndf _ (sync_store _ _ _ _) => apply bndf_sync_store; bnd Hw
      | |- bndf _ (vv_join _ _) => apply bndf_join; bnd Hw
      | |- bndf _ (fence_acq _ _ _) => apply (fence_acq_wf _ _ _ Hw); bnd Hw
      end ].

Ltac bnd_side :=
  let w := fresh "w" in
  let Hw := fresh "Hw" in
  intros w Hw; bnd Hw.

Ltac tstep_tac :=
  intros; cbv beta;
  repeat match goal with
         | |- context [match ?x with _ => _ end] => destruct x
         end;
  first [ apply tstep_refl
        | apply tstep_keep;
          [first [reflexivity|apply t_caus_set_unparked]|first [reflexivity|apply t_rel_set_unparked]]
        | eapply tstep_join;
          [first [reflexivity|apply t_caus_thread_unpark]
          |first [reflexivity|apply t_rel_thread_unpark]
          |bnd_side]
        | split; [left; reflexivity|right; reflexivity] ].

Lemma ck_push_cont_k e0 e me ms : ck e0 e -> ck e0 (push_cont e me ms).
Proof. apply ck_upd_thread_k. tstep_tac. Qed.

Lemma ck_threads_unpark_k e0 e me id : ck e0 e -> ck e0 (threads_unpark e me id).
Proof. unfold threads_unpark. destruct (Nat.eqb id me); apply ck_upd_thread_k; tstep_tac. Qed.

Lemma ck_fold_unpark_k me l : forall e0 e,
  ck e0 e -> ck e0 (fold_left (fun e t => threads_unpark e me t) l e).
Proof.
  induction l as [|x l IH]; intros e0 e H; cbn [fold_left]; [exact H|].
  apply IH, ck_threads_unpark_k, H.
Qed.

Lemma obj_wf_set_last_access w o act tid pid v : obj_wf w o -> obj_wf w (set_last_access o act tid pid v).
Proof. destruct o; cbn [set_last_access obj_wf]; try (intros H; exact H); destruct act; intros H; exact H. Qed.

Lemma schedule_ck_k e0 e : ck e0 e -> ck e0 (res_exec (fst (schedule e))).
Proof.
  apply (schedule_ind (ck e0)).
  - intros e1 p. apply ck_same_k; reflexivity.
  - intros e1 a. apply ck_same_k; reflexivity.
  - intros e1 nx dv. apply ck_upd_thread_k. tstep_tac.
  - intros e1 i act tid pid dv. apply ck_upd_object_f_k.
    intros w o' Hw Ho'. apply obj_wf_set_last_access. destruct Hw as (_ & Ho & _). exact (Ho _ _ Ho').
  - intros e1 nx. unfold reactivate. apply ck_mapi_k. tstep_tac.
Qed.

Lemma schedule_ck e : ck e (res_exec (fst (schedule e))).
Proof. apply schedule_ck_k, ck_refl. Qed.

(* side conditions about the object written *)
Ltac obj_side :=
  let w := fresh "w" in
  let Hw := fresh "Hw" in
  intros w Hw; cbn [obj_wf mx_sync rw_sync nt_sync arc_sync ch_sender_sync ch_recv_sync nt_set arc_set];
  first [ exact I | bnd Hw ].

Lemma set_caus_upd_object e i f me v :
  set_caus (upd_object e i f) me v = upd_object (set_caus e me v) i f.
Proof. reflexivity. Qed.

Lemma release_lock_ck_k e0 e me m : ck e0 e -> ck e0 (release_lock e me m).
Proof.
  intros H. unfold release_lock. destruct (get_mutex e m) as [s|] eqn:Hg; [|exact H]. cbv zeta.
  match goal with |- ck _ (match e_active ?E with _ => _ end) =>
    assert (H1 : ck e0 E) by (apply ck_upd_object_k; [obj_side|exact H]) end.
  destruct (e_active _); [|exact H1].
  apply ck_map_others_k; [tstep_tac|]. apply ck_upd_object_k; [|exact H1].
  intros w Hw. cbn [obj_wf mx_sync]. apply bndf_sync_store; [|bnd Hw|bnd Hw].
  destruct Hw as (_ & Ho & _). apply get_mutex_nth in Hg.
  assert (Hx : nth_error (e_objects (upd_object e m (fun _ => OMutex (mkMutex (mx_seqcst s) None (mx_last s) (mx_sync s))))) m
               = Some (OMutex (mkMutex (mx_seqcst s) None (mx_last s) (mx_sync s)))).
  { rewrite e_objects_upd_object, nth_error_list_upd_same, Hg. reflexivity. }
  exact (Ho _ _ Hx).
Qed.

Lemma choose_store_same e seed :
  e_threads (fst (choose_store e seed)) = e_threads e /\
  e_objects (fst (choose_store e seed)) = e_objects e /\
  e_seqcst (fst (choose_store e seed)) = e_seqcst e /\
  e_lazy (fst (choose_store e seed)) = e_lazy e.
Proof.
  unfold choose_store.
  repeat match goal with
         | |- context [match ?x with _ => _ end] =>
             lazymatch x with
             | context [match _ with _ => _ end] => fail
             | _ => destruct x
             end
         end; cbn [fst]; auto.
Qed.

Lemma choose_store_ck e seed : ck e (fst (choose_store e seed)).
Proof. destruct (choose_store_same e seed) as (H1 & H2 & H3 & H4). apply ck_same; assumption. Qed.

(* ---- atomic accesses ---- *)
Lemma CWw_set_caus_me w e me t v :
  get_thread e me = Some t -> CWw w (set_caus e me v) -> bndf w v.
Proof.
  intros Ht (Hth & _). unfold get_thread in Ht.
  assert (Hi : nth_error (e_threads (set_caus e me v)) me = Some (th_set_caus t v)).
  { unfold set_caus. rewrite e_threads_upd_thread, nth_error_list_upd_same, Ht. reflexivity. }
  exact (proj1 (Hth _ _ Hi)).
Qed.

(* an atomic access writes the atomic and the clock of the accessing thread:
   enough that the new clock extends the old one and that both results are
   bounded whenever the old atomic and the thread's two clocks are *)
Lemma atomic_core_ck E E1 me a s t s' c' :
  get_atomic E a = Some s -> get_thread E me = Some t ->
  e_threads E1 = e_threads E -> e_objects E1 = e_objects E ->
  e_seqcst E1 = e_seqcst E -> e_lazy E1 = e_lazy E ->
  vle (t_caus t) c' ->
  (forall w, atomic_wf w s -> bndf w (t_caus t) -> bndf w (t_rel t) ->
     atomic_wf w s' /\ bndf w c' /\ length (t_caus t) <= length c') ->
  ck E (set_caus (upd_object E1 a (fun _ => OAtomic s')) me c').
Proof.
  intros Hg Ht H1 H2 H3 H4 Hmono Hwf.
  assert (Ht1 : nth_error (e_threads E1) me = Some t) by (rewrite H1; exact Ht).
  assert (Hg1 : nth_error (e_objects E1) a = Some (OAtomic s))
    by (rewrite H2; apply get_atomic_nth, Hg).
  rewrite set_caus_upd_object. apply ck_upd_object_k.
  - (* the state has the new clock already: the old one is below it *)
    intros w Hw. cbn [obj_wf].
    assert (Hi : nth_error (e_threads (set_caus E1 me c')) me = Some (th_set_caus t c')).
    { unfold set_caus. rewrite e_threads_upd_thread, nth_error_list_upd_same, Ht1. reflexivity. }
    destruct (proj1 Hw _ _ Hi) as (Hb & Hr & _).
    exact (proj1 (Hwf w (CWw_object _ _ _ _ Hw Hg1) (bndf_vle _ _ _ Hmono Hb) Hr)).
  - apply ck_set_caus_gen_k; [|apply ck_same; assumption].
    intros Hcw. destruct (proj1 Hcw _ _ Ht1) as (Hb & Hr & _).
    destruct (Hwf _ (CWw_object _ _ _ _ Hcw Hg1) Hb Hr) as (_ & Hb' & Hl).
    rewrite (caus_of_get_thread _ _ _ Ht1).
    split; [exact Hmono|]. split; [exact Hl|]. intros u _. apply Hb'.
Qed.

(* ---- one micro-operation ---- *)
Lemma CWw_upd_object_inv w e i o' o :
  CWw w (upd_object e i (fun _ => o')) -> nth_error (e_objects e) i = Some o -> obj_wf w o'.
Proof.
  intros (_ & Hob & _) Hi. apply (Hob i).
  rewrite e_objects_upd_object, nth_error_list_upd_same, Hi. reflexivity.
Qed.

Lemma CWw_lazy_find w e lz f k ci sy :
  CWw w e -> e_lazy e = Some lz -> find f lz = Some (k, (ci, sy)) -> bndf w sy.
Proof.
  intros (_ & _ & _ & Hl) Hz Hf. rewrite Hz in Hl. cbn [lazy_wf] in Hl.
  apply find_some in Hf. destruct Hf as [Hin _]. rewrite Forall_forall in Hl. exact (Hl _ Hin).
Qed.

(* if the state is [upd_object e i (fun _ => o')], remember that o' is bounded *)
Ltac pre_obj Hw :=
  try match type of Hw with
      | CWw ?w (upd_object ?e ?i (fun _ => ?o')) =>
          let H := fresh "Hobj" in
          assert (H : obj_wf w o')
            by (first [ match goal with Hg : get_mutex e i = Some _ |- _ =>
                          exact (CWw_upd_object_inv _ _ _ _ _ Hw (get_mutex_nth _ _ _ Hg)) end
                      | match goal with Hg : get_rw e i = Some _ |- _ =>
                          exact (CWw_upd_object_inv _ _ _ _ _ Hw (get_rw_nth _ _ _ Hg)) end
                      | match goal with Hg : get_notify e i = Some _ |- _ =>
                          exact (CWw_upd_object_inv _ _ _ _ _ Hw (get_notify_nth _ _ _ Hg)) end
                      | match goal with Hg : get_arc e i = Some _ |- _ =>
                          exact (CWw_upd_object_inv _ _ _ _ _ Hw (get_arc_nth _ _ _ Hg)) end
                      | match goal with Hg : get_chan e i = Some _ |- _ =>
                          exact (CWw_upd_object_inv _ _ _ _ _ Hw (get_chan_nth _ _ _ Hg)) end ]);
          cbn [obj_wf mx_sync rw_sync nt_sync arc_sync ch_sender_sync ch_recv_sync nt_set arc_set] in H;
          try (destruct H as [? ?])
      end.

Ltac bnd2 Hw :=
  first
    [ bnd Hw
    | match goal with
      | Hl : e_lazy _ = Some ?lz, Hf : find _ ?lz = Some (_, (_, ?sy)) |- bndf _ ?sy =>
          exact (CWw_lazy_find _ _ _ _ _ _ _ Hw Hl Hf)
      end
    | match goal with
      | |- bndf _ (sync_load _ _ _) => apply bndf_sync_load; bnd2 Hw
      | |- bndf _ (sync_store _ _ _ _) => apply bndf_sync_store; bnd2 Hw
      | |- bndf _ (vv_join _ _) => apply bndf_join; bnd2 Hw
      end ].

Ltac bnd_side2 :=
  let w := fresh "w" in
  let Hw := fresh "Hw" in
  intros w Hw; pre_obj Hw; bnd2 Hw.

Ltac vle_side :=
  first [ apply sync_load_keeps | apply vle_join_l | apply fence_acq_keeps | apply vle_refl ].
Ltac len_side :=
  first [ apply sync_load_length | (rewrite vv_join_length; lia) | apply fence_acq_length | lia ].

(* atomic_wf / cell_wf of a state computed by the track functions *)
Ltac awf Hw :=
  match goal with
  | Hg : get_atomic _ ?a = Some ?s |- atomic_wf _ ?s => exact (CWw_object _ _ _ _ Hw (get_atomic_nth _ _ _ Hg))
  | H : track_store ?s ?c = inl ?s1 |- atomic_wf _ ?s1 =>
      apply (track_store_wf _ _ _ _ H); [awf Hw|bnd Hw]
  | H : track_load ?s ?c = inl ?s1 |- atomic_wf _ ?s1 =>
      apply (track_load_wf _ _ _ _ H); [awf Hw|bnd Hw]
  | H : track_unsync_load ?s ?c = inl ?s1 |- atomic_wf _ ?s1 =>
      apply (track_unsync_load_wf _ _ _ _ H); [awf Hw|bnd Hw]
  | H : track_unsync_mut ?s ?c = inl ?s1 |- atomic_wf _ ?s1 =>
      apply (track_unsync_mut_wf _ _ _ _ H); [awf Hw|bnd Hw]
  | |- atomic_wf _ (atomic_store _ _ _ _ _ _ _) =>
      unfold atomic_store; apply atomic_store_from_wf; [awf Hw|bnd Hw|bnd Hw|bnd Hw]
  | |- atomic_wf ?w (at_set_stores ?s1 (list_upd (at_stores ?s1) _ _) _) =>
      let H := fresh "Hs1" in
      assert (H : atomic_wf w s1) by awf Hw;
      apply set_stores_wf;
      [exact H|apply Forall_list_upd; [exact (proj1 H)|let x := fresh in let Hx := fresh in intros x Hx; exact Hx]]
  end.

Ltac cwf Hw :=
  first
    [ match goal with
      | Hg : get_cell _ ?u = Some ?s |- cell_wf _ ?s => exact (CWw_object _ _ _ _ Hw (get_cell_nth _ _ _ Hg))
      | H : cell_track_read ?s ?c = inl ?s1 |- cell_wf _ ?s1 =>
          apply (cell_track_read_wf _ _ _ _ H); [cwf Hw|bnd Hw]
      | H : cell_track_write ?s ?c = inl ?s1 |- cell_wf _ ?s1 =>
          apply (cell_track_write_wf _ _ _ _ H); [cwf Hw|bnd Hw]
      end ].

Ltac obj_side2 :=
  let w := fresh "w" in
  let Hw := fresh "Hw" in
  intros w Hw; cbn [obj_wf mx_sync rw_sync nt_sync arc_sync ch_sender_sync ch_recv_sync nt_set arc_set];
  first [ exact I | bnd Hw | awf Hw | cwf Hw
        | (* a send: the new view is appended to the queue *)
          match goal with
          | Hg : get_chan _ ?h = Some ?s |- _ /\ Forall _ (ch_recv_sync ?s ++ _) =>
              split; [bnd Hw|apply Forall_app; split;
                              [exact (proj2 (CWw_object _ _ _ _ Hw (get_chan_nth _ _ _ Hg)))|repeat constructor; bnd Hw]]
          end
        | (* a send to a disconnected channel: only the sender-side view moves *)
          match goal with
          | Hg : get_chan _ ?h = Some ?s |- _ /\ Forall _ (ch_recv_sync ?s) =>
              split; [bnd Hw|exact (proj2 (CWw_object _ _ _ _ Hw (get_chan_nth _ _ _ Hg)))]
          end ].

Ltac newobj_side :=
  let w := fresh "w" in
  let Hw := fresh "Hw" in
  intros w Hw; repeat constructor; cbn [obj_wf nt_sync arc_sync cell_wf cell_new ce_read ce_write];
  try bnd Hw.

Ltac lazy_side :=
  let w := fresh "w" in
  let Hw := fresh "Hw" in
  intros w Hw; cbn [lazy_wf];
  first [ exact I
        | apply Forall_app; split;
          [ match goal with Hl : e_lazy ?e0 = Some ?lz |- Forall _ ?lz =>
              let H := fresh in
              assert (H : lazy_wf w (e_lazy e0)) by exact (proj2 (proj2 (proj2 Hw)));
              rewrite Hl in H; exact H end
          | repeat constructor; cbn [snd]; bnd2 Hw ] ].

Ltac cclose_step :=
  match goal with
  | |- ck ?e ?e => apply ck_refl
  | H : ck ?E ?x |- ck _ ?x => apply (ck_trans _ E x); [|exact H]
  | |- ck _ (log_op _ _ _) => apply ck_log_op_k
  | |- ck _ (log_poll _ _) => apply ck_log_poll_k
  | |- ck _ (push_cont _ _ _) => apply ck_push_cont_k
  | |- ck _ (push_guard _ _ _ _) => apply ck_upd_thread_k; [tstep_tac|]
  | |- ck _ (drop_guard _ _ _ _) => apply ck_upd_thread_k; [tstep_tac|]
  | |- ck _ (causality_inc _ _) => apply ck_causality_inc_k
  | |- ck _ (release_lock _ _ _) => apply release_lock_ck_k
  | |- ck _ (threads_unpark _ _ _) => apply ck_threads_unpark_k
  | |- ck _ (fold_left _ _ _) => apply ck_fold_unpark_k
  | |- ck _ (ex_set_seqcst _ _) => apply ck_set_seqcst_k; [bnd_side2|]
  | |- ck _ (ex_set_lazy _ _) => apply ck_set_lazy_k; [lazy_side|]
  | |- ck _ (ex_set_objects ?e (e_objects ?e ++ _)) => apply ck_append_objects_k; [newobj_side|]
  | |- ck _ (ex_set_threads ?e (e_threads ?e ++ [_])) =>
      eapply ck_spawn_k; [reflexivity|reflexivity|bnd_side|]
  | |- ck _ (upd_object _ _ _) => apply ck_upd_object_k; [obj_side2|]
  | |- ck _ (upd_thread _ _ _) => apply ck_upd_thread_k; [tstep_tac|]
  | |- ck _ (set_caus _ _ _) => apply ck_set_caus_k; [bnd_side2|vle_side|len_side|]
  | |- ck _ (map_others _ _ _ _) => apply ck_map_others_k; [tstep_tac|]
  | |- ck _ ?x => let e := under_setter x in ck_frame_at e
  | |- ck _ ?x => let e := under_h_setter x in ck_frame_at e
  end.

(* (the two rewrites: the dead first write of a disconnected MSendPost) *)
Ltac cclose :=
  cbn [res_exec lp_exec];
  try lazymatch goal with
      | |- context [upd_object (map_others (upd_object _ _ _) _ _ _) _ _] =>
          rewrite upd_object_map_others_upd_object_const
      end;
  try lazymatch goal with
      | |- context [upd_object (upd_object _ _ _) _ _] => rewrite upd_object_upd_object_const
      end;
  repeat cclose_step.

Lemma post_acquire_ck e me m : ck e (fst (post_acquire e me m)).
Proof.
  unfold post_acquire. destruct (get_mutex e m) as [s|] eqn:Hg; [|apply ck_refl].
  destruct (is_some (mx_lock s)); cbn [fst]; cclose.
Qed.

Lemma post_acquire_read_ck e me r : ck e (fst (post_acquire_read e me r)).
Proof.
  unfold post_acquire_read. destruct (get_rw e r) as [s|] eqn:Hg; [|apply ck_refl].
  destruct (rw_lock s) as [[rs|w0]|]; cbn [fst]; cclose.
Qed.

Lemma post_acquire_write_ck e me r : ck e (fst (post_acquire_write e me r)).
Proof.
  unfold post_acquire_write. destruct (get_rw e r) as [s|] eqn:Hg; [|apply ck_refl].
  destruct (rw_lock s) as [lk0|]; cbn [fst]; cclose.
Qed.

Lemma release_read_ck e me r : ck e (res_exec (release_read e me r)).
Proof.
  unfold release_read. destruct (get_rw e r) as [s|] eqn:Hg; [|apply ck_refl]. cbv zeta.
  destruct (rw_lock s) as [[rs|w0]|]; cbn [res_exec]; try apply ck_refl.
  destruct (set_remove me rs); cclose.
Qed.

Lemma release_write_ck e me r : ck e (res_exec (release_write e me r)).
Proof.
  unfold release_write. destruct (get_rw e r) as [s|] eqn:Hg; [|apply ck_refl]. cclose.
Qed.

Lemma load_post_ck e me a o : ck e (lp_exec (load_post e me a o)).
Proof.
  unfold load_post.
  assert (H0 : ck e (causality_inc e me)) by (apply ck_causality_inc_k, ck_refl).
  revert H0. generalize (causality_inc e me). intros E H0.
  destruct (get_atomic E a) as [s|] eqn:Hg; [|exact H0].
  destruct (get_thread E me) as [t|] eqn:Ht; [|exact H0].
  destruct (choose_store_same E (match_load_to_stores s me (t_caus t) (t_last_yield t) o))
    as (H1 & H2 & H3 & H4).
  destruct (choose_store E _) as [E1 [idx|pn]]; cbn [fst] in *.
  - destruct (atomic_load s me (t_caus t) idx o) as [[[s' c'] v]|pn] eqn:Hl; cbn [lp_exec].
    + eapply ck_trans; [exact H0|].
      eapply atomic_core_ck; try eassumption; [eapply atomic_load_monotone; exact Hl|].
      intros w Hs Hc _. destruct (atomic_load_wf _ _ _ _ _ _ _ _ _ Hl Hs Hc) as (A & B & _ & D). auto.
    + eapply ck_trans; [exact H0|apply ck_same; assumption].
  - cbn [lp_exec]. eapply ck_trans; [exact H0|apply ck_same; assumption].
Qed.

Ltac ck_sched := apply schedule_ck_k.

Ltac ck_frame H t :=
  lazymatch t with
  | load_post ?e ?me ?a ?o => pose proof (load_post_ck e me a o) as H
  | post_acquire ?e ?me ?m => pose proof (post_acquire_ck e me m) as H
  | post_acquire_read ?e ?me ?m => pose proof (post_acquire_read_ck e me m) as H
  | post_acquire_write ?e ?me ?m => pose proof (post_acquire_write_ck e me m) as H
  | release_read ?e ?me ?m => pose proof (release_read_ck e me m) as H
  | release_write ?e ?me ?m => pose proof (release_write_ck e me m) as H
  | choose_store ?e ?s => pose proof (choose_store_ck e s) as H
  end.

Ltac cstep := walk_step ck_sched ck_frame.

(* MLoadPost and MFuLoadPost repeat the text of load_post: the same matches are
   split in its frame lemma and in the goal *)
Lemma load_micro_ck e me a o aw : ck e (res_exec (exec_micro e me (MLoadPost a o aw))).
Proof.
  pose proof (load_post_ck e me a o) as H. unfold load_post in H. cbn [exec_micro].
  repeat cstep; cbn [lp_exec res_exec] in *; cclose.
Qed.

Lemma fu_load_micro_ck e me a f v so fo :
  ck e (res_exec (exec_micro e me (MFuLoadPost a f v so fo))).
Proof.
  pose proof (load_post_ck e me a fo) as H. unfold load_post in H. cbn [exec_micro].
  repeat cstep; cbn [lp_exec res_exec] in *; cclose.
Qed.

Lemma rmw_micro_ck e me a k so fo : ck e (res_exec (exec_micro e me (MRmwPost a k so fo))).
Proof.
  cbn [exec_micro].
  assert (H0 : ck e (causality_inc e me)) by (apply ck_causality_inc_k, ck_refl).
  revert H0. generalize (causality_inc e me). intros E H0.
  destruct (get_atomic E a) as [s|] eqn:Hg; [|exact H0].
  destruct (get_thread E me) as [t|] eqn:Ht; [|exact H0].
  destruct (choose_store_same E (match_rmw_to_stores s)) as (H1 & H2 & H3 & H4).
  destruct (choose_store E _) as [E1 [idx|pn]]; cbn [fst] in *.
  - destruct (atomic_rmw s me (t_caus t) (t_rel t) idx so fo (rmw_fun k))
      as [[[[s' c'] prev] ok]|pn] eqn:Hl; cbn [res_exec].
    + assert (Hc : ck e (set_caus (upd_object E1 a (fun _ => OAtomic s')) me c')).
      { eapply ck_trans; [exact H0|].
        eapply atomic_core_ck; try eassumption; [eapply atomic_rmw_monotone; exact Hl|].
        intros w Hs Hc Hr.
        destruct (atomic_rmw_wf _ _ _ _ _ _ _ _ _ _ _ _ _ Hl Hs Hc Hr) as (A & B & _ & D). auto. }
      destruct k; try destruct ok; cbn [res_exec];
        repeat first [apply ck_push_cont_k|apply ck_log_op_k]; exact Hc.
    + eapply ck_trans; [exact H0|apply ck_same; assumption].
  - cbn [res_exec]. eapply ck_trans; [exact H0|apply ck_same; assumption].
Qed.

Lemma fence_micro_ck e me o : ck e (res_exec (exec_micro e me (MFence o))).
Proof.
  cbn [exec_micro].
  assert (H0 : ck e (causality_inc e me)) by (apply ck_causality_inc_k, ck_refl).
  destruct o; cbn [res_exec ord_acq ord_rel is_seq_cst]; try exact H0; apply ck_log_op_k.
  - (* Release *) cclose.
  - (* Acquire *) cclose.
  - (* AcqRel *) cclose.
  - (* SeqCst *)
    match goal with
    | |- ck _ (ex_set_seqcst (set_caus ?E me ?c) _) =>
        assert (HE : ck e E) by cclose; revert HE; generalize E; intros E1 HE
    end.
    assert (H1 : ck e (set_caus E1 me (vv_join (caus_of E1 me) (e_seqcst E1)))).
    { apply ck_set_caus_k; [bnd_side|apply vle_join_l|rewrite vv_join_length; lia|exact HE]. }
    apply ck_set_seqcst_k; [|exact H1].
    intros w Hw. apply bndf_join; [exact (CWw_seqcst _ _ Hw)|].
    destruct (get_thread E1 me) as [t|] eqn:Ht.
    + exact (CWw_set_caus_me _ _ _ _ _ Ht Hw).
    + apply bndf_join; [|exact (CWw_seqcst _ _ Hw)].
      unfold caus_of. rewrite Ht. apply bndf_new.
Qed.

Lemma recv_micro_ck e me h lg : ck e (res_exec (exec_micro e me (MRecvPost h lg))).
Proof.
  cbn [exec_micro]. destruct (get_chan e h) as [s|] eqn:Hg; [|apply ck_refl].
  destruct (ch_cnt s) as [|cnt]; [apply ck_refl|].
  destruct (ch_recv_sync s) as [|sy rest] eqn:Hq; [apply ck_refl|]. cbv zeta.
  match goal with
  | |- context [set_caus (upd_object e h ?f) me ?v] =>
      assert (H1 : ck e (set_caus (upd_object e h f) me v))
  end.
  { rewrite set_caus_upd_object. apply ck_upd_object_k.
    - intros w Hw. cbn [obj_wf ch_sender_sync ch_recv_sync].
      destruct (CWw_object _ _ _ _ Hw (get_chan_nth _ _ _ Hg)) as [Ha Hb]. rewrite Hq in Hb.
      split; [exact Ha|]. inversion Hb; assumption.
    - apply ck_set_caus_k; [|apply sync_load_keeps|apply sync_load_length|apply ck_refl].
      intros w Hw. apply bndf_sync_load; [exact (CWw_caus_of _ _ _ Hw)|].
      destruct (CWw_object _ _ _ _ Hw (get_chan_nth _ _ _ Hg)) as [_ Hb]. rewrite Hq in Hb. inversion Hb; assumption. }
  match goal with
  | |- context [if Nat.eqb cnt 0 then map_others ?E me ?p set_blocked else ?E] =>
      assert (H2 : ck e (if Nat.eqb cnt 0 then map_others E me p set_blocked else E))
        by (destruct (Nat.eqb cnt 0); [apply ck_map_others_k; [tstep_tac|exact H1]|exact H1]);
      revert H2; generalize (if Nat.eqb cnt 0 then map_others E me p set_blocked else E)
  end.
  intros E2 H2. destruct (ho_q (get_h E2 h)) as [|v q]; cbn [res_exec]; [exact H2|].
  destruct lg; [apply ck_log_op_k|]; (apply (ck_same_k _ E2); [reflexivity..|exact H2]).
Qed.

(* a nested access to one cell: two bumps of the own component, the outer
   tracking with the first clock, the inner ones with the second *)
Lemma cell_nested_micro_ck e me u k : ck e (res_exec (exec_micro e me (MCellNested u k))).
Proof.
  cbn [exec_micro].
  assert (H1 : ck e (causality_inc e me)) by (apply ck_causality_inc_k, ck_refl).
  revert H1. generalize (causality_inc e me). intros E1 H1.
  destruct (get_cell E1 u) as [s|] eqn:Hg; [|exact H1].
  destruct (ce_writing s); [exact H1|].
  destruct (negb (Nat.eqb k 0) && negb (Nat.eqb k 3) && negb (Nat.eqb (ce_reading s) 0)); [exact H1|].
  assert (Hout : forall s1,
            (if Nat.eqb k 0 || Nat.eqb k 3 then cell_track_read s (caus_of E1 me)
             else cell_track_write s (caus_of E1 me)) = inl s1 ->
            forall w, cell_wf w s -> bndf w (caus_of E1 me) -> cell_wf w s1).
  { intros s1 Ho w Hs Hc. destruct (Nat.eqb k 0 || Nat.eqb k 3);
      eauto using cell_track_read_wf, cell_track_write_wf. }
  destruct (if Nat.eqb k 0 || Nat.eqb k 3 then cell_track_read s (caus_of E1 me)
            else cell_track_write s (caus_of E1 me)) as [s1|pn] eqn:Ho; [|exact H1].
  specialize (Hout s1 eq_refl).
  assert (H2 : ck e (causality_inc E1 me)) by (apply ck_causality_inc_k, H1).
  assert (Hle : vle (caus_of E1 me) (caus_of (causality_inc E1 me) me)).
  { destruct (mono_causality_inc_k E1 E1 me (mono_refl E1)) as (_ & Hc & _). apply Hc. }
  assert (Hg2 : get_cell (causality_inc E1 me) u = Some s) by exact Hg.
  revert H2 Hle Hg2. generalize (causality_inc E1 me). intros E2 H2 Hle Hg2.
  destruct (Nat.eqb k 0); [exact H2|]. destruct (negb (Nat.eqb k 3)); [exact H2|].
  destruct (cell_track_read s1 (caus_of E2 me)) as [s2|pn] eqn:R2; [|exact H2].
  destruct (cell_track_read s2 (caus_of E2 me)) as [s3|pn] eqn:R3; [|exact H2].
  destruct (cell_track_read s3 (caus_of E2 me)) as [s4|pn] eqn:R4; [|exact H2].
  cbn [res_exec]. apply ck_log_op_k, ck_upd_object_k; [|exact H2].
  intros w Hw. cbn [obj_wf].
  pose proof (CWw_object _ _ _ _ Hw (get_cell_nth _ _ _ Hg2)) as Hs.
  pose proof (CWw_caus_of _ _ me Hw) as Hc2.
  pose proof (bndf_vle _ _ _ Hle Hc2) as Hc1.
  eapply cell_track_read_wf; [exact R4| |exact Hc2].
  eapply cell_track_read_wf; [exact R3| |exact Hc2].
  eapply cell_track_read_wf; [exact R2| |exact Hc2].
  apply Hout; assumption.
Qed.

Ltac ck_tac :=
  cbn [exec_micro]; unfold lift_path, mbind; cbv beta iota;
  repeat cstep; cclose.

(* every micro-operation keeps the invariant; also for the state carried by MFail *)
Lemma exec_micro_ck e me m : ck e (res_exec (exec_micro e me m)).
Proof.
  destruct m;
    lazymatch goal with
    | |- context [MLoadPost _ _ _] => apply load_micro_ck
    | |- context [MFuLoadPost _ _ _ _ _] => apply fu_load_micro_ck
    | |- context [MRmwPost _ _ _ _] => apply rmw_micro_ck
    | |- context [MFence _] => apply fence_micro_ck
    | |- context [MRecvPost _ _] => apply recv_micro_ck
    | |- context [MCellNested _ _] => apply cell_nested_micro_ck
    | |- _ => ck_tac
    end.
Qed.

Theorem exec_micro_clock_wf e me m :
  clock_wf e -> clock_wf (res_exec (exec_micro e me m)).
Proof. apply exec_micro_ck. Qed.

Corollary exec_micro_clock_wf_ok e me m e' :
  clock_wf e -> exec_micro e me m = MOk e' -> clock_wf e'.
Proof. intros H Hx. pose proof (exec_micro_clock_wf e me m H) as H'. rewrite Hx in H'. exact H'. Qed.

Theorem schedule_clock_wf e : clock_wf e -> clock_wf (res_exec (fst (schedule e))).
Proof. apply schedule_ck. Qed.

(* ================================================================== *)
(* 4. The initial state and whole runs                                 *)
(* ================================================================== *)

Lemma atomic_new_wf w v s : atomic_new 0 vv_new vv_new v = inl s -> atomic_wf w s.
Proof.
  unfold atomic_new. intros H.
  match type of H with match track_unsync_mut ?s0 _ with _ => _ end = _ =>
    assert (H0 : atomic_wf w s0) end.
  { repeat split; cbn; try apply bndf_new. repeat (constructor; [apply bndf_new|]). constructor. }
  destruct (track_unsync_mut _ vv_new) as [s1|pn] eqn:Ht; [|discriminate H].
  injection H as <-. unfold atomic_store. apply atomic_store_from_wf; try apply bndf_new.
  eapply track_unsync_mut_wf; [exact Ht|exact H0|apply bndf_new].
Qed.

Lemma create_object_wf w d o : create_object d vv_new vv_new = inl o -> obj_wf w o.
Proof.
  destruct d; unfold create_object; intros H.
  1: { destruct (atomic_new 0 vv_new vv_new init) as [s|pn] eqn:Ha; [|discriminate H].
       injection H as <-. unfold obj_wf. eapply atomic_new_wf; exact Ha. }
  all: injection H as <-; unfold obj_wf, cell_wf, cell_new;
    cbn [mx_sync rw_sync nt_sync arc_sync ch_sender_sync ch_recv_sync ce_read ce_write];
    repeat split; try apply bndf_new; try constructor.
Qed.

Lemma create_objects_wf w ds : forall os, create_objects ds vv_new vv_new = inl os -> Forall (obj_wf w) os.
Proof.
  induction ds as [|d ds IH]; intros os H; cbn [create_objects] in H.
  - injection H as <-. constructor.
  - destruct (create_object d vv_new vv_new) as [o|pn] eqn:Ho; [|discriminate H].
    destruct (create_objects ds vv_new vv_new) as [os'|pn]; [|discriminate H]. injection H as <-.
    constructor; [eapply create_object_wf; exact Ho|apply IH; reflexivity].
Qed.

Theorem init_clock_wf p pa : clock_wf (init_exec p pa).
Proof.
  unfold clock_wf. generalize (own (init_exec p pa)). intros w. split; [|split; [|split]].
  - intros i t Hi. unfold init_exec in Hi. cbn [e_threads] in Hi.
    destruct i as [|i]; cbn [nth_error] in Hi; [|destruct i; discriminate Hi]. injection Hi as <-.
    repeat split; try (unfold thread_new; cbn [t_caus t_rel]; apply bndf_new).
    unfold thread_new. cbn [t_caus]. rewrite vv_new_length. apply Nat.le_refl.
  - intros i o Hi. unfold init_exec in Hi. cbn [e_objects] in Hi.
    destruct (create_objects (p_decls p) vv_new vv_new) as [os|pn] eqn:Hc;
      [|destruct i; discriminate Hi].
    pose proof (create_objects_wf w _ _ Hc) as Hall. rewrite Forall_forall in Hall.
    apply Hall. eapply nth_error_In; exact Hi.
  - apply bndf_new.
  - constructor.
Qed.

Theorem run_clock_wf : forall fuel e, clock_wf e -> clock_wf (fst (run fuel e)).
Proof.
  apply run_invariant. intros e me t m rest Hi _ _ _. apply exec_micro_clock_wf.
  revert Hi. apply ck_upd_thread_k; [tstep_tac|apply ck_refl].
Qed.

Theorem iteration_clock_wf fuel p pa : clock_wf (fst (iteration fuel p pa)).
Proof. rewrite iteration_fst. apply run_clock_wf, init_clock_wf. Qed.

(* ================================================================== *)
(* 5. C2: the own component strictly increases at every tracked access *)
(* ================================================================== *)

(* the micro-operations that stamp an access: they start with rt::synchronize *)
Definition is_tracked (m : micro) : bool :=
  match m with
  | MLoadPost _ _ _ | MFuLoadPost _ _ _ _ _ | MStorePost _ _ _ | MRmwPost _ _ _ _
  | MCellRead _ | MCellWrite _ _ | MCellNested _ _ | MFence _ | MUnsyncLoad _ | MWithMut _ _ => true
  | _ => false
  end.

(* after the bump of the own component the rest of the operation only grows clocks *)
Lemma tracked_ops_from_inc e me m :
  is_tracked m = true -> mono (causality_inc e me) (res_exec (exec_micro e me m)).
Proof. intros Hm. destruct m; try discriminate Hm; mono_tac. Qed.

Lemma load_post_from_inc e me a o : mono (causality_inc e me) (lp_exec (load_post e me a o)).
Proof. unfold load_post. repeat mstep. all: mclose. Qed.

Lemma own_after_inc e me t :
  get_thread e me = Some t -> me < length (t_caus t) ->
  vv_get (caus_of (causality_inc e me) me) me = S (vv_get (caus_of e me) me).
Proof.
  intros Ht Hlt. rewrite causality_inc_eq. unfold caus_of at 1.
  unfold set_caus. rewrite get_thread_upd_thread_same, Ht. cbn [option_map t_caus th_set_caus].
  rewrite (caus_of_get_thread _ _ _ Ht). apply vv_get_inc_same. exact Hlt.
Qed.

Lemma own_grown_from_inc e me t e' :
  get_thread e me = Some t -> me < length (t_caus t) -> mono (causality_inc e me) e' ->
  vv_get (caus_of e me) me < vv_get (caus_of e' me) me.
Proof.
  intros Ht Hlt (_ & Hc & _). specialize (Hc me me).
  rewrite (own_after_inc e me t Ht Hlt) in Hc. lia.
Qed.

Theorem own_component_increases e me m e' t :
  is_tracked m = true -> exec_micro e me m = MOk e' ->
  get_thread e me = Some t -> me < length (t_caus t) ->
  vv_get (caus_of e me) me < vv_get (caus_of e' me) me.
Proof.
  intros Hm Hx Ht Hlt. pose proof (tracked_ops_from_inc e me m Hm) as Hmono. rewrite Hx in Hmono.
  exact (own_grown_from_inc e me t e' Ht Hlt Hmono).
Qed.

(* in the states of the model every clock has MAX_THREADS components *)
Corollary own_component_increases_wf e me m e' :
  clock_wf e -> is_tracked m = true -> exec_micro e me m = MOk e' ->
  me < length (e_threads e) -> me < MAX_THREADS ->
  vv_get (caus_of e me) me < vv_get (caus_of e' me) me.
Proof.
  intros Hcw Hm Hx Hme Hmax. destruct (nth_error (e_threads e) me) as [t|] eqn:Ht;
    [|apply nth_error_None in Ht; lia].
  eapply own_component_increases; [exact Hm|exact Hx|exact Ht|].
  destruct (proj1 Hcw me t Ht) as (_ & _ & Hlen). lia.
Qed.

(* the polls of block_on load through load_post: the same *)
Theorem own_component_increases_load_post e me a o e' x t :
  load_post e me a o = inl (e', x) ->
  get_thread e me = Some t -> me < length (t_caus t) ->
  vv_get (caus_of e me) me < vv_get (caus_of e' me) me.
Proof.
  intros Hx Ht Hlt. pose proof (load_post_from_inc e me a o) as Hmono. rewrite Hx in Hmono.
  exact (own_grown_from_inc e me t e' Ht Hlt Hmono).
Qed.

(* the unsynchronised accesses (unsync_load, with_mut) bump the clock as well since loom fix D23:
   they are covered by is_tracked / own_component_increases above *)

(* ================================================================== *)
(* 6. C3: the stamp of an access is the own component                  *)
(* ================================================================== *)

Lemma cell_track_write_result s c s1 :
  cell_track_write s c = inl s1 ->
  ce_write s1 = vv_join (ce_write s) c /\ ce_read s1 = ce_read s /\
  vle (ce_write s) c /\ vle (ce_read s) c.
Proof.
  unfold cell_track_write. intros H.
  destruct (vv_ahead c (ce_write s)) eqn:H1; [discriminate H|].
  destruct (vv_ahead c (ce_read s)) eqn:H2; [discriminate H|].
  injection H as <-. apply vv_ahead_none in H1. apply vv_ahead_none in H2. auto.
Qed.

Lemma cell_track_read_result s c s1 :
  cell_track_read s c = inl s1 ->
  ce_read s1 = vv_join (ce_read s) c /\ ce_write s1 = ce_write s /\ vle (ce_write s) c.
Proof.
  unfold cell_track_read. intros H.
  destruct (vv_ahead c (ce_write s)) eqn:H1; [discriminate H|].
  injection H as <-. apply vv_ahead_none in H1. auto.
Qed.

Lemma clock_wf_inc e me : clock_wf e -> clock_wf (causality_inc e me).
Proof. apply ck_causality_inc_k, ck_refl. Qed.

Lemma max_stamp a c : a <= c -> Nat.max (Nat.max a c) c = c.
Proof. lia. Qed.

Lemma written_object e e' i o o' :
  nth_error (e_objects e) i = Some o -> e_objects e' = list_upd (e_objects e) i (fun _ => o') ->
  nth_error (e_objects e') i = Some o'.
Proof. intros Hi ->. rewrite nth_error_list_upd_same, Hi. reflexivity. Qed.

(* a write to a cell by thread [me] is recorded in the cell's write clock with
   the stamp vv_get (caus_of e' me) me: me's own component at that moment,
   which is one more than before the access *)
Theorem cell_write_stamp e me u v e' :
  clock_wf e -> exec_micro e me (MCellWrite u v) = MOk e' ->
  exists s', get_cell e' u = Some s' /\
             vv_get (ce_write s') me = vv_get (caus_of e' me) me /\
             caus_of e' me = caus_of (causality_inc e me) me.
Proof.
  intros Hcw Hx. cbn [exec_micro] in Hx. pose proof (clock_wf_inc e me Hcw) as HE.
  revert Hx HE. generalize (causality_inc e me). intros E Hx HE.
  destruct (get_cell E u) as [s|] eqn:Hg; [|discriminate Hx].
  destruct (negb (Nat.eqb (ce_reading s) 0)); [discriminate Hx|].
  destruct (ce_writing s); [discriminate Hx|].
  destruct (cell_track_write s (caus_of E me)) as [s1|pn] eqn:H1; [|discriminate Hx].
  destruct (cell_track_write s1 (caus_of E me)) as [s2|pn] eqn:H2; [|discriminate Hx].
  injection Hx as <-. exists s2.
  assert (Hc : caus_of (log_op (upd_hobj (upd_object E u (fun _ => OCell s2)) u
                                  (fun ho => ho_set_cell ho v)) me RUnit) me = caus_of E me)
    by exact (caus_of_log_op _ _ _ _).
  split; [|split; [|exact Hc]].
  - unfold get_cell. rewrite e_objects_log_op.
    erewrite written_object; [| exact (get_cell_nth _ _ _ Hg) | reflexivity]. reflexivity.
  - rewrite Hc. destruct (cell_track_write_result _ _ _ H1) as (Hw1 & _).
    destruct (cell_track_write_result _ _ _ H2) as (Hw2 & _).
    rewrite Hw2, Hw1, !vv_get_join. apply max_stamp.
    destruct (CWw_object _ _ _ _ HE (get_cell_nth _ _ _ Hg)) as [_ Hb]. exact (Hb me).
Qed.

Theorem cell_read_stamp e me u e' :
  clock_wf e -> exec_micro e me (MCellRead u) = MOk e' ->
  exists s', get_cell e' u = Some s' /\
             vv_get (ce_read s') me = vv_get (caus_of e' me) me /\
             caus_of e' me = caus_of (causality_inc e me) me.
Proof.
  intros Hcw Hx. cbn [exec_micro] in Hx. pose proof (clock_wf_inc e me Hcw) as HE.
  revert Hx HE. generalize (causality_inc e me). intros E Hx HE.
  destruct (get_cell E u) as [s|] eqn:Hg; [|discriminate Hx].
  destruct (ce_writing s); [discriminate Hx|].
  destruct (cell_track_read s (caus_of E me)) as [s1|pn] eqn:H1; [|discriminate Hx].
  destruct (cell_track_read s1 (caus_of E me)) as [s2|pn] eqn:H2; [|discriminate Hx].
  injection Hx as <-. exists s2.
  assert (Hc : caus_of (log_op (upd_object E u (fun _ => OCell s2)) me
                               (RVal (ho_cell (get_h E u)))) me = caus_of E me)
    by exact (caus_of_log_op _ _ _ _).
  split; [|split; [|exact Hc]].
  - unfold get_cell. rewrite e_objects_log_op.
    erewrite written_object; [| exact (get_cell_nth _ _ _ Hg) | reflexivity]. reflexivity.
  - rewrite Hc. destruct (cell_track_read_result _ _ _ H1) as (Hr1 & _).
    destruct (cell_track_read_result _ _ _ H2) as (Hr2 & _).
    rewrite Hr2, Hr1, !vv_get_join. apply max_stamp.
    destruct (CWw_object _ _ _ _ HE (get_cell_nth _ _ _ Hg)) as [Hb _]. exact (Hb me).
Qed.

Lemma track_store_result s c s1 :
  track_store s c = inl s1 -> at_stored s1 = vv_join (at_stored s) c /\ at_stores s1 = at_stores s.
Proof.
  unfold track_store. intros H. destruct (at_mutating s); [discriminate H|].
  destruct (vv_ahead c _); [discriminate H|]. destruct (vv_ahead c _); [discriminate H|].
  injection H as <-. auto.
Qed.

Lemma track_load_result s c s1 :
  track_load s c = inl s1 -> at_loaded s1 = vv_join (at_loaded s) c.
Proof.
  unfold track_load. intros H. destruct (at_mutating s); [discriminate H|].
  destruct (vv_ahead c _); [discriminate H|]. injection H as <-. reflexivity.
Qed.

(* an atomic store by thread [me]: the atomic's "stored" clock records it with
   me's own component at that moment *)
Theorem store_stamp e me a v o e' :
  clock_wf e -> exec_micro e me (MStorePost a v o) = MOk e' ->
  exists s', get_atomic e' a = Some s' /\
             vv_get (at_stored s') me = vv_get (caus_of e' me) me /\
             caus_of e' me = caus_of (causality_inc e me) me.
Proof.
  intros Hcw Hx. cbn [exec_micro] in Hx. pose proof (clock_wf_inc e me Hcw) as HE.
  revert Hx HE. generalize (causality_inc e me). intros E Hx HE.
  destruct (get_atomic E a) as [s|] eqn:Hg; [|discriminate Hx].
  destruct (get_thread E me) as [t|] eqn:Ht; [|discriminate Hx].
  destruct (track_store s (t_caus t)) as [s1|pn] eqn:H1; [|discriminate Hx].
  injection Hx as <-. eexists.
  assert (Hc : caus_of (log_op (upd_object E a (fun _ => OAtomic
                  (atomic_store s1 me (t_caus t) (t_rel t) vv_new v o))) me RUnit) me = caus_of E me)
    by exact (caus_of_log_op _ _ _ _).
  split; [|split; [|exact Hc]].
  - unfold get_atomic. rewrite e_objects_log_op.
    erewrite written_object; [| exact (get_atomic_nth _ _ _ Hg) | reflexivity]. reflexivity.
  - rewrite Hc, (caus_of_get_thread _ _ _ Ht).
    change (at_stored (atomic_store s1 me (t_caus t) (t_rel t) vv_new v o)) with (at_stored s1).
    destruct (track_store_result _ _ _ H1) as [-> _]. rewrite vv_get_join.
    destruct (CWw_object _ _ _ _ HE (get_atomic_nth _ _ _ Hg)) as (_ & _ & _ & Hb & _). specialize (Hb me).
    unfold own in Hb. rewrite (caus_of_get_thread _ _ _ Ht) in Hb. lia.
Qed.

(* the store itself carries the stamp as its first_seen entry for [me] *)
Theorem store_first_seen_stamp s me c r sync0 v o src :
  me < MAX_THREADS -> length (at_stores s) = MAX_ATOMIC_HISTORY ->
  nth_error (st_seen (get_store (atomic_store_from s me c r sync0 v o src) (aindex (at_cnt s)))) me
  = Some (Some (vv_get c me)).
Proof.
  intros Hme Hlen. unfold atomic_store_from, get_store. cbv zeta. cbn [at_set_stores at_stores].
  assert (Hidx : aindex (at_cnt s) < length (at_stores s)).
  { rewrite Hlen. unfold aindex. apply Nat.mod_upper_bound. discriminate. }
  rewrite list_set_nth_same by exact Hidx. cbn [st_seen]. unfold seen_touch, seen_new.
  assert (Hn : nth_error (repeat (@None nat) MAX_THREADS) me = Some None).
  { rewrite (nth_error_nth' _ None) by (rewrite repeat_length; exact Hme).
    f_equal. apply nth_repeat. }
  rewrite Hn. apply nth_error_list_set_same. rewrite repeat_length. exact Hme.
Qed.

(* an atomic load by thread [me]: recorded in the "loaded" clock with me's own
   component at that moment; acquiring the store's view does not change it *)
Theorem load_stamp e me a o e' :
  clock_wf e -> exec_micro e me (MLoadPost a o None) = MOk e' ->
  exists s', get_atomic e' a = Some s' /\
             vv_get (at_loaded s') me = vv_get (caus_of e' me) me /\
             vv_get (caus_of e' me) me = vv_get (caus_of (causality_inc e me) me) me.
Proof.
  intros Hcw Hx. cbn [exec_micro] in Hx. pose proof (clock_wf_inc e me Hcw) as HE.
  revert Hx HE. generalize (causality_inc e me). intros E Hx HE.
  destruct (get_atomic E a) as [s|] eqn:Hg; [|discriminate Hx].
  destruct (get_thread E me) as [t|] eqn:Ht; [|discriminate Hx].
  destruct (choose_store_same E (match_load_to_stores s me (t_caus t) (t_last_yield t) o))
    as (H1 & H2 & H3 & H4).
  destruct (choose_store E _) as [E1 [idx|pn]]; cbn [fst] in *; [|discriminate Hx].
  destruct (atomic_load s me (t_caus t) idx o) as [[[s' c'] x]|pn] eqn:Hl; [|discriminate Hx].
  injection Hx as <-. exists s'.
  assert (Ht1 : get_thread E1 me = Some t) by (unfold get_thread; rewrite H1; exact Ht).
  assert (Hc : caus_of (log_op (set_caus (upd_object E1 a (fun _ => OAtomic s')) me c') me (RVal x)) me = c').
  { rewrite (caus_of_threads_eq _ (set_caus (upd_object E1 a (fun _ => OAtomic s')) me c') me)
      by apply e_threads_log_op.
    unfold caus_of, set_caus. rewrite get_thread_upd_thread_same.
    change (get_thread (upd_object E1 a (fun _ => OAtomic s')) me) with (get_thread E1 me).
    rewrite Ht1. reflexivity. }
  assert (Hs : atomic_wf (own E) s) by exact (CWw_object _ _ _ _ HE (get_atomic_nth _ _ _ Hg)).
  assert (Hown : own E me = vv_get (t_caus t) me)
    by (unfold own; rewrite (caus_of_get_thread _ _ _ Ht); reflexivity).
  rewrite atomic_load_eq in Hl. destruct (track_load s (t_caus t)) as [s1|pn] eqn:Htl; [|discriminate Hl].
  injection Hl as <- <- _.
  assert (Hc' : vv_get (sync_load (t_caus t) (st_sync (get_store (load_view s1 me (t_caus t) idx) idx)) o) me
                = vv_get (t_caus t) me).
  { unfold sync_load. destruct (ord_acq o); [|reflexivity]. rewrite vv_get_join.
    rewrite load_view_keeps_sync.
    pose proof (get_store_wf _ _ idx (track_load_wf _ _ _ _ Htl Hs (proj1 (CWw_thread _ _ _ _ HE Ht))) me) as Hb.
    rewrite Hown in Hb. lia. }
  split; [|split].
  - unfold get_atomic. rewrite e_objects_log_op.
    erewrite written_object; [| rewrite H2; exact (get_atomic_nth _ _ _ Hg) | reflexivity].
    reflexivity.
  - rewrite Hc, Hc'.
    change (at_loaded (load_view s1 me (t_caus t) idx)) with (at_loaded s1).
    rewrite (track_load_result _ _ _ Htl), vv_get_join.
    destruct Hs as (_ & Hb & _). specialize (Hb me). rewrite Hown in Hb. lia.
  - rewrite Hc, Hc', (caus_of_get_thread _ _ _ Ht). reflexivity.
Qed.

(* "hence": a thread b has seen an access of t stamped n (n <= b's component
   for t) only if that component was acquired from t: nobody's component for t
   exceeds t's own, and t's own component passes n only at t's own accesses *)
Theorem no_future_knowledge e b t :
  clock_wf e -> vv_get (caus_of e b) t <= vv_get (caus_of e t) t.
Proof. apply clock_wf_caus. Qed.

Theorem seen_only_if_acquired e b t n :
  clock_wf e -> n <= vv_get (caus_of e b) t -> n <= vv_get (caus_of e t) t.
Proof. intros H Hn. pose proof (clock_wf_caus e b t H). lia. Qed.

(* the check that makes a write to a cell race free: the writer's clock covers
   every stamp recorded in the cell *)
Theorem cell_write_allowed_iff s c :
  (exists s1, cell_track_write s c = inl s1) <-> vle (ce_write s) c /\ vle (ce_read s) c.
Proof.
  split.
  - intros [s1 H]. destruct (cell_track_write_result _ _ _ H) as (_ & _ & H1 & H2). auto.
  - intros [H1 H2]. unfold cell_track_write.
    apply vv_ahead_none in H1. apply vv_ahead_none in H2. rewrite H1, H2. eauto.
Qed.

Theorem cell_read_allowed_iff s c :
  (exists s1, cell_track_read s c = inl s1) <-> vle (ce_write s) c.
Proof.
  split.
  - intros [s1 H]. destruct (cell_track_read_result _ _ _ H) as (_ & _ & H1). exact H1.
  - intros H1. unfold cell_track_read. apply vv_ahead_none in H1. rewrite H1. eauto.
Qed.

(* spawn: the new thread starts from the parent's clock (as it was before the
   spawn is stamped) plus its own first tick; the parent's own component is
   bumped *)
Theorem spawn_clock e me b e' :
  exec_micro e me (MSpawn b) = MOk e' -> me < length (e_threads e) ->
  length (e_threads e') = S (length (e_threads e)) /\
  caus_of e' (length (e_threads e)) =
    vv_inc (vv_join vv_new (caus_of e me)) (length (e_threads e)) /\
  caus_of e' me = vv_inc (caus_of e me) me.
Proof.
  intros Hx Hme. destruct (spawn_threads e me b e' Hx) as [nt [Hth Hnt]].
  unfold caus_of, get_thread in *. rewrite Hth.
  split; [rewrite list_upd_length, app_length; cbn [length]; lia|]. split.
  - rewrite nth_error_list_upd_other by lia.
    rewrite nth_error_app2, Nat.sub_diag by apply Nat.le_refl. exact Hnt.
  - rewrite nth_error_list_upd_same, nth_error_app1 by exact Hme.
    destruct (nth_error (e_threads e) me) as [t|] eqn:Ht; [reflexivity|].
    apply nth_error_None in Ht. lia.
Qed.

(* ================================================================== *)
(* 7. An example                                                       *)
(* ================================================================== *)

Definition cfgC : config := mkConfig 5 1000 None None None false.
Definition p_clk : prog := mkProg cfgC [DCell; DAtomic 0]
  [[ICellWrite 0; ISpawn 1; IStore 1 1 Release; IJoin 1]; [ILoad 1 Acquire; ICellRead 0]].
Definition e_clk : exec := fst (run 1000 (init_exec p_clk (initial_path cfgC))).

(* the child's clock starts from the parent's clock plus its own first tick *)
Example clocks_of_a_run :
  snd (run 1000 (init_exec p_clk (initial_path cfgC))) = IterDone /\
  map t_caus (e_threads e_clk) = [[3; 3; 0; 0; 0]; [1; 3; 0; 0; 0]].
Proof. vm_compute. split; reflexivity. Qed.

Example clocks_of_a_run_wf : clock_wf e_clk.
Proof. apply run_clock_wf, init_clock_wf. Qed.

Print Assumptions exec_micro_clock_wf.
Print Assumptions init_clock_wf.
Print Assumptions run_clock_wf.
Print Assumptions iteration_clock_wf.
Print Assumptions clock_wf_caus.
Print Assumptions clock_wf_absent.
Print Assumptions spawn_clock.
Print Assumptions own_component_increases.
Print Assumptions own_component_increases_wf.
Print Assumptions own_component_increases_load_post.
Print Assumptions cell_write_stamp.
Print Assumptions cell_read_stamp.
Print Assumptions store_stamp.
Print Assumptions store_first_seen_stamp.
Print Assumptions load_stamp.
Print Assumptions no_future_knowledge.
Print Assumptions cell_write_allowed_iff.

(* DEVIATIONS

   D1  clock_wf is stated with one bound for all views: [bndf (own e) v].  The
       requested two clauses are its corollaries clock_wf_caus (u arbitrary:
       for u beyond the thread table own e u = 0, hence clock_wf_absent) and
       clock_wf_rel / clock_wf_seqcst / clock_wf_object.  Besides the requested
       views it covers the four tracking clocks of every atomic, the read/write
       clocks of every cell and the views of the lazy statics: they are needed
       to make the invariant inductive (loads, fences and Lazy::get join them
       into thread clocks) and for C3.  t_dpor (the DPOR clock) is a different
       kind of clock and is not covered.  st_hb / st_mo of the stores are not
       covered either (they never flow into a thread clock).
   D2  The invariant also says that every thread clock has at least
       MAX_THREADS components: vv_inc on a thread id >= the length of the
       vector is the identity in the model (VV.vv_inc = list_upd), so C2 needs
       the vector to be long enough (D3).
   D3  own_component_increases has the hypothesis [me < length (t_caus t)]
       (own_component_increases_wf: [me < MAX_THREADS] in the states of the
       model).  The model allows configurations with max_threads >
       MAX_THREADS, in which a thread with id >= MAX_THREADS never ticks; loom
       itself refuses such a configuration.
   D4  (historical) before loom fix D23 MUnsyncLoad and MWithMut did not call
       causality_inc, so an unsync_load right after a release store carried the stamp the
       release had published and an acquirer's with_mut did not race with it: a genuine
       missed race, found when 'access right after a release' programs were added to F-race.
       is_tracked lists the operations for which C2 holds: MLoadPost,
       MFuLoadPost, MStorePost, MRmwPost, MCellRead, MCellWrite, MCellNested
       (which bumps twice), MFence; the
       polls of block_on go through load_post
       (own_component_increases_load_post).  MSpawn bumps the parent after the
       child has been created (spawn_clock).  MLazyGet bumps before each of its
       cell accesses (not listed in is_tracked: its first step is an acquire).
   D5  C3: loom records an access by JOINING the whole clock of the accessing
       thread into the cell / atomic clock (the cell_track_ and track_ functions); "the stamp
       for thread t" is the component t of that clock.  cell_write_stamp,
       cell_read_stamp, store_stamp, load_stamp show that right after the
       access this component equals t's own component (needs clock_wf: the old
       component was not larger); store_first_seen_stamp is the literal
       stamp FirstSeen keeps per store.  "b has seen the access only if it
       acquired t's component" is no_future_knowledge / seen_only_if_acquired
       together with C2 (t's own component passes n only at t's own accesses)
       and SyncMono (components only grow, and only by joins of views).
   D6  exec_micro_clock_wf is proved for the state carried by MFail as well;
       run_clock_wf covers all three results of run. *)
