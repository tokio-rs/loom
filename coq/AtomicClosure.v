(* The RMW-atomicity closure of the MODEL's apply_load_coherence
   (close_rmw_atomicity, fix 01ecff8 / D19): the invariant of AtomicCoRR.v
   survives it, on ALL runs of the machine built from the model's CURRENT
   functions ("mstep RModel" of AtomicCoRR.v = Atomic.atomic_load / atomic_rmw /
   atomic_store / match_load_to_stores / match_rmw_to_stores; ring wrap-around
   excluded as there).

   THE INVARIANT.  GoodS st := (exists own rk, GoodO own rk s cs) /\ StampO s cs,
   GoodO := InvO /\ LinkO /\ Closed /\ Sy  (InvO, K, StampO from AtomicCoRR.v):
   - [LinkO own rk s], the semantic witness: slot ids are the slot numbers, the
     source of every RMW store is an earlier (live) slot that is K-below it;
     [rk] is an injective ranking of the live slots that extends the strict
     order and in which no live slot is ranked strictly between an RMW store and
     its source: a linear extension in which every RMW store immediately
     follows its source.
   - [Closed own s]: neither rule of close_step applies.
   - [Sy own s]: a store seen by the synchronisation clock of b is mo-below b.

   That one step keeps it is proved in section 13 of AtomicCoRR.v (the sweep
   at the end of that file is a corollary, and this file comes after it), over
   the same predicates written a second time with the suffix c; here they
   stand under the names the later files use, [LinkO_iff], [GoodO_iff],
   [GoodS_iff], [StepOut_iff] carry the step theorems over
   ([close_model_closed], [close_model_inv], [store_stepR_goodO],
   [rmw_stepR_goodO], [mstep_goodO], [mstep_goodS], [minit_goodS]), and the
   theorems on runs follow.

   MAIN THEOREMS (reach_model st := st is reached from minit by ANY run of
   mstep RModel: loads, stores, RMWs, synchronisations):
   - [reach_model_good], [mrun_goodS], [mrun_inv2_model]: the invariant GoodS
     holds in every reachable state; in particular Inv2 of AtomicCoRR.v.
   - [rmw_atomicity_stable]: in every reachable state every live RMW store is
     strictly mo-after its (live) source and NO live store is strictly
     mo-between them.
   - [mlts_never_none_model]: match_load_to_stores / match_rmw_to_stores never
     return None (assert_ne! never fires).
   - [run_stable_model]: vv_lt between live stores is never lost;
     [run_knows_model] / [step_knows_model]: is_seen_by_current is stable;
     [load_knows_model], [store_knows_model], [sync_knows_model].
   - [CoRR_CoWR_model], [CoRR_CoWR_rmw_model], [CoWW_CoRW_model] (the
     happens-before versions) and [CoRR_same_thread_model],
     [CoWR_same_thread_model], [CoRW_same_thread_model],
     [CoWW_same_thread_model] (no [knows] hypothesis).
   [reach_model_example]: the runs of the D19 gap (with an RMW) are reach_model.
   Also kept: [Good] (without Sy / StampO), [good_load_step], [good_sync_step],
   [good_run_loads], [Good_atomicity], [Good_never_none], [minit_good].

   Nothing is admitted; every main theorem is followed by Print Assumptions
   (all closed under the global context). *)
Require Import LV.Base LV.VV LV.VVFacts LV.Path LV.Prog LV.Objects LV.Atomic LV.AtomicFacts
               LV.AtomicCoherence LV.AtomicCoRR.
From Coq Require Import Lia.

Set Implicit Arguments.

(* ------------------------------------------------------------------ *)
(* 1. the invariant                                                     *)

Definition with_stores (s : atomic_state) (st : list astore) : atomic_state :=
  at_set_stores s st (at_cnt s).

Record LinkO (own : nat -> nat) (rk : nat -> nat) (s : atomic_state) : Prop := mkLinkO {
  lk_id : forall a, a < at_cnt s -> st_id (get_store s a) = a;
  lk_src : forall r sl sid, r < at_cnt s ->
     st_rmw_src (get_store s r) = Some (sl, sid) -> sl < r /\ sid = sl;
  lk_ord : forall r sl sid, r < at_cnt s ->
     st_rmw_src (get_store s r) = Some (sl, sid) -> K own s sl r;
  ln_inj : forall a b, a < at_cnt s -> b < at_cnt s -> rk a = rk b -> a = b;
  ln_ext : forall a b, a < at_cnt s -> b < at_cnt s -> a <> b -> K own s a b -> rk a < rk b;
  ln_adj : forall r sl sid x, r < at_cnt s ->
     st_rmw_src (get_store s r) = Some (sl, sid) -> x < at_cnt s ->
     ~ (rk sl < rk x /\ rk x < rk r)
}.

(* s' is s with some modification-order clocks enlarged *)
Definition Same (s s' : atomic_state) : Prop :=
  at_cnt s' = at_cnt s /\
  forall k,
    st_hb (get_store s' k) = st_hb (get_store s k) /\
    st_seen (get_store s' k) = st_seen (get_store s k) /\
    st_sync (get_store s' k) = st_sync (get_store s k) /\
    st_value (get_store s' k) = st_value (get_store s k) /\
    st_id (get_store s' k) = st_id (get_store s k) /\
    st_rmw_src (get_store s' k) = st_rmw_src (get_store s k) /\
    st_seqcst (get_store s' k) = st_seqcst (get_store s k) /\
    vle (mo s k) (mo s' k).

(* closed under the two rules of close_step *)
Definition Closed (own : nat -> nat) (s : atomic_state) : Prop :=
  forall r sl sid x, r < at_cnt s -> st_rmw_src (get_store s r) = Some (sl, sid) ->
    x < at_cnt s -> x <> sl -> x <> r ->
    (K own s sl x -> K own s r x) /\ (K own s x r -> K own s x sl).

Definition b2n (b : bool) : nat := if b then 1 else 0.
Definition ltpairs (n : nat) : list (nat * nat) :=
  filter (fun p => Nat.ltb (fst p) (snd p)) (list_prod (seq 0 n) (seq 0 n)).
Definition term (s : atomic_state) (p : nat * nat) : nat :=
  b2n (vv_le (mo s (fst p)) (mo s (snd p))) + b2n (vv_le (mo s (snd p)) (mo s (fst p))).
Fixpoint sumf (f : nat * nat -> nat) (l : list (nat * nat)) : nat :=
  match l with [] => 0 | p :: r => f p + sumf f r end.
Definition mu (s : atomic_state) : nat := sumf (term s) (ltpairs (at_cnt s)).

(* K only grows from s1 to s2 *)
Definition Kgrow (own : nat -> nat) (s1 s2 : atomic_state) : Prop :=
  at_cnt s2 = at_cnt s1 /\
  forall x y, x < at_cnt s1 -> y < at_cnt s1 -> K own s1 x y -> K own s2 x y.

(* a store seen by the synchronisation clock of b is mo-below b *)
Definition Sy (own : nat -> nat) (s : atomic_state) : Prop :=
  forall a b, a < at_cnt s -> b < at_cnt s ->
    is_seen_by_current (st_seen (get_store s a)) (st_sync (get_store s b)) = true -> K own s a b.

Definition GoodO (own rk : nat -> nat) (s : atomic_state) (cs : list vv) : Prop :=
  InvO own s cs /\ LinkO own rk s /\ Closed own s /\ Sy own s.

(* ---- the store and RMW steps with an arbitrary released clock [rel]
   (Ops.v passes t_rel; mstep is the instance rel = vv_new) ---- *)
Definition store_stepR (st : mstate) (t : nat) (rel : vv) (v : N) (o : ord) : option mstate :=
  let '(s, cs) := st in
  if negb (Nat.ltb t (length cs)) then None else
  if Nat.leb MAX_ATOMIC_HISTORY (at_cnt s) then None else
  let c := vv_inc (clk cs t) t in
  if negb (vv_le rel c) then None else
  match track_store s c with
  | inl s1 => Some (atomic_store s1 t c rel vv_new v o, list_set cs t c)
  | inr _ => None
  end.

Definition rmw_stepR (st : mstate) (t : nat) (rel : vv) (idx : nat) (f : N -> option N)
           (so fo : ord) : option mstate :=
  let '(s, cs) := st in
  if negb (Nat.ltb t (length cs)) then None else
  if Nat.leb MAX_ATOMIC_HISTORY (at_cnt s) then None else
  let c := vv_inc (clk cs t) t in
  if negb (vv_le rel c) then None else
  match match_rmw_to_stores s with
  | Some l =>
      if existsb (Nat.eqb idx) l then
        match atomic_rmw s t c rel idx so fo f with
        | inl (s', c', _, _) => Some (s', list_set cs t c')
        | inr _ => None
        end
      else None
  | None => None
  end.

Definition StepOut (own : nat -> nat) (s : atomic_state) (cs : list vv) (s' : atomic_state) (cs' : list vv) : Prop :=
  exists own' rk', GoodO own' rk' s' cs' /\ StampO s' cs' /\ ext own s own' s' /\
                   length cs' = length cs /\ forall u, vle (clk cs u) (clk cs' u).

Definition GoodS (st : mstate) : Prop :=
  (exists own rk, GoodO own rk (fst st) (snd st)) /\ StampO (fst st) (snd st).

(* the same predicates as in AtomicCoRR.v, where the step lemmas are proved;
   only the record needs more than conversion *)
Lemma LinkO_iff : forall own rk s, LinkO own rk s <-> LinkOc own rk s.
Proof. intros own rk s. split; intros [A B C D E F]; constructor; assumption. Qed.

Lemma GoodO_iff : forall own rk s cs, GoodO own rk s cs <-> GoodOc own rk s cs.
Proof.
  intros own rk s cs.
  split; intros [HI [HL HR]]; (split; [exact HI | split; [apply LinkO_iff; exact HL | exact HR]]).
Qed.

Lemma StepOut_iff : forall own s cs s' cs', StepOut own s cs s' cs' <-> StepOutc own s cs s' cs'.
Proof.
  intros own s cs s' cs'.
  split; intros [own' [rk' [HG R]]]; exists own', rk'; (split; [apply GoodO_iff; exact HG | exact R]).
Qed.

Lemma GoodS_iff : forall st, GoodS st <-> GoodSc st.
Proof.
  intros st.
  split; intros [[own [rk HG]] HS]; (split; [exists own, rk; apply GoodO_iff; exact HG | exact HS]).
Qed.

(* ------------------------------------------------------------------ *)
(* 2. the closure and the steps of the machine keep it                  *)

(* the closure as the model calls it: invariant, witness, CLOSED *)
Theorem close_model_closed : forall own rk s cs,
  InvO own s cs -> LinkO own rk s ->
  let s' := with_stores s (close_rmw_atomicity (4 * MAX_ATOMIC_HISTORY)
                             (Nat.min (at_cnt s) MAX_ATOMIC_HISTORY) (at_stores s)) in
  InvO own s' cs /\ LinkO own rk s' /\ Same s s' /\ Closed own s'.
Proof.
  intros own rk s cs HI HL s'. apply LinkO_iff in HL.
  destruct (close_model_closedc HI HL) as [A [B [C D]]].
  split; [exact A|]. split; [apply LinkO_iff; exact B|]. split; [exact C | exact D].
Qed.

Theorem close_model_inv : forall own rk s cs,
  InvO own s cs -> LinkO own rk s ->
  let s' := with_stores s (close_rmw_atomicity (4 * MAX_ATOMIC_HISTORY)
                             (Nat.min (at_cnt s) MAX_ATOMIC_HISTORY) (at_stores s)) in
  InvO own s' cs /\ LinkO own rk s' /\ Same s s'.
Proof.
  intros own rk s cs HI HL. destruct (close_model_closed HI HL) as [A [B [C _]]].
  split; [exact A|]. split; [exact B | exact C].
Qed.

Lemma mu_mono : forall own s1 s2 cs,
  InvO own s1 cs -> InvO own s2 cs -> Kgrow own s1 s2 -> mu s1 <= mu s2.
Proof.
  intros own s1 s2 cs H1 H2 HG. unfold mu. destruct HG as [Hc HK]. rewrite Hc.
  apply sumf_le. intros p Hp. apply (@term_mono own s1 s2 cs p H1 H2 (conj Hc HK) Hp).
Qed.

Theorem store_stepR_goodO : forall own rk s cs t rel v o s' cs',
  GoodO own rk s cs -> StampO s cs -> store_stepR (s, cs) t rel v o = Some (s', cs') ->
  StepOut own s cs s' cs'.
Proof.
  intros own rk s cs t rel v o s' cs' HG HS Hstep. apply StepOut_iff. apply GoodO_iff in HG.
  apply (@store_stepR_goodOc own rk s cs t rel v o s' cs' HG HS Hstep).
Qed.

Theorem rmw_stepR_goodO : forall own rk s cs t rel idx f so fo s' cs',
  GoodO own rk s cs -> StampO s cs -> rmw_stepR (s, cs) t rel idx f so fo = Some (s', cs') ->
  StepOut own s cs s' cs'.
Proof.
  intros own rk s cs t rel idx f so fo s' cs' HG HS Hstep. apply StepOut_iff. apply GoodO_iff in HG.
  apply (@rmw_stepR_goodOc own rk s cs t rel idx f so fo s' cs' HG HS Hstep).
Qed.

Theorem mstep_goodO : forall own rk s cs t op s' cs',
  GoodO own rk s cs -> StampO s cs -> mstep RModel (s, cs) t op = Some (s', cs') ->
  exists own' rk', GoodO own' rk' s' cs' /\ StampO s' cs' /\ ext own s own' s' /\
                   length cs' = length cs /\ forall u, vle (clk cs u) (clk cs' u).
Proof.
  intros own rk s cs t op s' cs' HG HS Hstep. apply StepOut_iff. apply GoodO_iff in HG.
  apply (@mstep_goodOc own rk s cs t op s' cs' HG HS Hstep).
Qed.

(* ------------------------------------------------------------------ *)
(* 3. the weaker invariant Good (without Sy / StampO): loads and         *)
(*    synchronisations keep it                                          *)

Definition Good (st : mstate) : Prop :=
  exists own rk, InvO own (fst st) (snd st) /\ LinkO own rk (fst st) /\ Closed own (fst st).

(* RMW atomicity holds in every good state *)
Theorem Good_atomicity : forall st r sl sid,
  Good st -> r < at_cnt (fst st) -> st_rmw_src (get_store (fst st) r) = Some (sl, sid) ->
  sl < at_cnt (fst st) /\ vv_lt (mo (fst st) sl) (mo (fst st) r) = true /\
  forall x, x < at_cnt (fst st) ->
    vv_lt (mo (fst st) sl) (mo (fst st) x) && vv_lt (mo (fst st) x) (mo (fst st) r) = false.
Proof.
  intros st r sl sid [own [rk [HI [HL _]]]] Hr Hsrc. apply LinkO_iff in HL.
  apply (witness_atomicity HI HL Hr Hsrc).
Qed.

Theorem Good_never_none : forall st, Good st ->
  (forall t c ly o, match_load_to_stores (fst st) t c ly o <> None) /\
  match_rmw_to_stores (fst st) <> None.
Proof.
  intros st [own [rk [HI _]]]. assert (Hinv : Inv st) by (exists own; exact HI). split.
  - intros t c ly o. apply mlts_never_none_inv_c0421c4. exact Hinv.
  - apply mrts_never_none_inv_c0421c4. exact Hinv.
Qed.

(* a load of the model's machine keeps a good state good and loses no edge *)
Theorem good_load_step : forall st t idx o st',
  Good st -> mstep RModel st t (XLoad idx o) = Some st' ->
  Good st' /\
  forall a b, a < at_cnt (fst st) -> b < at_cnt (fst st) ->
    mo_lt st a b = true -> mo_lt st' a b = true.
Proof.
  intros [s cs] t idx o st' [own [rk [HI [HL HC]]]] Hstep. cbn [fst snd] in *. apply LinkO_iff in HL.
  destruct (mstep_load_inv (i_cnt7 HI) Hstep) as [Ht [Hidx [Hcand Hst]]].
  set (c := vv_inc (clk cs t) t) in *. subst st'. clear Hstep.
  destruct (@model_loadpart_good own rk (tl_state s c) cs t c idx (InvO_tl c HI) (LinkO_tl c HL) HC Hidx Hcand)
    as [HIM [[rk' [HLM _]] [HCM [[_ HG] _]]]].
  set (sM := loadpart_g RModel (tl_state s c) t c idx) in *.
  assert (HidxM : idx < at_cnt sM) by exact Hidx.
  destruct (acq_clock o HIM Ht HidxM) as [H1 [_ [H3 H4]]].
  pose proof (InvO_clock HIM Ht H1 H3 H4) as HIM'.
  split.
  - exists own, rk'. cbn [fst snd]. split; [exact HIM'|]. split; [apply LinkO_iff; exact HLM | exact HCM].
  - intros a b Ha Hb Hlt. cbn [fst].
    change (vv_lt (mo s a) (mo s b) = true) in Hlt. change (vv_lt (mo sM a) (mo sM b) = true).
    apply (lt_iff_K HI Ha Hb) in Hlt. destruct Hlt as [Hne HK].
    assert (HaM : a < at_cnt sM) by exact Ha. assert (HbM : b < at_cnt sM) by exact Hb.
    apply (lt_iff_K HIM HaM HbM). split; [exact Hne|]. apply (HG a b Ha Hb). exact HK.
Qed.

Theorem good_sync_step : forall st t u st',
  Good st -> mstep RModel st t (XSync u) = Some st' -> Good st' /\ fst st' = fst st.
Proof.
  intros [s cs] t u st' [own [rk [HI [HL HC]]]] Hstep. cbn [fst snd] in *.
  unfold mstep in Hstep.
  destruct (Nat.ltb_spec t (length cs)) as [Ht|Ht]; cbn [negb] in Hstep; [|discriminate].
  destruct (Nat.ltb_spec u (length cs)) as [Hu|Hu]; [|discriminate].
  inversion Hstep as [Hst]. clear Hstep Hst. cbn [fst snd]. split; [|reflexivity].
  exists own, rk. cbn [fst snd]. split; [|split; assumption].
  apply (InvO_clock HI Ht).
  - apply vle_join_l.
  - rewrite vv_join_length. pose proof (i_clen HI Ht). lia.
  - intros w Hw Hne. rewrite vv_get_join.
    pose proof (i_bclk HI Ht Hw). pose proof (i_bclk HI Hu Hw). lia.
Qed.

(* runs of loads and synchronisations from ANY good state (e.g. one that
   already contains RMW stores): good for ever, no edge is ever lost *)
Definition load_or_sync (op : aop) : Prop :=
  match op with XLoad _ _ | XSync _ => True | _ => False end.

Theorem good_run_loads : forall evs st st',
  Good st -> (forall e, In e evs -> load_or_sync (snd e)) ->
  mrun RModel st evs = Some st' ->
  Good st' /\ at_cnt (fst st') = at_cnt (fst st) /\
  forall a b, a < at_cnt (fst st) -> b < at_cnt (fst st) ->
    mo_lt st a b = true -> mo_lt st' a b = true.
Proof.
  induction evs as [|[t op] evs IH]; intros st st' HG Hall Hrun.
  - cbn [mrun] in Hrun. inversion Hrun. subst st'. split; [exact HG|]. split; [reflexivity|].
    intros a b _ _ H. exact H.
  - cbn [mrun] in Hrun. destruct (mstep RModel st t op) as [st1|] eqn:Hs; [|discriminate].
    assert (Hall' : forall e, In e evs -> load_or_sync (snd e)) by (intros e He; apply Hall; right; exact He).
    pose proof (Hall (t, op) (or_introl eq_refl)) as Hop. cbn [snd] in Hop.
    destruct op as [idx o|v o|idx f so fo|u]; try contradiction.
    + destruct (@good_load_step st t idx o st1 HG Hs) as [HG1 Hst].
      assert (Hc1 : at_cnt (fst st1) = at_cnt (fst st)).
      { destruct st as [s cs]. destruct HG as [own [_ [HI _]]]. cbn [fst snd] in *.
        destruct (mstep_load_inv (i_cnt7 HI) Hs) as [_ [_ [_ Heq]]]. subst st1. reflexivity. }
      destruct (IH st1 st' HG1 Hall' Hrun) as [A [B C]].
      split; [exact A|]. split; [congruence|].
      intros a b Ha Hb Hlt. apply C; try (rewrite Hc1; assumption). apply (Hst a b Ha Hb Hlt).
    + destruct (@good_sync_step st t u st1 HG Hs) as [HG1 Hfst].
      destruct (IH st1 st' HG1 Hall' Hrun) as [A [B C]].
      split; [exact A|]. split; [rewrite B, Hfst; reflexivity|].
      intros a b Ha Hb Hlt. apply C; try (rewrite Hfst; assumption).
      unfold mo_lt, mo_of in *. rewrite Hfst. exact Hlt.
Qed.

(* ------------------------------------------------------------------ *)
(* 4. ALL runs of the model's machine (mstep RModel)                      *)

Lemma GoodS_Inv : forall st, GoodS st -> Inv st.
Proof. intros st [[own [rk [HI _]]] _]. exists own. exact HI. Qed.
Lemma GoodS_Good : forall st, GoodS st -> Good st.
Proof. intros st [[own [rk [HI [HL [HC _]]]]] _]. exists own, rk. split; [exact HI | split; assumption]. Qed.

Theorem mstep_goodS : forall st t op st', GoodS st -> mstep RModel st t op = Some st' -> GoodS st'.
Proof.
  intros st t op st' HG Hs. apply GoodS_iff. apply GoodS_iff in HG. exact (@mstep_goodSc st t op st' HG Hs).
Qed.

Theorem mrun_goodS : forall evs st st', GoodS st -> mrun RModel st evs = Some st' -> GoodS st'.
Proof. exact (@mrun_keeps RModel GoodS mstep_goodS). Qed.

Theorem minit_goodS : forall n v0 st,
  1 <= n -> n <= MAX_THREADS -> minit n v0 = Some st -> GoodS st.
Proof. intros n v0 st H1 H5 Hm. apply GoodS_iff. exact (minit_goodSc H1 H5 Hm). Qed.

Theorem minit_good : forall n v0 st,
  1 <= n -> n <= MAX_THREADS -> minit n v0 = Some st -> Good st.
Proof. intros n v0 st H1 H5 Hm. apply GoodS_Good. exact (minit_goodS H1 H5 Hm). Qed.

(* reachable states of the model's machine, ANY operations *)
Definition reach_model (st : mstate) : Prop :=
  exists n v0 st0 evs, 1 <= n /\ n <= MAX_THREADS /\ minit n v0 = Some st0 /\
                       mrun RModel st0 evs = Some st.

Theorem reach_model_good : forall st, reach_model st -> GoodS st.
Proof.
  intros st [n [v0 [st0 [evs [H1 [H5 [Hi Hr]]]]]]].
  apply (@mrun_goodS evs st0 st (@minit_goodS n v0 st0 H1 H5 Hi) Hr).
Qed.

(* mrun_inv2 for the model *)
Theorem mrun_inv2_model : forall st, reach_model st -> Inv2 st.
Proof.
  intros st Hr. pose proof (reach_model_good Hr) as HG.
  split; [apply GoodS_Inv; exact HG | apply HG].
Qed.

(* RMW atomicity in every reachable state *)
Theorem rmw_atomicity_stable : forall st r sl sid,
  reach_model st -> r < at_cnt (fst st) ->
  st_rmw_src (get_store (fst st) r) = Some (sl, sid) ->
  sl < at_cnt (fst st) /\ vv_lt (mo (fst st) sl) (mo (fst st) r) = true /\
  forall x, x < at_cnt (fst st) ->
    vv_lt (mo (fst st) sl) (mo (fst st) x) && vv_lt (mo (fst st) x) (mo (fst st) r) = false.
Proof.
  intros st r sl sid Hr. apply Good_atomicity. apply GoodS_Good. apply reach_model_good. exact Hr.
Qed.

Theorem mlts_never_none_model : forall st, reach_model st ->
  (forall t c ly o, match_load_to_stores (fst st) t c ly o <> None) /\
  match_rmw_to_stores (fst st) <> None.
Proof. intros st Hr. apply Good_never_none. apply GoodS_Good. apply reach_model_good. exact Hr. Qed.

(* ---- the order and the knowledge only grow ---- *)
Theorem step_knows_model : forall st t op st' u i,
  GoodS st -> mstep RModel st t op = Some st' ->
  lives st i -> knows st u i -> lives st' i /\ knows st' u i.
Proof.
  intros [s cs] t op [s' cs'] u i [[own [rk HG]] HS] Hstep Hi Hk.
  destruct (@mstep_goodO own rk s cs t op s' cs' HG HS Hstep) as [own' [rk' [_ [_ [Hext [_ Hg]]]]]].
  apply (@ext_knows own s cs own' s' cs' u i Hext Hg Hi Hk).
Qed.

Theorem run_stable_model : forall evs st st' a b,
  GoodS st -> mrun RModel st evs = Some st' ->
  lives st a -> lives st b -> mo_lt st a b = true ->
  lives st' a /\ lives st' b /\ mo_lt st' a b = true.
Proof.
  apply (@mrun_stable RModel GoodS mstep_goodS). intros st t op st' a b HG.
  apply (@step_stable_model st t op st' a b (proj1 (GoodS_iff st) HG)).
Qed.

Theorem run_knows_model : forall evs st st' u i,
  GoodS st -> mrun RModel st evs = Some st' ->
  lives st i -> knows st u i -> lives st' i /\ knows st' u i.
Proof. exact (@mrun_knows RModel GoodS mstep_goodS step_knows_model). Qed.

(* ---- CoRR / CoWR (happens-before version) for the model ---- *)
Theorem CoRR_CoWR_model : forall st1 evs st2 t i j o,
  GoodS st1 -> lives st1 i -> lives st1 j -> knows st1 t j -> mo_lt st1 i j = true ->
  mrun RModel st1 evs = Some st2 ->
  mstep RModel st2 t (XLoad i o) = None.
Proof.
  intros st1 evs st2 t i j o HG Hi Hj Hk Hlt Hrun.
  destruct (@run_stable_model evs st1 st2 i j HG Hrun Hi Hj Hlt) as [_ [Hj2 Hlt2]].
  destruct (@run_knows_model evs st1 st2 t j HG Hrun Hj Hk) as [_ Hk2].
  destruct (GoodS_Inv (@mrun_goodS evs st1 st2 HG Hrun)) as [own HI2]. destruct st2 as [s cs].
  apply (@load_refused RModel own s cs t i j o HI2 Hj2 Hlt2 Hk2).
Qed.

Theorem CoRR_CoWR_rmw_model : forall st1 evs st2 t i j f so fo,
  GoodS st1 -> lives st1 i -> lives st1 j -> mo_lt st1 i j = true ->
  mrun RModel st1 evs = Some st2 ->
  mstep RModel st2 t (XRmw i f so fo) = None.
Proof.
  intros st1 evs st2 t i j f so fo HG Hi Hj Hlt Hrun.
  destruct (@run_stable_model evs st1 st2 i j HG Hrun Hi Hj Hlt) as [_ [Hj2 Hlt2]].
  destruct (GoodS_Inv (@mrun_goodS evs st1 st2 HG Hrun)) as [own HI2]. destruct st2 as [s cs].
  apply (@rmw_refused RModel own s cs t i j f so fo HI2 Hj2 Hlt2).
Qed.

(* ---- CoWW / CoRW for the model: XStore and XSync do not depend on the
   load-coherence rule, so the AtomicCoRR theorems apply verbatim ---- *)
Theorem CoWW_CoRW_model : forall st t v o st' i,
  GoodS st -> lives st i -> knows st t i ->
  mstep RModel st t (XStore v o) = Some st' ->
  lives st' (at_cnt (fst st)) /\ mo_lt st' i (at_cnt (fst st)) = true.
Proof.
  intros st t v o st' i HG Hi Hk Hs.
  apply (@CoWW_CoRW_c0421c4 st t v o st' i (GoodS_Inv HG) Hi Hk). exact Hs.
Qed.

Theorem store_knows_model : forall st t v o st',
  GoodS st -> mstep RModel st t (XStore v o) = Some st' ->
  lives st' (at_cnt (fst st)) /\ knows st' t (at_cnt (fst st)).
Proof.
  intros st t v o st' HG Hs. apply (@store_knows_c0421c4 st t v o st' (GoodS_Inv HG)). exact Hs.
Qed.

Theorem sync_knows_model : forall st t u st' i,
  mstep RModel st t (XSync u) = Some st' -> knows st u i -> knows st' t i.
Proof. intros st t u st' i Hs Hk. apply (@sync_knows_c0421c4 st t u st' i); [exact Hs | exact Hk]. Qed.

Theorem load_knows_model : forall st t i o st',
  GoodS st -> mstep RModel st t (XLoad i o) = Some st' -> lives st' i /\ knows st' t i.
Proof.
  intros [s cs] t i o st' [[own [rk [HI [HL [HC HSy]]]]] HS] Hstep. unfold lives, knows. cbn [fst snd] in *.
  apply LinkO_iff in HL.
  destruct (mstep_load_inv (i_cnt7 HI) Hstep) as [Ht [Hidx [Hcand Hst]]].
  set (c := vv_inc (clk cs t) t) in *. subst st'. cbn [fst snd].
  split; [exact Hidx|].
  destruct (@model_loadpart_good own rk (tl_state s c) cs t c i (InvO_tl c HI) (LinkO_tl c HL) HC Hidx Hcand)
    as [_ [_ [_ [_ [F1 _]]]]].
  assert (H7 : i < MAX_ATOMIC_HISTORY) by (pose proof (i_cnt7 HI); lia).
  rewrite (F1 i H7), Nat.eqb_refl. rewrite (clk_set cs t _ t Ht), Nat.eqb_refl.
  apply (touch_knows _ HI HS Ht Hidx). apply sync_load_ge.
Qed.

(* ---- one thread's own accesses, arbitrary steps of arbitrary threads in
   between, no [knows] hypothesis ---- *)
Theorem CoRR_same_thread_model : forall st0 t j o st1 evs st2 i o',
  GoodS st0 -> mstep RModel st0 t (XLoad j o) = Some st1 ->
  lives st1 i -> mo_lt st1 i j = true ->
  mrun RModel st1 evs = Some st2 ->
  mstep RModel st2 t (XLoad i o') = None.
Proof.
  intros st0 t j o st1 evs st2 i o' HG Hs Hi Hlt Hrun.
  destruct (@load_knows_model st0 t j o st1 HG Hs) as [Hj Hk].
  apply (@CoRR_CoWR_model st1 evs st2 t i j o' (@mstep_goodS st0 t (XLoad j o) st1 HG Hs) Hi Hj Hk Hlt Hrun).
Qed.

Theorem CoWR_same_thread_model : forall st0 t v o st1 evs st2 i o',
  GoodS st0 -> mstep RModel st0 t (XStore v o) = Some st1 ->
  lives st1 i -> mo_lt st1 i (at_cnt (fst st0)) = true ->
  mrun RModel st1 evs = Some st2 ->
  mstep RModel st2 t (XLoad i o') = None.
Proof.
  intros st0 t v o st1 evs st2 i o' HG Hs Hi Hlt Hrun.
  destruct (@store_knows_model st0 t v o st1 HG Hs) as [Hj Hk].
  apply (@CoRR_CoWR_model st1 evs st2 t i (at_cnt (fst st0)) o'
           (@mstep_goodS st0 t (XStore v o) st1 HG Hs) Hi Hj Hk Hlt Hrun).
Qed.

Theorem CoRW_same_thread_model : forall st0 t j o st1 evs st2 v o' st3,
  GoodS st0 -> mstep RModel st0 t (XLoad j o) = Some st1 ->
  mrun RModel st1 evs = Some st2 ->
  mstep RModel st2 t (XStore v o') = Some st3 ->
  mo_lt st3 j (at_cnt (fst st2)) = true.
Proof.
  intros st0 t j o st1 evs st2 v o' st3 HG Hs Hrun Hs3.
  destruct (@load_knows_model st0 t j o st1 HG Hs) as [Hj Hk].
  pose proof (@mstep_goodS st0 t (XLoad j o) st1 HG Hs) as HG1.
  destruct (@run_knows_model evs st1 st2 t j HG1 Hrun Hj Hk) as [Hj2 Hk2].
  apply (@CoWW_CoRW_model st2 t v o' st3 j (@mrun_goodS evs st1 st2 HG1 Hrun) Hj2 Hk2 Hs3).
Qed.

Theorem CoWW_same_thread_model : forall st0 t v o st1 evs st2 v' o' st3,
  GoodS st0 -> mstep RModel st0 t (XStore v o) = Some st1 ->
  mrun RModel st1 evs = Some st2 ->
  mstep RModel st2 t (XStore v' o') = Some st3 ->
  mo_lt st3 (at_cnt (fst st0)) (at_cnt (fst st2)) = true.
Proof.
  intros st0 t v o st1 evs st2 v' o' st3 HG Hs Hrun Hs3.
  destruct (@store_knows_model st0 t v o st1 HG Hs) as [Hj Hk].
  pose proof (@mstep_goodS st0 t (XStore v o) st1 HG Hs) as HG1.
  destruct (@run_knows_model evs st1 st2 t (at_cnt (fst st0)) HG1 Hrun Hj Hk) as [Hj2 Hk2].
  apply (@CoWW_CoRW_model st2 t v' o' st3 (at_cnt (fst st0)) (@mrun_goodS evs st1 st2 HG1 Hrun) Hj2 Hk2 Hs3).
Qed.

(* non-vacuity: the two runs of the D19 gap (store 10 | store 20; fetch_add |
   loads) are runs of the model's machine, so their end states are reach_model *)
Example reach_model_example :
  (exists st, mrun0 RModel 4 gapA = Some st /\ reach_model st) /\
  (exists st, mrun0 RModel 4 gapB = Some st /\ reach_model st).
Proof.
  assert (H : forall evs st, mrun0 RModel 4 evs = Some st -> reach_model st).
  { intros evs st Hr. unfold mrun0 in Hr. destruct (minit 4 0%N) as [st0|] eqn:Hi; [|discriminate].
    exists 4, 0%N, st0, evs. unfold MAX_THREADS. repeat split; try lia; assumption. }
  split.
  - destruct (mrun0 RModel 4 gapA) as [st|] eqn:E; [|vm_compute in E; discriminate].
    exists st. split; [reflexivity | apply (H gapA st E)].
  - destruct (mrun0 RModel 4 gapB) as [st|] eqn:E; [|vm_compute in E; discriminate].
    exists st. split; [reflexivity | apply (H gapB st E)].
Qed.

Print Assumptions witness_atomicity.
Print Assumptions raise_inv.
Print Assumptions close_model_inv.
Print Assumptions close_closed.
Print Assumptions close_model_closed.
Print Assumptions load_witness.
Print Assumptions model_loadpart_good.
Print Assumptions Good_atomicity.
Print Assumptions Good_never_none.
Print Assumptions good_load_step.
Print Assumptions good_sync_step.
Print Assumptions minit_good.
Print Assumptions good_run_loads.
Print Assumptions plain_store_good.
Print Assumptions rmw_store_good.
Print Assumptions mstep_goodO.
Print Assumptions mrun_goodS.
Print Assumptions reach_model_good.
Print Assumptions mrun_inv2_model.
Print Assumptions rmw_atomicity_stable.
Print Assumptions mlts_never_none_model.
Print Assumptions run_stable_model.
Print Assumptions run_knows_model.
Print Assumptions CoRR_CoWR_model.
Print Assumptions CoRR_CoWR_rmw_model.
Print Assumptions CoWW_CoRW_model.
Print Assumptions load_knows_model.
Print Assumptions CoRR_same_thread_model.
Print Assumptions CoWR_same_thread_model.
Print Assumptions CoRW_same_thread_model.
Print Assumptions CoWW_same_thread_model.
Print Assumptions reach_model_example.
