(* LeakFacts: "Leaks are reported exactly at the end of every execution".
   The end-of-iteration scan of the object store (Objects.check_for_leaks,
   run by Check.iteration after a finished run) is connected with the
   harness-level truth (live handle slots, the std queue, the Track flag), for
   every program and every schedule.

   Contents
     0. where a leak panic can come from: exec_micro_no_leak, run_no_leak,
        iteration_after_panic / iteration_after_fuel (the leak check runs only
        after a run that finished without panic), iteration_leak_iff,
        iteration_leak_is_first_leaking_entry (order of several leaks)
     1. two new invariants, proved with the one-tactic-over-all-micro-ops
        pattern of SyncMono (frame lemmas in continuation style, walk_step / lclose):
          OI e   every OAlloc entry of the store is a declared object whose
                 dropped flag is the negation of the harness Track flag; every
                 channel is a declared object
          TI e   the continuation of every thread has MTerminate at its end
                 only; a Terminated thread has the empty continuation and no
                 pending operation
        step_LI, run_LI, init_LI
     2. the end of a finished run: all threads Terminated (DeadlockFacts), all
        continuations empty, no drop in flight: run_done_quiet
     3. the three kinds of leak, each against the harness-level truth:
          arc_leak_iff, chan_leak_iff (+ chan_leak_rx_alive,
          chan_leak_rx_dropped), track_leak_iff, other_decl_never_leaks
     4. the whole verdict: iteration_done_iff, no_leak_passes,
        leak_reported_is_true, true_leak_is_reported
     5. examples and the witnesses of the deviations (vm_compute)
     6. programs without block_on (prog_nobo): a third invariant BF (no
        MBlockOn / MBlockOnS in any continuation or body, no Arc beyond the
        declared objects), same proof pattern (walk_step / bclose);
        nobo_dyn_arcs_released, nobo_iteration_done_iff: for such programs the
        leak check passes iff no declared object leaks at the harness level

   DEVIATIONS / FINDINGS

   F1 (FIXED in the pinned tree by "a message handed back by send() is not held
      by the channel": Channel::undo_send).  Before the fix "Messages leaked"
      was reported for a message that is not in the channel: Sender::send calls
      rt::Channel::send (msg_cnt += 1) BEFORE the std send; if the receiver has
      been dropped the std send fails and hands the message back to the caller
      (Err(SendError(v))), and the runtime count stayed incremented.  The fix
      undoes the bookkeeping.  send_after_drop_not_reported: [DChan],
        main = [IDropRx 0; ISend 0 5]
      the send returns RDisc (the harness got the value back), the std queue is
      empty, the count is 0 and the iteration ends with IterDone.  The channel
      clause (chan_leak_iff): the report is made iff the RUNTIME count is
      positive, and the runtime count IS the length of the std queue, receiver
      alive or not (chan_leak_queue); after the receiver was dropped the queue
      is empty, the count is 0 and stays 0, the channel is never reported
      (chan_leak_rx_dropped).  hleak, the harness-level truth, is therefore
      stated on the std queue.
   F2 Arcs that are not harness objects.  future::block_on creates an
      Arc<Notify> (the waker) in the same store; the scan covers it.  A waker
      clone that is still registered in an AtomicWaker at the end keeps its
      count positive and is reported as "Arc leaked" although no handle slot of
      a declared Arc is alive (waker_left_registered_reported).  The verdict
      theorems therefore have the clause [dyn_arcs_released e] (every Arc of
      the store beyond the declared objects has count 0).  OI shows that Arcs
      are the only leaking objects that can exist beyond the declared ones;
      section 6 shows that the clause is void for programs without block_on.
      (The harness leaks its object table (Box::leak), so the registered clone
      really is never dropped there: the report is a true one, it is just not
      visible in the handle slots.)
   D1 The Arc clause needs the handle discipline of CountFacts (run_disc): the
      model lets a program clone into a live slot, which makes the runtime
      count differ from the number of live handles (CountFacts D1).
   D2 At the end of a finished run no drop is in flight (pend = 0): proved
      (run_done_quiet), so the Arc clause is stated with [live] alone.
   D3 arc_leak_iff etc. speak about the state [e] returned by a run with
      result IterDone; iteration returns the same state (iteration_fst). *)
Require Import LV.Base LV.VV LV.VVFacts LV.Path LV.PathSpec LV.PathApi LV.Prog LV.Objects
               LV.Exec LV.Atomic LV.Ops LV.Check LV.SyncFacts LV.ExecFacts LV.ExecPreempt
               LV.SyncMono LV.CountFacts LV.DeadlockFacts.
From Coq Require Import List Arith Lia Bool.
Import ListNotations.

(* ================================================================== *)
(* 0. Where a leak panic comes from                                    *)
(* ================================================================== *)

(* no micro-operation raises a leak panic *)
Lemma exec_micro_no_leak e me m e2 k i : exec_micro e me m = MFail e2 (PanicLeak k i) -> False.
Proof.
  intros H. destruct (exec_micro_global_panic _ _ _ _ _ H eq_refl) as (e1 & _ & Hs).
  exact (schedule_panic _ _ _ Hs).
Qed.

Lemma run_no_leak : forall fuel e e' k i, run fuel e = (e', IterPanic (PanicLeak k i)) -> False.
Proof.
  intros fuel e e' k i H.
  destruct (run_panic_from_micro (fun _ => True) (fun _ _ _ _ _ _ _ _ _ => I) fuel e e' _ I H)
    as [(c & Hc)|(e0 & me & rest & m & _ & Hx)]; [discriminate Hc|].
  exact (exec_micro_no_leak _ _ _ _ _ _ Hx).
Qed.

(* the leak check is not run after a panic, nor when the fuel of the model ran out *)
Lemma iteration_after_panic fuel p pa e pn :
  run fuel (init_exec p pa) = (e, IterPanic pn) -> iteration fuel p pa = (e, IterPanic pn).
Proof. intros H. unfold iteration. rewrite H. reflexivity. Qed.

Lemma iteration_after_fuel fuel p pa e :
  run fuel (init_exec p pa) = (e, IterFuel) -> iteration fuel p pa = (e, IterFuel).
Proof. intros H. unfold iteration. rewrite H. reflexivity. Qed.

Lemma iteration_after_done fuel p pa e :
  run fuel (init_exec p pa) = (e, IterDone) ->
  iteration fuel p pa =
    (e, match check_for_leaks (e_objects e) with Some pn => IterPanic pn | None => IterDone end).
Proof. intros H. unfold iteration. rewrite H. destruct (check_for_leaks _); reflexivity. Qed.

(* a leak panic of an iteration: the run finished, the scan found it *)
Theorem iteration_leak_iff fuel p pa e k i :
  iteration fuel p pa = (e, IterPanic (PanicLeak k i)) <->
  run fuel (init_exec p pa) = (e, IterDone) /\
  check_for_leaks (e_objects e) = Some (PanicLeak k i).
Proof.
  split.
  - intros H. unfold iteration in H. destruct (run fuel (init_exec p pa)) as [e0 r] eqn:Hr.
    destruct r as [|pn|].
    + destruct (check_for_leaks (e_objects e0)) as [pn|] eqn:Hl; [|discriminate H].
      injection H as <- ->. auto.
    + injection H as <- ->. exfalso. exact (run_no_leak _ _ _ _ _ Hr).
    + discriminate H.
  - intros [Hr Hl]. rewrite (iteration_after_done _ _ _ _ Hr), Hl. reflexivity.
Qed.

(* the order in which several leaks are reported: the first leaking entry *)
Theorem iteration_leak_is_first_leaking_entry fuel p pa e k i :
  iteration fuel p pa = (e, IterPanic (PanicLeak k i)) ->
  exists o, nth_error (e_objects e) i = Some o /\ leak_of o = Some k /\
            forall j o', j < i -> nth_error (e_objects e) j = Some o' -> leak_of o' = None.
Proof.
  intros H. apply iteration_leak_iff in H. destruct H as [_ Hl].
  apply check_for_leaks_first in Hl. destruct Hl as (i' & o & k' & Hpn & Hn & Hk & Hmin).
  injection Hpn as <- <-. eauto.
Qed.

(* ================================================================== *)
(* 1. Two invariants                                                   *)
(* ================================================================== *)

(* ---- continuations ---- *)
Definition is_term (m : micro) : bool := match m with MTerminate => true | _ => false end.

(* MTerminate occurs at the end only *)
Fixpoint tail_ok (c : list micro) : bool :=
  match c with
  | [] => true
  | m :: r => if is_term m then match r with [] => true | _ :: _ => false end else tail_ok r
  end.

Definition no_term (ms : list micro) : bool := forallb (fun m => negb (is_term m)) ms.

Lemma tail_ok_app ms c : no_term ms = true -> tail_ok c = true -> tail_ok (ms ++ c) = true.
Proof.
  induction ms as [|m ms IH]; intros Hn Hc; [exact Hc|].
  unfold no_term in Hn. cbn [forallb] in Hn. apply andb_prop in Hn. destruct Hn as [Hm Hn].
  cbn [app tail_ok]. destruct (is_term m); [discriminate Hm|]. apply IH; assumption.
Qed.

Lemma tail_ok_tl m r : tail_ok (m :: r) = true -> tail_ok r = true.
Proof.
  cbn [tail_ok]. destruct (is_term m); [|auto]. destruct r; [reflexivity|discriminate].
Qed.

Lemma tail_ok_term r : tail_ok (MTerminate :: r) = true -> r = [].
Proof. cbn [tail_ok is_term]. destruct r; [reflexivity|discriminate]. Qed.

Lemma subst_waker_nil n k : forall c used, subst_waker n k used c = [] -> c = [].
Proof.
  intros c used. destruct c as [|m c]; [reflexivity|].
  destruct m; cbn [subst_waker]; try destruct used; discriminate.
Qed.

Lemma tail_ok_subst_waker n k : forall c used, tail_ok (subst_waker n k used c) = tail_ok c.
Proof.
  induction c as [|m c IH]; intros used; [reflexivity|].
  destruct m; cbn [subst_waker];
    try (destruct used; cbn [tail_ok is_term]; apply IH); cbn [tail_ok is_term]; try apply IH.
  destruct c as [|m' c']; [reflexivity|].
  destruct (subst_waker n k used (m' :: c')) eqn:Hs; [|reflexivity].
  apply subst_waker_nil in Hs. discriminate Hs.
Qed.

(* what an update of a thread may do without harm *)
Definition tle (t t' : thread) : Prop :=
  t_cont t' = t_cont t /\
  (is_terminated t' = true -> is_terminated t = true /\ t_op t' = t_op t).

Lemma tle_refl t : tle t t.
Proof. split; auto. Qed.

Definition thr_ok (om : option nat) (i : nat) (t : thread) : Prop :=
  tail_ok (t_cont t) = true /\
  (is_terminated t = true -> om <> Some i /\ t_cont t = [] /\ t_op t = None).

Lemma thr_ok_tle om i t t' : tle t t' -> thr_ok om i t -> thr_ok om i t'.
Proof.
  intros [Hc Ht] [H1 H2]. split; [rewrite Hc; exact H1|].
  intros Hterm. destruct (Ht Hterm) as [Ht0 Hop]. destruct (H2 Ht0) as (Hom & Hnil & Hnone).
  repeat split; [exact Hom|congruence|congruence].
Qed.

(* [om]: the thread that is executing a micro-operation; it is not Terminated *)
Definition TI (om : option nat) (e : exec) : Prop :=
  (forall i t, nth_error (e_threads e) i = Some t -> thr_ok om i t) /\
  (forall b, tail_ok (nth b (e_bodies e) []) = true).

(* ---- objects ---- *)
Inductive okind := KAlloc (d : bool) | KChan | KOther.
Definition okey (o : object) : okind :=
  match o with OAlloc d => KAlloc d | OChannel _ => KChan | _ => KOther end.

Definition obj_ok (hs : list hobj) (i : nat) (o : object) : Prop :=
  match okey o with
  | KAlloc d => i < length hs /\ d = negb (ho_track (nth i hs hobj_default))
  | KChan => i < length hs
  | KOther => True
  end.

Definition OI (e : exec) : Prop :=
  forall i o, nth_error (e_objects e) i = Some o -> obj_ok (e_h e) i o.

Definition LI (om : option nat) (e : exec) : Prop := OI e /\ TI om e.

(* ---- the frame, continuation style ---- *)
Definition lk (om : option nat) (e e' : exec) : Prop := LI om e -> LI om e'.

Lemma lk_refl om e : lk om e e.
Proof. intros H. exact H. Qed.
Lemma lk_trans om e1 e2 e3 : lk om e1 e2 -> lk om e2 e3 -> lk om e1 e3.
Proof. unfold lk. auto. Qed.
Lemma lk_k om e0 e e' : lk om e e' -> lk om e0 e -> lk om e0 e'.
Proof. unfold lk. auto. Qed.

Lemma lk_same om e e' :
  e_threads e' = e_threads e -> e_bodies e' = e_bodies e ->
  e_objects e' = e_objects e -> e_h e' = e_h e -> lk om e e'.
Proof.
  intros Ht Hb Ho Hh [H1 [H2 H3]]. split.
  - intros i o. rewrite Ho, Hh. apply H1.
  - split; [intros i t; rewrite Ht; apply H2|intros b; rewrite Hb; apply H3].
Qed.

Lemma lk_set_threads_k om e0 e ths :
  (TI om e -> forall i t', nth_error ths i = Some t' -> thr_ok om i t') ->
  lk om e0 e -> lk om e0 (ex_set_threads e ths).
Proof.
  intros Hf. apply lk_k. intros [Ho HT]. split; [exact Ho|].
  split; [exact (Hf HT)|exact (proj2 HT)].
Qed.

Lemma nth_error_list_upd_inv (A : Type) (l : list A) i f j y :
  nth_error (list_upd l i f) j = Some y ->
  exists x, nth_error l j = Some x /\ (y = x \/ (j = i /\ y = f x)).
Proof.
  intros H. destruct (Nat.eq_dec i j) as [->|Hne].
  - rewrite nth_error_list_upd_same in H. destruct (nth_error l j) as [x|]; [|discriminate H].
    injection H as <-. eauto.
  - rewrite nth_error_list_upd_other in H by exact Hne. eauto.
Qed.

Lemma lk_upd_thread_k om e0 e i f :
  (forall t, tle t (f t)) -> lk om e0 e -> lk om e0 (upd_thread e i f).
Proof.
  intros Hf. apply lk_set_threads_k. intros [Ht _] j t' Hj.
  destruct (nth_error_list_upd_inv _ _ _ _ _ _ Hj) as (t & Hn & [->|[_ ->]]).
  - apply Ht. exact Hn.
  - eapply thr_ok_tle; [apply Hf|apply Ht; exact Hn].
Qed.

Lemma lk_upd_me_k me e0 e f :
  (forall t, tail_ok (t_cont t) = true -> tail_ok (t_cont (f t)) = true) ->
  (forall t, is_terminated (f t) = true -> is_terminated t = true) ->
  lk (Some me) e0 e -> lk (Some me) e0 (upd_thread e me f).
Proof.
  intros H1 H2. apply lk_set_threads_k. intros [Ht _] j t' Hj.
  destruct (nth_error_list_upd_inv _ _ _ _ _ _ Hj) as (t & Hn & [->|[-> ->]]).
  - apply Ht. exact Hn.
  - destruct (Ht _ _ Hn) as [Ha Hb]. split; [apply H1, Ha|].
    intros Hterm. destruct (Hb (H2 _ Hterm)) as (Hom & _). congruence.
Qed.

Lemma lk_mapi_k om e0 e g :
  (forall id t, tle t (g id t)) -> lk om e0 e -> lk om e0 (ex_set_threads e (mapi g (e_threads e))).
Proof.
  intros Hg. apply lk_set_threads_k. intros [Ht _] j t' Hj.
  rewrite nth_error_mapi in Hj. destruct (nth_error (e_threads e) j) as [t|] eqn:Hn;
    cbn [option_map] in Hj; [|discriminate Hj]. injection Hj as <-.
  eapply thr_ok_tle; [apply Hg|apply Ht; exact Hn].
Qed.

Lemma lk_map_others_k om e0 e me p f :
  (forall t, tle t (f t)) -> lk om e0 e -> lk om e0 (map_others e me p f).
Proof.
  intros Hf. unfold map_others. apply lk_mapi_k. intros id t.
  destruct (negb (Nat.eqb id me) && p t); [apply Hf|apply tle_refl].
Qed.

Lemma lk_append_thread_k om e0 e nt :
  is_terminated nt = false -> (TI om e -> tail_ok (t_cont nt) = true) ->
  lk om e0 e -> lk om e0 (ex_set_threads e (e_threads e ++ [nt])).
Proof.
  intros Hnt Hc. apply lk_set_threads_k. intros HT j t' Hj.
  destruct (Nat.lt_ge_cases j (length (e_threads e))) as [Hlt|Hge].
  - rewrite nth_error_app1 in Hj by exact Hlt. apply (proj1 HT). exact Hj.
  - rewrite nth_error_app2 in Hj by exact Hge.
    destruct (j - length (e_threads e)) as [|d]; cbn [nth_error] in Hj;
      [|destruct d; discriminate Hj].
    injection Hj as <-. split; [exact (Hc HT)|]. intros Hterm. congruence.
Qed.

Lemma lk_objs_k om e0 e os hs :
  (OI e -> forall i o, nth_error os i = Some o -> obj_ok hs i o) ->
  lk om e0 e -> lk om e0 (ex_set_h (ex_set_objects e os) hs).
Proof. intros Hf. apply lk_k. intros [Ho HT]. split; [exact (Hf Ho)|exact HT]. Qed.

Lemma lk_upd_object_f_k om e0 e i f :
  (forall o, nth_error (e_objects e) i = Some o -> okey (f o) = KOther \/ okey (f o) = okey o) ->
  lk om e0 e -> lk om e0 (upd_object e i f).
Proof.
  intros Hf. apply lk_k. intros [Ho HT]. split; [|exact HT].
  intros j o Hj. rewrite e_objects_upd_object in Hj.
  change (e_h (upd_object e i f)) with (e_h e).
  destruct (nth_error_list_upd_inv _ _ _ _ _ _ Hj) as (o0 & Hn & [->|[-> ->]]).
  - apply Ho. exact Hn.
  - unfold obj_ok. destruct (Hf _ Hn) as [Hk|Hk]; rewrite Hk; [exact I|]. apply Ho. exact Hn.
Qed.

Lemma lk_upd_object_k om e0 e i o' :
  (okey o' = KOther \/ forall o, nth_error (e_objects e) i = Some o -> okey o' = okey o) ->
  lk om e0 e -> lk om e0 (upd_object e i (fun _ => o')).
Proof.
  intros Hf. apply lk_upd_object_f_k. intros o Ho. destruct Hf as [Hk|Hk]; [left; exact Hk|right; auto].
Qed.

Lemma lk_upd_hobj_k om e0 e i f :
  (forall h, ho_track (f h) = ho_track h) -> lk om e0 e -> lk om e0 (upd_hobj e i f).
Proof.
  intros Hf. apply lk_k. intros [Ho HT]. split; [|exact HT].
  intros j o Hj. change (e_objects (upd_hobj e i f)) with (e_objects e) in Hj.
  change (e_h (upd_hobj e i f)) with (list_upd (e_h e) i f).
  specialize (Ho j o Hj). unfold obj_ok in *. rewrite list_upd_length.
  rewrite (nth_list_upd_proj _ _ ho_track (e_h e) i f hobj_default Hf). exact Ho.
Qed.

Lemma lk_append_objects_k om e0 e l :
  Forall (fun o => okey o = KOther) l -> lk om e0 e -> lk om e0 (ex_set_objects e (e_objects e ++ l)).
Proof.
  intros Hl. apply lk_k. intros [Ho HT]. split; [|exact HT].
  intros j o Hj. change (e_objects (ex_set_objects e (e_objects e ++ l))) with (e_objects e ++ l) in Hj.
  change (e_h (ex_set_objects e (e_objects e ++ l))) with (e_h e).
  destruct (Nat.lt_ge_cases j (length (e_objects e))) as [Hlt|Hge].
  - rewrite nth_error_app1 in Hj by exact Hlt. apply Ho. exact Hj.
  - rewrite nth_error_app2 in Hj by exact Hge. apply nth_error_In in Hj.
    rewrite Forall_forall in Hl. unfold obj_ok. rewrite (Hl _ Hj). exact I.
Qed.

(* MTrackDrop *)
Lemma lk_track_drop_k om e0 e k :
  ho_track (get_h e k) = true -> lk om e0 e ->
  lk om e0 (upd_object (upd_hobj e k (fun ho => ho_set_track ho false)) k (fun _ => OAlloc true)).
Proof.
  intros Htr. apply lk_k. intros [Ho HT]. split; [|exact HT].
  pose proof (get_h_track_lt e k Htr) as Hlt.
  intros j o Hj. rewrite e_objects_upd_object, e_objects_upd_hobj in Hj.
  change (e_h (upd_object (upd_hobj e k (fun ho => ho_set_track ho false)) k (fun _ => OAlloc true)))
    with (list_upd (e_h e) k (fun ho => ho_set_track ho false)).
  unfold obj_ok. rewrite list_upd_length.
  destruct (nth_list_upd_same_or _ (e_h e) k (fun ho => ho_set_track ho false) hobj_default j)
    as [Hsame|[-> Hupd]].
  - destruct (Nat.eq_dec k j) as [->|Hne].
    + (* the flag was already false: impossible *)
      unfold get_h in Htr.
      assert (Hx : nth_error (e_h e) j = Some (nth j (e_h e) hobj_default))
        by (apply nth_error_nth'; exact Hlt).
      unfold list_upd in Hsame. rewrite Hx in Hsame.
      rewrite list_set_nth_same in Hsame by exact Hlt.
      rewrite <- Hsame in Htr. cbn in Htr. discriminate Htr.
    + rewrite nth_error_list_upd_other in Hj by exact Hne. rewrite Hsame. apply (Ho j o Hj).
  - rewrite Hupd. rewrite nth_error_list_upd_same in Hj.
    destruct (nth_error (e_objects e) k) as [o0|]; cbn [option_map] in Hj; [|discriminate Hj].
    injection Hj as <-. cbn [okey]. split; [exact Hlt|]. reflexivity.
Qed.

(* ---- the helpers of Ops.v ---- *)
Lemma lk_same_k om e0 e e' :
  e_threads e' = e_threads e -> e_bodies e' = e_bodies e ->
  e_objects e' = e_objects e -> e_h e' = e_h e -> lk om e0 e -> lk om e0 e'.
Proof. intros H1 H2 H3 H4. apply lk_k, lk_same; assumption. Qed.

(* the conditions are about a variable state, so that checking them does not
   depend on the size of e *)
Lemma lk_frame_k (g : exec -> exec) om e0 e :
  (forall s, e_threads (g s) = e_threads s) -> (forall s, e_bodies (g s) = e_bodies s) ->
  (forall s, e_objects (g s) = e_objects s) -> (forall s, e_h (g s) = e_h s) ->
  lk om e0 e -> lk om e0 (g e).
Proof. intros H1 H2 H3 H4. apply lk_same_k; auto. Qed.

Lemma lk_log_op_k om e0 e me r : lk om e0 e -> lk om e0 (log_op e me r).
Proof. unfold log_op. destruct (get_thread e me); [apply lk_same_k; reflexivity|auto]. Qed.
Lemma lk_log_poll_k om e0 e me : lk om e0 e -> lk om e0 (log_poll e me).
Proof. unfold log_poll. destruct (get_thread e me); [apply lk_same_k; reflexivity|auto]. Qed.

Lemma tle_keep t t' :
  t_cont t' = t_cont t -> t_op t' = t_op t -> is_terminated t' = is_terminated t -> tle t t'.
Proof. intros Hc Ho Ht. split; [exact Hc|]. rewrite Ht. auto. Qed.

Lemma tle_revive t t' : t_cont t' = t_cont t -> is_terminated t' = false -> tle t t'.
Proof. intros Hc Ht. split; [exact Hc|]. rewrite Ht. discriminate. Qed.

Lemma tle_set_unparked t : tle t (set_unparked t).
Proof.
  unfold set_unparked. destruct (is_parked t); [apply tle_revive; reflexivity|].
  destruct (is_terminated t); [apply tle_refl|apply tle_keep; reflexivity].
Qed.

Lemma tle_trans t1 t2 t3 : tle t1 t2 -> tle t2 t3 -> tle t1 t3.
Proof.
  intros [Hc1 Ht1] [Hc2 Ht2]. split; [congruence|].
  intros H3. destruct (Ht2 H3) as [H2 Ho2]. destruct (Ht1 H2) as [H1 Ho1]. split; [exact H1|congruence].
Qed.

Lemma tle_thread_unpark t c : tle t (thread_unpark t c).
Proof.
  unfold thread_unpark. eapply tle_trans; [|apply tle_set_unparked]. apply tle_keep; reflexivity.
Qed.

Ltac tle_tac :=
  intros; cbv beta;
  repeat match goal with
         | |- context [match ?x with _ => _ end] => destruct x
         end;
  first [ apply tle_set_unparked | apply tle_thread_unpark | apply tle_refl
        | apply tle_keep; reflexivity | apply tle_revive; reflexivity ].


Lemma lk_threads_unpark_k om e0 e me id : lk om e0 e -> lk om e0 (threads_unpark e me id).
Proof. unfold threads_unpark. destruct (Nat.eqb id me); apply lk_upd_thread_k; tle_tac. Qed.

Lemma lk_fold_unpark_k om me l : forall e0 e,
  lk om e0 e -> lk om e0 (fold_left (fun e t => threads_unpark e me t) l e).
Proof.
  induction l as [|w l IH]; intros e0 e H; cbn [fold_left]; [exact H|].
  apply IH, lk_threads_unpark_k, H.
Qed.

Lemma lk_push_cont_k me e0 e ms :
  no_term ms = true -> lk (Some me) e0 e -> lk (Some me) e0 (push_cont e me ms).
Proof.
  intros Hn. apply lk_upd_me_k.
  - intros t Ht. cbn [t_cont th_set_cont]. apply tail_ok_app; assumption.
  - intros t Ht. exact Ht.
Qed.

Lemma okey_set_last_access o act tid pid v : okey (set_last_access o act tid pid v) = okey o.
Proof. destruct o; try reflexivity; destruct act; reflexivity. Qed.

Lemma schedule_lk_k om e0 e : lk om e0 e -> lk om e0 (res_exec (fst (schedule e))).
Proof.
  apply (schedule_ind (lk om e0)).
  - intros e1 p. apply lk_k, lk_same; reflexivity.
  - intros e1 a. apply lk_k, lk_same; reflexivity.
  - intros e1 nx dv. apply lk_upd_thread_k. tle_tac.
  - intros e1 i act tid pid dv. apply lk_upd_object_f_k. intros o' _. right. apply okey_set_last_access.
  - intros e1 nx. unfold reactivate. apply lk_mapi_k. tle_tac.
Qed.

Lemma schedule_lk om e : lk om e (res_exec (fst (schedule e))).
Proof. apply schedule_lk_k, lk_refl. Qed.

Lemma release_lock_lk_k om e0 e me m : lk om e0 e -> lk om e0 (release_lock e me m).
Proof.
  intros H. unfold release_lock. destruct (get_mutex e m) as [s|]; [|exact H]. cbv zeta.
  match goal with |- lk _ _ (match e_active ?E with _ => _ end) =>
    assert (H1 : lk om e0 E) by (apply lk_upd_object_k; [left; reflexivity|exact H]) end.
  destruct (e_active _); [|exact H1].
  apply lk_map_others_k; [tle_tac|]. apply lk_upd_object_k; [left; reflexivity|exact H1].
Qed.

Lemma choose_store_lk om e seed : lk om e (fst (choose_store e seed)).
Proof.
  destruct (choose_store_frame e seed) as (H1 & H2 & H3). apply lk_same; try assumption.
  unfold choose_store. destr_all; reflexivity.
Qed.

(* ---- one micro-operation ---- *)
(* the side condition of lk_upd_object_k and of bk_upd_object_k: the new object
   is of the harmless kind, or of the kind of the object it replaces, which a
   hypothesis [get_X e i = Some _] of the walk names *)
Ltac key_side :=
  first [ left; reflexivity
        | right;
          let o := fresh "o" in
          let Ho := fresh "Ho" in
          intros o Ho; conv_hyps; autorewrite with eobj in Ho;
          match goal with
          | Hg : nth_error ?l ?i = Some _, Ho' : nth_error ?l ?i = Some o |- _ =>
              rewrite Hg in Ho'; injection Ho' as Ho'; subst o
          end; reflexivity ].

Ltac hobj_side := let h := fresh "h" in intros h; reflexivity.

Ltac body_side :=
  let HT := fresh "HT" in
  intros HT; destruct HT as [_ HT];
  cbn [t_cont th_set_dpor th_set_caus thread_new];
  first [ apply HT | rewrite tail_ok_subst_waker; apply HT ].

Ltac lclose_step :=
  match goal with
  | |- lk _ ?e ?e => apply lk_refl
  | H : lk ?om ?E ?x |- lk ?om _ ?x => apply (lk_trans om _ E x); [|exact H]
  | |- lk _ _ (log_op _ _ _) => apply lk_log_op_k
  | |- lk _ _ (log_poll _ _) => apply lk_log_poll_k
  | |- lk _ _ (push_cont _ _ _) => apply lk_push_cont_k; [reflexivity|]
  | |- lk _ _ (push_guard _ _ _ _) => apply lk_upd_thread_k; [tle_tac|]
  | |- lk _ _ (drop_guard _ _ _ _) => apply lk_upd_thread_k; [tle_tac|]
  | |- lk _ _ (causality_inc _ _) => apply lk_upd_thread_k; [tle_tac|]
  | |- lk _ _ (set_slot _ _ _ _) => apply lk_upd_hobj_k; [hobj_side|]
  | |- lk _ _ (release_lock _ _ _) => apply release_lock_lk_k
  | |- lk _ _ (threads_unpark _ _ _) => apply lk_threads_unpark_k
  | |- lk _ _ (fold_left _ _ _) => apply lk_fold_unpark_k
  | |- lk _ _ (ex_set_objects ?e (e_objects ?e ++ _)) =>
      apply lk_append_objects_k; [repeat constructor|]
  | |- lk _ _ (ex_set_threads ?e (e_threads ?e ++ [_])) =>
      apply lk_append_thread_k; [reflexivity|body_side|]
  | |- lk _ _ (upd_object (upd_hobj _ _ _) _ (fun _ => OAlloc true)) =>
      apply lk_track_drop_k; [assumption|]
  | |- lk _ _ (upd_object _ _ _) => apply lk_upd_object_k; [key_side|]
  | |- lk _ _ (upd_thread _ _ _) => apply lk_upd_thread_k; [tle_tac|]
  | |- lk (Some ?me) _ (upd_thread _ ?me _) =>
      (* do_branch: the running thread is not Terminated, its pending operation may change *)
      apply lk_upd_me_k; [intros ? Ht; exact Ht|intros ? Ht; exact Ht|]
  | |- lk _ _ (upd_hobj _ _ _) => apply lk_upd_hobj_k; [hobj_side|]
  | |- lk _ _ (set_caus _ _ _) => apply lk_upd_thread_k; [tle_tac|]
  | |- lk _ _ (map_others _ _ _ _) => apply lk_map_others_k; [tle_tac|]
  | |- lk _ _ ?x =>
      let e := under_setter x in
      lazymatch eval pattern e in x with
      | ?g _ => apply (lk_frame_k g); [(intro; reflexivity)..|]
      end
  end.

(* the dead first write of a disconnected MSendPost *)
Ltac dead_write :=
  try lazymatch goal with
      | |- context [upd_object (map_others (upd_object _ _ _) _ _ _) _ _] =>
          rewrite upd_object_map_others_upd_object_const
      end;
  try lazymatch goal with
      | |- context [upd_object (upd_object _ _ _) _ _] => rewrite upd_object_upd_object_const
      end.

Ltac lclose := cbn [res_exec lp_exec]; dead_write; repeat lclose_step.

Lemma post_acquire_lk om e me m : lk om e (fst (post_acquire e me m)).
Proof.
  unfold post_acquire. destruct (get_mutex e m) as [s|] eqn:Hg; [|apply lk_refl].
  destruct (is_some (mx_lock s)); cbn [fst]; lclose.
Qed.

Lemma post_acquire_read_lk om e me r : lk om e (fst (post_acquire_read e me r)).
Proof.
  unfold post_acquire_read. destruct (get_rw e r) as [s|] eqn:Hg; [|apply lk_refl].
  destruct (rw_lock s) as [[rs|w]|]; cbn [fst]; lclose.
Qed.

Lemma post_acquire_write_lk om e me r : lk om e (fst (post_acquire_write e me r)).
Proof.
  unfold post_acquire_write. destruct (get_rw e r) as [s|] eqn:Hg; [|apply lk_refl].
  destruct (rw_lock s) as [lk0|]; cbn [fst]; lclose.
Qed.

Lemma release_read_lk om e me r : lk om e (res_exec (release_read e me r)).
Proof.
  unfold release_read. destruct (get_rw e r) as [s|] eqn:Hg; [|apply lk_refl]. cbv zeta.
  destruct (rw_lock s) as [[rs|w]|]; cbn [res_exec]; try apply lk_refl.
  destruct (set_remove me rs); lclose.
Qed.

Lemma release_write_lk om e me r : lk om e (res_exec (release_write e me r)).
Proof.
  unfold release_write. destruct (get_rw e r) as [s|] eqn:Hg; [|apply lk_refl]. lclose.
Qed.

(* The poser of the helper facts for SyncMono.walk_step, for both relations of
   this file: the goal is [R e0 X] with R = [lk om] or [bk]; the frame lemma
   [R e (h e ..)] of the call t = [h e ..] is found in the hint database
   [frames]. *)
Create HintDb frames.

Ltac leak_frame H t :=
  lazymatch goal with
  | |- ?R _ _ =>
  lazymatch t with
  | load_post ?e _ _ _ => assert (H : R e (lp_exec t)) by auto with frames
  | post_acquire ?e _ _ => assert (H : R e (fst t)) by auto with frames
  | post_acquire_read ?e _ _ => assert (H : R e (fst t)) by auto with frames
  | post_acquire_write ?e _ _ => assert (H : R e (fst t)) by auto with frames
  | release_read ?e _ _ => assert (H : R e (res_exec t)) by auto with frames
  | release_write ?e _ _ => assert (H : R e (res_exec t)) by auto with frames
  | choose_store ?e _ => assert (H : R e (fst t)) by auto with frames
  end end.

Local Hint Resolve post_acquire_lk post_acquire_read_lk post_acquire_write_lk
  release_read_lk release_write_lk choose_store_lk : frames.

Ltac lk_sched := apply schedule_lk_k.

Lemma load_post_lk me e a o : lk (Some me) e (lp_exec (load_post e me a o)).
Proof. unfold load_post. repeat walk_step lk_sched leak_frame. all: lclose. Qed.

Local Hint Resolve load_post_lk : frames.

Ltac lk_tac :=
  cbn [exec_micro]; unfold lift_path, mbind; cbv beta iota;
  repeat walk_step lk_sched leak_frame; lclose.

(* every micro-operation but MTerminate keeps both invariants, the running
   thread being known not to be Terminated; also for the state carried by MFail *)
Lemma exec_micro_lk e me m :
  m <> MTerminate -> lk (Some me) e (res_exec (exec_micro e me m)).
Proof. intros Hm. destruct m; try congruence; lk_tac. Qed.

Lemma micro_eq_term m : m = MTerminate \/ m <> MTerminate.
Proof. destruct m; first [left; reflexivity|right; discriminate]. Qed.

(* ---- one step of Scheduler::run ---- *)
Lemma LI_weaken om e : LI om e -> LI None e.
Proof.
  intros [Ho [Ht Hb]]. split; [exact Ho|]. split; [|exact Hb].
  intros i t Hi. destruct (Ht i t Hi) as [H1 H2]. split; [exact H1|].
  intros Hterm. destruct (H2 Hterm) as (_ & Hc & Hop). repeat split; [discriminate|exact Hc|exact Hop].
Qed.

Lemma LI_pop e me t m rest :
  LI None e -> nth_error (e_threads e) me = Some t -> t_cont t = m :: rest ->
  LI (Some me) (upd_thread e me (fun t => th_set_cont t rest)).
Proof.
  intros [Ho [Ht Hb]] Hme Hc. split; [exact Ho|]. split; [|exact Hb].
  intros j t' Hj. rewrite e_threads_upd_thread in Hj.
  destruct (Nat.eq_dec me j) as [<-|Hne].
  - rewrite nth_error_list_upd_same, Hme in Hj. cbn [option_map] in Hj. injection Hj as <-.
    destruct (Ht me t Hme) as [H1 H2]. split.
    + cbn [t_cont th_set_cont]. rewrite Hc in H1. exact (tail_ok_tl _ _ H1).
    + intros Hterm. destruct (H2 Hterm) as (_ & Hnil & _). congruence.
  - rewrite nth_error_list_upd_other in Hj by exact Hne.
    destruct (Ht j t' Hj) as [H1 H2]. split; [exact H1|].
    intros Hterm. destruct (H2 Hterm) as (_ & Hnil & Hop). repeat split; [congruence|exact Hnil|exact Hop].
Qed.

Theorem step_LI e me t m rest :
  LI None e -> nth_error (e_threads e) me = Some t -> t_cont t = m :: rest ->
  LI None (res_exec (exec_micro (upd_thread e me (fun t => th_set_cont t rest)) me m)).
Proof.
  intros Hi Hme Hc. pose proof (LI_pop e me t m rest Hi Hme Hc) as Hp.
  destruct (micro_eq_term m) as [->|Hm].
  - (* MTerminate: it is the last micro-operation of the thread *)
    assert (Hrest : rest = []).
    { destruct Hi as [_ [Ht _]]. destruct (Ht me t Hme) as [H1 _]. rewrite Hc in H1.
      exact (tail_ok_term _ H1). }
    subst rest. cbn [exec_micro]. apply schedule_lk.
    destruct Hp as [Ho [Ht Hb]]. split; [exact Ho|]. split; [|exact Hb].
    intros j t' Hj. rewrite e_threads_upd_thread in Hj.
    destruct (Nat.eq_dec me j) as [<-|Hne].
    + rewrite nth_error_list_upd_same in Hj.
      rewrite e_threads_upd_thread, nth_error_list_upd_same, Hme in Hj.
      cbn [option_map] in Hj. injection Hj as <-. split; [reflexivity|].
      intros _. repeat split. discriminate.
    + rewrite nth_error_list_upd_other in Hj by exact Hne.
      destruct (Ht j t' Hj) as [H1 H2]. split; [exact H1|].
      intros Hterm. destruct (H2 Hterm) as (_ & Hnil & Hop). repeat split; [discriminate|exact Hnil|exact Hop].
  - eapply LI_weaken. apply (exec_micro_lk _ me m Hm). exact Hp.
Qed.

(* ---- the initial state ---- *)
Lemma create_objects_nth ds c r : forall os, create_objects ds c r = inl os ->
  length os = length ds /\
  forall i d, nth_error ds i = Some d ->
    exists o, nth_error os i = Some o /\ create_object d c r = inl o.
Proof.
  induction ds as [|d ds IH]; intros os H; cbn [create_objects] in H.
  - injection H as <-. split; [reflexivity|]. intros [|i] d0 Hd; discriminate Hd.
  - destruct (create_object d c r) as [o|pn] eqn:Ho; [|discriminate H].
    destruct (create_objects ds c r) as [os'|pn]; [|discriminate H]. injection H as <-.
    destruct (IH os' eq_refl) as [Hlen Hn]. split; [cbn [length]; congruence|].
    intros [|i] d0 Hd; cbn [nth_error] in *.
    + injection Hd as <-. eauto.
    + apply Hn. exact Hd.
Qed.

Lemma init_objects p pa :
  length (e_objects (init_exec p pa)) = length (p_decls p) /\
  forall i d, nth_error (p_decls p) i = Some d ->
    exists o, nth_error (e_objects (init_exec p pa)) i = Some o /\
              create_object d vv_new vv_new = inl o.
Proof.
  destruct (create_objects_local (p_decls p)) as (os & Hos & _).
  unfold init_exec. cbn [e_objects]. rewrite Hos. exact (create_objects_nth _ _ _ _ Hos).
Qed.

Lemma no_term_app a b : no_term (a ++ b) = no_term a && no_term b.
Proof. unfold no_term. apply forallb_app. Qed.

Lemma expand_no_term body pc i : no_term (expand body pc i) = true.
Proof.
  destruct i; try reflexivity.
  (* ILazyGet k: [MLazyGetY k] for the yielding static, [MLazyGet k] otherwise *)
  cbn [expand]. match goal with |- context [Nat.eqb ?k 2] => destruct (Nat.eqb k 2) end; reflexivity.
Qed.

Lemma expand_body_no_term body : forall l pc, no_term (expand_body_from body pc l) = true.
Proof.
  induction l as [|i l IH]; intros pc; cbn [expand_body_from]; [reflexivity|].
  change (MBegin pc :: expand body pc i ++ expand_body_from body (S pc) l)
    with ([MBegin pc] ++ expand body pc i ++ expand_body_from body (S pc) l).
  rewrite !no_term_app, expand_no_term, IH. reflexivity.
Qed.

Lemma exit_seq_tail_ok b : tail_ok (exit_seq b) = true.
Proof. destruct b; reflexivity. Qed.

Lemma expand_prog_tail_ok p b : tail_ok (nth b (expand_prog p) []) = true.
Proof.
  destruct (nth_error (expand_prog p) b) as [l|] eqn:Hn.
  - rewrite (nth_error_nth _ _ [] Hn). unfold expand_prog in Hn. rewrite nth_error_mapi in Hn.
    destruct (nth_error (p_bodies p) b) as [body|]; [|discriminate Hn].
    cbn [option_map] in Hn. injection Hn as <-.
    apply tail_ok_app; [apply expand_body_no_term|apply exit_seq_tail_ok].
  - apply nth_error_None in Hn. rewrite nth_overflow by exact Hn. reflexivity.
Qed.

Theorem init_LI p pa : LI None (init_exec p pa).
Proof.
  split.
  - intros i o Hi. destruct (init_objects p pa) as [Hlen Hn].
    assert (Hlt : i < length (p_decls p)) by (rewrite <- Hlen; apply nth_error_Some; congruence).
    destruct (nth_error (p_decls p) i) as [d|] eqn:Hd; [|apply nth_error_None in Hd; lia].
    destruct (Hn i d Hd) as (o' & Ho' & Hc). assert (o' = o) by congruence. subst o'.
    unfold init_exec. cbn [e_h]. unfold obj_ok. rewrite map_length.
    rewrite (nth_error_nth _ _ hobj_default (map_nth_error hobj_of_decl _ _ Hd)).
    destruct d; cbn [create_object] in Hc;
      injection Hc as <-; cbn [okey]; first [exact I|exact Hlt|split; [exact Hlt|reflexivity]].
  - split.
    + intros i t Hi. unfold init_exec in Hi. cbn [e_threads] in Hi.
      destruct i as [|i]; cbn [nth_error] in Hi; [|destruct i; discriminate Hi].
      injection Hi as <-. split; [apply expand_prog_tail_ok|]. intros Hterm. discriminate Hterm.
    + intros b. apply expand_prog_tail_ok.
Qed.

(* ---- runs ---- *)
Theorem run_LI : forall fuel e, LI None e -> LI None (fst (run fuel e)).
Proof. apply run_invariant. intros e me t m rest Hi _. apply step_LI, Hi. Qed.

(* ================================================================== *)
(* 2. The end of a finished run                                        *)
(* ================================================================== *)

Lemma pendc_all_nil k cs : Forall (fun c => c = []) cs -> pendc k cs = 0.
Proof. induction 1 as [|c cs Hc _ IH]; [reflexivity|]. subst c. cbn [pendc]. exact IH. Qed.

(* every thread is Terminated, has nothing left to run and no pending
   operation; no drop is in flight; no thread is active *)
Theorem run_done_quiet fuel e e' :
  run fuel e = (e', IterDone) -> e_active e <> None -> LI None e ->
  Forall (fun t => t_state t = Terminated /\ t_cont t = [] /\ t_op t = None) (e_threads e') /\
  (forall k, pend e' k = 0) /\ e_active e' = None.
Proof.
  intros Hr Ha Hi. destruct (run_done_all_terminated _ _ _ Hr Ha) as [Hall Hact].
  pose proof (run_LI fuel e Hi) as Hi'. rewrite Hr in Hi'. cbn [fst] in Hi'.
  destruct Hi' as [_ [Ht _]].
  assert (Hq : Forall (fun t => t_state t = Terminated /\ t_cont t = [] /\ t_op t = None) (e_threads e')).
  { rewrite Forall_forall in *. intros t Hin. specialize (Hall t Hin).
    destruct (In_nth_error _ _ Hin) as (i & Hn). destruct (Ht i t Hn) as [_ H2].
    assert (Hterm : is_terminated t = true) by (unfold is_terminated; rewrite Hall; reflexivity).
    destruct (H2 Hterm) as (_ & Hc & Hop). auto. }
  split; [exact Hq|]. split; [|exact Hact].
  intros k. unfold pend, conts. apply pendc_all_nil. rewrite Forall_map.
  eapply Forall_impl; [|exact Hq]. intros t (_ & Hc & _). exact Hc.
Qed.

(* ================================================================== *)
(* 3. The three kinds of leak against the harness-level truth          *)
(* ================================================================== *)

(* what the scan says about entry k of the store *)
Definition leak_at (e : exec) (k : nat) : option leak_kind :=
  match nth_error (e_objects e) k with Some o => leak_of o | None => None end.

(* the runtime message count of channel h *)
Definition msgs (e : exec) (h : nat) : nat :=
  match get_chan e h with Some s => ch_cnt s | None => 0 end.

(* the harness-level truth about the k-th declared object: a live handle
   slot, a message in the std queue, a tracked value not yet dropped.
   (Before the undo_send fix the channel clause had to be the RUNTIME count
   [msgs]: a send after the receiver's drop was counted although the std queue
   was gone, finding F1.) *)
Definition hleak (p : prog) (e : exec) (k : nat) : option leak_kind :=
  match nth_error (p_decls p) k with
  | Some DArc => if Nat.eqb (live e k) 0 then None else Some LArc
  | Some DChan => match ho_q (get_h e k) with [] => None | _ :: _ => Some LMsgs end
  | Some DTrack => if ho_track (get_h e k) then Some LAlloc else None
  | _ => None
  end.

(* the Arcs that are not harness objects (the wakers of block_on) *)
Definition dyn_arcs_released (p : prog) (e : exec) : Prop :=
  forall i s, length (p_decls p) <= i -> nth_error (e_objects e) i = Some (OArc s) -> arc_cnt s = 0.

Lemma check_for_leaks_leak_at l :
  check_for_leaks l = None <->
  forall i o, nth_error l i = Some o -> leak_of o = None.
Proof.
  rewrite check_for_leaks_none, Forall_forall. split.
  - intros H i o Hi. apply H. eapply nth_error_In; exact Hi.
  - intros H o Hin. destruct (In_nth_error _ _ Hin) as (i & Hi). eapply H; exact Hi.
Qed.

Section FinishedRun.
  Variable fuel : nat.
  Variable p : prog.
  Variable pa : path.
  Variable e : exec.
  Hypothesis Hrun : run fuel (init_exec p pa) = (e, IterDone).

  Lemma end_is_run : e = fst (run fuel (init_exec p pa)).
  Proof. rewrite Hrun. reflexivity. Qed.

  Lemma end_LI : LI None e.
  Proof. rewrite end_is_run. apply run_LI, init_LI. Qed.

  Lemma end_h_length : length (e_h e) = length (p_decls p).
  Proof. rewrite end_is_run. apply run_h_length. Qed.

  Lemma end_chan_inv : chan_inv e.
  Proof. rewrite end_is_run. apply run_chan_inv. Qed.

  Lemma end_quiet :
    Forall (fun t => t_state t = Terminated /\ t_cont t = [] /\ t_op t = None) (e_threads e) /\
    (forall k, pend e k = 0) /\ e_active e = None.
  Proof.
    eapply run_done_quiet; [exact Hrun| |apply init_LI]. rewrite init_exec_active. discriminate.
  Qed.

  (* the k-th declared object is still at index k, and still of its kind *)
  Lemma end_decl_object k d :
    nth_error (p_decls p) k = Some d ->
    exists o0 o, create_object d vv_new vv_new = inl o0 /\
                 nth_error (e_objects e) k = Some o /\ obj_le o0 o.
  Proof.
    intros Hd. destruct (init_objects p pa) as [_ Hn]. destruct (Hn k d Hd) as (o0 & Ho0 & Hc).
    pose proof (run_mono fuel (init_exec p pa)) as Hm. rewrite <- end_is_run in Hm.
    destruct (omono_strict _ _ Hm (init_exec_track_ok p pa) k o0 Ho0) as (o & Ho & Hle).
    exists o0, o. auto.
  Qed.

  (* A1. Arc: reported iff a handle slot is still alive *)
  Theorem arc_leak_iff k :
    run_disc fuel (init_exec p pa) = true ->
    nth_error (p_decls p) k = Some DArc ->
    exists s, nth_error (e_objects e) k = Some (OArc s) /\
              arc_cnt s = live e k /\ pend e k = 0 /\
              leak_at e k = (if Nat.eqb (live e k) 0 then None else Some LArc).
  Proof.
    intros Hdisc Hd. destruct (end_decl_object k DArc Hd) as (o0 & o & Hc & Ho & Hle).
    cbn [create_object] in Hc. injection Hc as <-.
    destruct o; cbn [obj_le view_le] in Hle; try contradiction. exists s.
    assert (Hk : k < length (e_h e)).
    { rewrite end_h_length. apply nth_error_Some. congruence. }
    pose proof (run_count_inv fuel p pa Hdisc) as [Ha _]. rewrite <- end_is_run in Ha.
    pose proof (Ha k s Hk (get_arc_of_nth _ _ _ Ho)) as Hcnt.
    destruct end_quiet as (_ & Hp & _). rewrite Hp, Nat.add_0_r in Hcnt.
    split; [exact Ho|]. split; [exact Hcnt|]. split; [apply Hp|].
    unfold leak_at. rewrite Ho. cbn [leak_of]. rewrite Hcnt. reflexivity.
  Qed.

  (* A2. channel: reported iff the runtime count is positive, and the runtime
     count is the length of the std queue, receiver alive or not: a send to a
     channel whose receiver is gone does not count (Channel::undo_send); once
     the receiver is gone the count is 0, so such a channel is never reported *)
  Theorem chan_leak_iff h :
    nth_error (p_decls p) h = Some DChan ->
    exists s, nth_error (e_objects e) h = Some (OChannel s) /\ msgs e h = ch_cnt s /\
              leak_at e h = (if Nat.eqb (msgs e h) 0 then None else Some LMsgs) /\
              msgs e h = length (ho_q (get_h e h)) /\
              (ho_rx (get_h e h) = false -> msgs e h = 0).
  Proof.
    intros Hd. destruct (end_decl_object h DChan Hd) as (o0 & o & Hc & Ho & Hle).
    cbn [create_object] in Hc. injection Hc as <-.
    destruct o; cbn [obj_le] in Hle; try contradiction. exists s.
    assert (Hk : h < length (e_h e)).
    { rewrite end_h_length. apply nth_error_Some. congruence. }
    pose proof (get_chan_of_nth _ _ _ Ho) as Hg.
    destruct (chan_inv_queue_length e h s end_chan_inv Hk Hg) as (_ & Hq & Hz).
    assert (Hm : msgs e h = ch_cnt s) by (unfold msgs; rewrite Hg; reflexivity).
    split; [exact Ho|]. split; [exact Hm|]. split.
    - unfold leak_at. rewrite Ho, Hm. reflexivity.
    - rewrite Hm. split; [symmetry; exact Hq|exact Hz].
  Qed.

  (* the scan against the std queue, receiver alive or not *)
  Corollary chan_leak_queue h :
    nth_error (p_decls p) h = Some DChan ->
    leak_at e h = (match ho_q (get_h e h) with [] => None | _ :: _ => Some LMsgs end).
  Proof.
    intros Hd. destruct (chan_leak_iff h Hd) as (s & _ & _ & Hl & Hq & _).
    rewrite Hl, Hq. destruct (ho_q (get_h e h)); reflexivity.
  Qed.

  Corollary chan_leak_rx_alive h :
    nth_error (p_decls p) h = Some DChan -> ho_rx (get_h e h) = true ->
    leak_at e h = (match ho_q (get_h e h) with [] => None | _ :: _ => Some LMsgs end).
  Proof. intros Hd _. apply chan_leak_queue, Hd. Qed.

  (* a channel whose receiver has been dropped holds nothing and is not reported *)
  Corollary chan_leak_rx_dropped h :
    nth_error (p_decls p) h = Some DChan -> ho_rx (get_h e h) = false ->
    ho_q (get_h e h) = [] /\ msgs e h = 0 /\ leak_at e h = None.
  Proof.
    intros Hd Hrx. destruct (chan_leak_iff h Hd) as (s & _ & _ & Hl & Hq & Hz).
    specialize (Hz Hrx). rewrite Hz in Hq, Hl. split; [|split; [exact Hz|exact Hl]].
    destruct (ho_q (get_h e h)); [reflexivity|discriminate Hq].
  Qed.

  (* A3. Track: reported iff the tracked value was never dropped *)
  Theorem track_leak_iff k :
    nth_error (p_decls p) k = Some DTrack ->
    nth_error (e_objects e) k = Some (OAlloc (negb (ho_track (get_h e k)))) /\
    leak_at e k = (if ho_track (get_h e k) then Some LAlloc else None).
  Proof.
    intros Hd. destruct (end_decl_object k DTrack Hd) as (o0 & o & Hc & Ho & Hle).
    cbn [create_object] in Hc. injection Hc as <-.
    destruct o; cbn [obj_le view_le] in Hle; try contradiction.
    destruct end_LI as [Hoi _]. pose proof (Hoi k _ Ho) as Hok. unfold obj_ok in Hok.
    cbn [okey] in Hok. destruct Hok as [_ Hdr]. fold (get_h e k) in Hdr. subst dropped.
    split; [exact Ho|]. unfold leak_at. rewrite Ho. cbn [leak_of].
    destruct (ho_track (get_h e k)); reflexivity.
  Qed.

  (* the other declared objects never leak *)
  Theorem other_decl_never_leaks k d :
    nth_error (p_decls p) k = Some d ->
    d <> DArc -> d <> DChan -> d <> DTrack -> leak_at e k = None.
  Proof.
    intros Hd H1 H2 H3. destruct (end_decl_object k d Hd) as (o0 & o & Hc & Ho & Hle).
    unfold leak_at. rewrite Ho.
    destruct d; try congruence; cbn [create_object] in Hc;
      try (injection Hc as <-; destruct o; cbn [obj_le view_le] in Hle; try contradiction; reflexivity).
  Qed.

  (* all declared objects at once *)
  Theorem declared_leak_exact k :
    run_disc fuel (init_exec p pa) = true ->
    k < length (p_decls p) -> leak_at e k = hleak p e k.
  Proof.
    intros Hdisc Hk. unfold hleak.
    destruct (nth_error (p_decls p) k) as [d|] eqn:Hd; [|apply nth_error_None in Hd; lia].
    destruct d;
      try (apply (other_decl_never_leaks k _ Hd); discriminate).
    - apply (chan_leak_queue k Hd).
    - destruct (arc_leak_iff k Hdisc Hd) as (s & _ & _ & _ & Hl). exact Hl.
    - destruct (track_leak_iff k Hd) as [_ Hl]. exact Hl.
  Qed.

  (* beyond the declared objects only Arcs (the wakers of block_on) can leak *)
  Lemma dyn_leak_is_arc i o kd :
    length (p_decls p) <= i -> nth_error (e_objects e) i = Some o -> leak_of o = Some kd ->
    exists s, o = OArc s /\ kd = LArc /\ arc_cnt s <> 0.
  Proof.
    intros Hi Ho Hl. destruct end_LI as [Hoi _]. pose proof (Hoi i o Ho) as Hok.
    unfold obj_ok in Hok. rewrite end_h_length in Hok.
    destruct o; cbn [leak_of okey] in *; try discriminate Hl; try lia.
    destruct (Nat.eqb_spec (arc_cnt s) 0) as [Hz|Hz]; [discriminate Hl|].
    injection Hl as <-. eauto.
  Qed.

  (* ================================================================ *)
  (* 4. The verdict                                                    *)
  (* ================================================================ *)

  Lemma scan_passes_iff :
    run_disc fuel (init_exec p pa) = true ->
    (check_for_leaks (e_objects e) = None <->
     (forall k, k < length (p_decls p) -> hleak p e k = None) /\ dyn_arcs_released p e).
  Proof.
    intros Hdisc. rewrite check_for_leaks_leak_at. split.
    - intros H. split.
      + intros k Hk. rewrite <- (declared_leak_exact k Hdisc Hk). unfold leak_at.
        destruct (nth_error (e_objects e) k) as [o|] eqn:Ho; [eapply H; exact Ho|reflexivity].
      + intros i s Hi Ho. pose proof (H i _ Ho) as Hl. cbn [leak_of] in Hl.
        destruct (Nat.eqb_spec (arc_cnt s) 0) as [Hz|Hz]; [exact Hz|discriminate Hl].
    - intros [Hdecl Hdyn] i o Ho.
      destruct (Nat.lt_ge_cases i (length (p_decls p))) as [Hlt|Hge].
      + pose proof (declared_leak_exact i Hdisc Hlt) as Hx. unfold leak_at in Hx.
        rewrite Ho in Hx. rewrite Hx. apply Hdecl. exact Hlt.
      + destruct (leak_of o) as [kd|] eqn:Hl; [|reflexivity]. exfalso.
        destruct (dyn_leak_is_arc i o kd Hge Ho Hl) as (s & -> & _ & Hnz).
        apply Hnz. eapply Hdyn; eassumption.
  Qed.

  (* A4. the iteration ends without a leak panic iff nothing is alive *)
  Theorem iteration_done_iff :
    run_disc fuel (init_exec p pa) = true ->
    (iteration fuel p pa = (e, IterDone) <->
     (forall k, k < length (p_decls p) -> hleak p e k = None) /\ dyn_arcs_released p e).
  Proof.
    intros Hdisc. rewrite <- (scan_passes_iff Hdisc), (iteration_after_done _ _ _ _ Hrun).
    destruct (check_for_leaks (e_objects e)); split; intros H; congruence.
  Qed.

  (* the same, spelled out: no handle alive, no message held, no tracked value
     alive, all wakers released: the leak check passes *)
  Theorem no_leak_passes :
    run_disc fuel (init_exec p pa) = true ->
    (forall k, nth_error (p_decls p) k = Some DArc -> live e k = 0) ->
    (forall h, nth_error (p_decls p) h = Some DChan -> ho_q (get_h e h) = []) ->
    (forall k, nth_error (p_decls p) k = Some DTrack -> ho_track (get_h e k) = false) ->
    dyn_arcs_released p e ->
    iteration fuel p pa = (e, IterDone).
  Proof.
    intros Hdisc Ha Hc Ht Hdyn. apply (iteration_done_iff Hdisc). split; [|exact Hdyn].
    intros k Hk. unfold hleak. destruct (nth_error (p_decls p) k) as [d|] eqn:Hd; [|reflexivity].
    destruct d; try reflexivity.
    - rewrite (Hc k Hd). reflexivity.
    - rewrite (Ha k Hd). reflexivity.
    - rewrite (Ht k Hd). reflexivity.
  Qed.

  (* "no message held" (runtime count) is "the std queue is empty" *)
  Lemma msgs_zero_of_empty_queue h :
    nth_error (p_decls p) h = Some DChan ->
    ho_q (get_h e h) = [] -> msgs e h = 0.
  Proof.
    intros Hd Hq. destruct (chan_leak_iff h Hd) as (s & _ & _ & _ & Hx & _).
    rewrite Hq in Hx. exact Hx.
  Qed.

  (* a reported leak is true, and it is the first one in index order *)
  Theorem leak_reported_is_true kd i :
    run_disc fuel (init_exec p pa) = true ->
    iteration fuel p pa = (e, IterPanic (PanicLeak kd i)) ->
    (forall j, j < i -> j < length (p_decls p) -> hleak p e j = None) /\
    (forall j s, j < i -> length (p_decls p) <= j ->
                 nth_error (e_objects e) j = Some (OArc s) -> arc_cnt s = 0) /\
    ((i < length (p_decls p) /\ hleak p e i = Some kd) \/
     (length (p_decls p) <= i /\ kd = LArc /\
      exists s, nth_error (e_objects e) i = Some (OArc s) /\ arc_cnt s <> 0)).
  Proof.
    intros Hdisc Hit.
    destruct (iteration_leak_is_first_leaking_entry _ _ _ _ _ _ Hit) as (o & Ho & Hl & Hmin).
    split; [|split].
    - intros j Hj Hjd. rewrite <- (declared_leak_exact j Hdisc Hjd). unfold leak_at.
      destruct (nth_error (e_objects e) j) as [o'|] eqn:Ho'; [eapply Hmin; eassumption|reflexivity].
    - intros j s Hj Hjd Ho'. pose proof (Hmin j _ Hj Ho') as Hx. cbn [leak_of] in Hx.
      destruct (Nat.eqb_spec (arc_cnt s) 0) as [Hz|Hz]; [exact Hz|discriminate Hx].
    - destruct (Nat.lt_ge_cases i (length (p_decls p))) as [Hlt|Hge].
      + left. split; [exact Hlt|]. rewrite <- (declared_leak_exact i Hdisc Hlt).
        unfold leak_at. rewrite Ho. exact Hl.
      + right. destruct (dyn_leak_is_arc i o kd Hge Ho Hl) as (s & -> & -> & Hnz). eauto.
  Qed.

  (* conversely every true leak makes the iteration fail with a leak panic *)
  Theorem true_leak_is_reported k kd :
    run_disc fuel (init_exec p pa) = true ->
    k < length (p_decls p) -> hleak p e k = Some kd ->
    exists kd' i, i <= k /\ iteration fuel p pa = (e, IterPanic (PanicLeak kd' i)).
  Proof.
    intros Hdisc Hk Hh. rewrite (iteration_after_done _ _ _ _ Hrun).
    destruct (check_for_leaks (e_objects e)) as [pn|] eqn:Hl.
    - apply check_for_leaks_first in Hl. destruct Hl as (i & o & kd' & -> & Hn & Hlk & Hmin).
      exists kd', i. split; [|reflexivity].
      destruct (Nat.le_gt_cases i k) as [Hle|Hgt]; [exact Hle|]. exfalso.
      pose proof (declared_leak_exact k Hdisc Hk) as Hx. unfold leak_at in Hx.
      destruct (nth_error (e_objects e) k) as [o'|] eqn:Ho'.
      + rewrite (Hmin k o' Hgt Ho') in Hx. congruence.
      + congruence.
    - exfalso. apply (scan_passes_iff Hdisc) in Hl. destruct Hl as [Hd _].
      rewrite (Hd k Hk) in Hh. discriminate Hh.
  Qed.

End FinishedRun.

(* ================================================================== *)
(* 5. Examples and witnesses                                           *)
(* ================================================================== *)

Definition cfgK : config := mkConfig 5 1000 None None None false.
Definition is_none {A} (o : option A) : bool := match o with None => true | Some _ => false end.

(* everything released, in every schedule the model explores: never reported *)
Definition p_clean : prog := mkProg cfgK [DArc; DChan; DTrack]
  [[IArcClone 0 0 1; ISpawn 1; ISend 1 7; IArcDrop 0 0; ITrackDrop 2; IJoin 1];
   [IRecv 1; IArcDrop 0 1]].

Example clean_program_passes :
  snd (fst (check 100 1000 p_clean)) = RunOk /\
  forallb (fun r => match ir_result r with IterDone => true | _ => false end)
          (fst (fst (check 100 1000 p_clean))) = true.
Proof. vm_compute. split; reflexivity. Qed.

(* a handle that is never dropped; a message that is never received; a tracked
   value that is never dropped: the first leaking entry is reported *)
Definition p_three : prog := mkProg cfgK [DTrack; DChan; DArc] [[ISend 1 3]].
Definition e_three : exec := fst (iteration 1000 p_three (initial_path cfgK)).

Example three_leaks_first_reported :
  snd (iteration 1000 p_three (initial_path cfgK)) = IterPanic (PanicLeak LAlloc 0) /\
  map (hleak p_three e_three) [0; 1; 2] = [Some LAlloc; Some LMsgs; Some LArc] /\
  run_disc 1000 (init_exec p_three (initial_path cfgK)) = true.
Proof. vm_compute. repeat split; reflexivity. Qed.

(* F1 (fixed): a message that was handed back to the sender is NOT reported.
   Before the undo_send fix this iteration ended with PanicLeak LMsgs 0 and
   msgs = 1. *)
Definition p_send_after_drop : prog := mkProg cfgK [DChan] [[IDropRx 0; ISend 0 5]].
Definition e_sad : exec := fst (iteration 1000 p_send_after_drop (initial_path cfgK)).

Lemma send_after_drop_not_reported :
  snd (iteration 1000 p_send_after_drop (initial_path cfgK)) = IterDone /\
  rev (e_log e_sad) = [LOp 0 0 RUnit; LOp 0 1 RDisc] /\
  ho_rx (get_h e_sad 0) = false /\ ho_q (get_h e_sad 0) = [] /\ msgs e_sad 0 = 0 /\
  hleak p_send_after_drop e_sad 0 = None.
Proof. vm_compute. repeat split; reflexivity. Qed.

(* F2: the waker of block_on left in the AtomicWaker.  main polls (value 0),
   clones its waker; t1 stores 1 and wakes (the AtomicWaker is still empty);
   main registers the clone, polls again, finds 1 and returns: the clone stays
   registered.  No declared object leaks; the scan reports the waker's Arc. *)
Definition p_waker : prog := mkProg cfgK [DAtomic 0; DWaker]
  [[ISpawn 1; IBlockOn 0 1 1; IJoin 1]; [IStore 0 1 SeqCst; IWake 1]].
Definition pa_waker : path :=
  match rev (fst (fst (check 100 1000 p_waker))) with r :: _ => ir_begin r | [] => initial_path cfgK end.
Definition e_waker : exec := fst (iteration 1000 p_waker pa_waker).

Lemma waker_left_registered_reported :
  snd (fst (check 100 1000 p_waker)) = RunPanic (PanicLeak LArc 4) /\
  snd (iteration 1000 p_waker pa_waker) = IterPanic (PanicLeak LArc 4) /\
  length (p_decls p_waker) = 2 /\
  forallb (fun k => is_none (hleak p_waker e_waker k)) [0; 1] = true /\
  is_some (ho_waker (get_h e_waker 1)) = true.
Proof. vm_compute. repeat split; reflexivity. Qed.

Print Assumptions exec_micro_no_leak.
Print Assumptions iteration_leak_iff.
Print Assumptions iteration_leak_is_first_leaking_entry.
Print Assumptions step_LI.
Print Assumptions run_LI.
Print Assumptions run_done_quiet.
Print Assumptions arc_leak_iff.
Print Assumptions chan_leak_iff.
Print Assumptions chan_leak_queue.
Print Assumptions chan_leak_rx_alive.
Print Assumptions chan_leak_rx_dropped.
Print Assumptions track_leak_iff.
Print Assumptions other_decl_never_leaks.
Print Assumptions declared_leak_exact.
Print Assumptions iteration_done_iff.
Print Assumptions no_leak_passes.
Print Assumptions leak_reported_is_true.
Print Assumptions true_leak_is_reported.
Print Assumptions send_after_drop_not_reported.
Print Assumptions waker_left_registered_reported.

(* ================================================================== *)
(* 6. Programs without block_on: declared objects are all there is     *)
(* ================================================================== *)

(* The only Arcs that are not harness objects are the wakers created by
   future::block_on (MBlockOn / MBlockOnS).  A program that never calls block_on
   never has one, and [dyn_arcs_released] holds trivially: for such programs the
   leak check passes iff no declared object leaks at the harness level. *)

Definition is_bo (m : micro) : bool :=
  match m with MBlockOn _ _ _ | MBlockOnS _ _ _ _ => true | _ => false end.
Definition nobo (c : list micro) : bool := forallb (fun m => negb (is_bo m)) c.

Definition is_bo_instr (i : instr) : bool :=
  match i with IBlockOn _ _ _ | IBlockOnS _ _ _ _ => true | _ => false end.
Definition prog_nobo (p : prog) : bool :=
  forallb (forallb (fun i => negb (is_bo_instr i))) (p_bodies p).

Definition akey (o : object) : bool := match o with OArc _ => true | _ => false end.

Definition BF (e : exec) : Prop :=
  (forall i t, nth_error (e_threads e) i = Some t -> nobo (t_cont t) = true) /\
  (forall b, nobo (nth b (e_bodies e) []) = true) /\
  (forall i o, nth_error (e_objects e) i = Some o -> akey o = true -> i < length (e_h e)).

Definition bk (e e' : exec) : Prop := BF e -> BF e'.

Lemma bk_refl e : bk e e.
Proof. intros H. exact H. Qed.
Lemma bk_trans e1 e2 e3 : bk e1 e2 -> bk e2 e3 -> bk e1 e3.
Proof. unfold bk. auto. Qed.
Lemma bk_k e0 e e' : bk e e' -> bk e0 e -> bk e0 e'.
Proof. unfold bk. auto. Qed.

Lemma nobo_app a b : nobo (a ++ b) = nobo a && nobo b.
Proof. unfold nobo. apply forallb_app. Qed.

Lemma nobo_subst_waker n k : forall c used, nobo (subst_waker n k used c) = nobo c.
Proof.
  induction c as [|m c IH]; intros used; [reflexivity|].
  destruct m; cbn [subst_waker]; try destruct used; unfold nobo in *; cbn [forallb is_bo negb andb];
    rewrite ?IH; reflexivity.
Qed.

Lemma bk_same_k e0 e e' :
  e_threads e' = e_threads e -> e_bodies e' = e_bodies e ->
  e_objects e' = e_objects e -> e_h e' = e_h e -> bk e0 e -> bk e0 e'.
Proof.
  intros Ht Hb Ho Hh. apply bk_k. intros (H1 & H2 & H3). unfold BF. rewrite Ht, Hb, Ho, Hh. auto.
Qed.

Lemma bk_set_threads_k e0 e ths :
  (BF e -> forall i t', nth_error ths i = Some t' -> nobo (t_cont t') = true) ->
  bk e0 e -> bk e0 (ex_set_threads e ths).
Proof. intros Hf. apply bk_k. intros HB. split; [exact (Hf HB)|exact (proj2 HB)]. Qed.

Lemma bk_upd_thread_k e0 e i f :
  (forall t, nobo (t_cont t) = true -> nobo (t_cont (f t)) = true) ->
  bk e0 e -> bk e0 (upd_thread e i f).
Proof.
  intros Hf. apply bk_set_threads_k. intros (Ht & _) j t' Hj.
  destruct (nth_error_list_upd_inv _ _ _ _ _ _ Hj) as (t & Hn & [->|[_ ->]]).
  - eapply Ht; exact Hn.
  - apply Hf. eapply Ht; exact Hn.
Qed.

Lemma bk_mapi_k e0 e g :
  (forall id t, t_cont (g id t) = t_cont t) ->
  bk e0 e -> bk e0 (ex_set_threads e (mapi g (e_threads e))).
Proof.
  intros Hg. apply bk_set_threads_k. intros (Ht & _) j t' Hj.
  rewrite nth_error_mapi in Hj. destruct (nth_error (e_threads e) j) as [t|] eqn:Hn;
    cbn [option_map] in Hj; [|discriminate Hj]. injection Hj as <-. rewrite Hg. eapply Ht; exact Hn.
Qed.

Lemma bk_map_others_k e0 e me p f :
  (forall t, t_cont (f t) = t_cont t) -> bk e0 e -> bk e0 (map_others e me p f).
Proof.
  intros Hf. unfold map_others. apply bk_mapi_k. intros id t.
  destruct (negb (Nat.eqb id me) && p t); [apply Hf|reflexivity].
Qed.

Lemma bk_append_thread_k e0 e nt :
  (BF e -> nobo (t_cont nt) = true) -> bk e0 e -> bk e0 (ex_set_threads e (e_threads e ++ [nt])).
Proof.
  intros Hc. apply bk_set_threads_k. intros HB j t' Hj.
  destruct (Nat.lt_ge_cases j (length (e_threads e))) as [Hlt|Hge].
  - rewrite nth_error_app1 in Hj by exact Hlt. eapply (proj1 HB); exact Hj.
  - rewrite nth_error_app2 in Hj by exact Hge.
    destruct (j - length (e_threads e)) as [|d]; cbn [nth_error] in Hj;
      [|destruct d; discriminate Hj].
    injection Hj as <-. exact (Hc HB).
Qed.

Lemma bk_upd_object_f_k e0 e i f :
  (forall o, nth_error (e_objects e) i = Some o -> akey (f o) = false \/ akey o = true) ->
  bk e0 e -> bk e0 (upd_object e i f).
Proof.
  intros Hf. apply bk_k. intros (H1 & H2 & H3). split; [exact H1|]. split; [exact H2|].
  intros j o Hj Hk. rewrite e_objects_upd_object in Hj. change (e_h (upd_object e i f)) with (e_h e).
  destruct (nth_error_list_upd_inv _ _ _ _ _ _ Hj) as (o0 & Hn & [->|[-> ->]]).
  - eapply H3; eassumption.
  - destruct (Hf _ Hn) as [Hx|Hx]; [congruence|]. eapply H3; [exact Hn|exact Hx].
Qed.

Lemma bk_upd_object_k e0 e i o' :
  (akey o' = false \/ forall o, nth_error (e_objects e) i = Some o -> akey o = true) ->
  bk e0 e -> bk e0 (upd_object e i (fun _ => o')).
Proof.
  intros Hf. apply bk_upd_object_f_k. intros o Ho. destruct Hf as [Hk|Hk]; [left; exact Hk|right; auto].
Qed.

Lemma bk_upd_hobj_k e0 e i f : bk e0 e -> bk e0 (upd_hobj e i f).
Proof.
  apply bk_k. intros (H1 & H2 & H3). split; [exact H1|]. split; [exact H2|].
  intros j o Hj Hk. change (e_h (upd_hobj e i f)) with (list_upd (e_h e) i f).
  rewrite list_upd_length. eapply H3; eassumption.
Qed.

Lemma bk_append_objects_k e0 e l :
  Forall (fun o => akey o = false) l -> bk e0 e -> bk e0 (ex_set_objects e (e_objects e ++ l)).
Proof.
  intros Hl. apply bk_k. intros (H1 & H2 & H3). split; [exact H1|]. split; [exact H2|].
  intros j o Hj Hk. change (nth_error (e_objects e ++ l) j = Some o) in Hj.
  change (e_h (ex_set_objects e (e_objects e ++ l))) with (e_h e).
  destruct (Nat.lt_ge_cases j (length (e_objects e))) as [Hlt|Hge].
  - rewrite nth_error_app1 in Hj by exact Hlt. eapply H3; eassumption.
  - rewrite nth_error_app2 in Hj by exact Hge. apply nth_error_In in Hj.
    rewrite Forall_forall in Hl. rewrite (Hl _ Hj) in Hk. discriminate Hk.
Qed.

Lemma bk_frame_k (g : exec -> exec) e0 e :
  (forall s, e_threads (g s) = e_threads s) -> (forall s, e_bodies (g s) = e_bodies s) ->
  (forall s, e_objects (g s) = e_objects s) -> (forall s, e_h (g s) = e_h s) ->
  bk e0 e -> bk e0 (g e).
Proof. intros H1 H2 H3 H4. apply bk_same_k; auto. Qed.

Lemma bk_log_op_k e0 e me r : bk e0 e -> bk e0 (log_op e me r).
Proof. unfold log_op. destruct (get_thread e me); [apply bk_same_k; reflexivity|auto]. Qed.
Lemma bk_log_poll_k e0 e me : bk e0 e -> bk e0 (log_poll e me).
Proof. unfold log_poll. destruct (get_thread e me); [apply bk_same_k; reflexivity|auto]. Qed.

Lemma t_cont_set_unparked t : t_cont (set_unparked t) = t_cont t.
Proof. unfold set_unparked. destruct (is_parked t); [reflexivity|]. destruct (is_terminated t); reflexivity. Qed.

Ltac keepc_tac :=
  intros; cbv beta;
  repeat match goal with
         | |- context [match ?x with _ => _ end] => destruct x
         end;
  first [ assumption | reflexivity | apply t_cont_set_unparked
        | (unfold thread_unpark; rewrite t_cont_set_unparked; first [assumption|reflexivity])
        | (rewrite t_cont_set_unparked; assumption) ].


Lemma bk_threads_unpark_k e0 e me id : bk e0 e -> bk e0 (threads_unpark e me id).
Proof. unfold threads_unpark. destruct (Nat.eqb id me); apply bk_upd_thread_k; keepc_tac. Qed.

Lemma bk_fold_unpark_k me l : forall e0 e,
  bk e0 e -> bk e0 (fold_left (fun e t => threads_unpark e me t) l e).
Proof.
  induction l as [|w l IH]; intros e0 e H; cbn [fold_left]; [exact H|].
  apply IH, bk_threads_unpark_k, H.
Qed.

Lemma bk_push_cont_k e0 e me ms : nobo ms = true -> bk e0 e -> bk e0 (push_cont e me ms).
Proof.
  intros Hn. apply bk_upd_thread_k. intros t Ht. cbn [t_cont th_set_cont].
  rewrite nobo_app, Hn, Ht. reflexivity.
Qed.

Lemma akey_set_last_access o act tid pid v : akey (set_last_access o act tid pid v) = akey o.
Proof. destruct o; try reflexivity; destruct act; reflexivity. Qed.

Lemma schedule_bk_k e0 e : bk e0 e -> bk e0 (res_exec (fst (schedule e))).
Proof.
  apply (schedule_ind (bk e0)).
  - intros e1 p. apply bk_same_k; reflexivity.
  - intros e1 a. apply bk_same_k; reflexivity.
  - intros e1 nx dv. apply bk_upd_thread_k. keepc_tac.
  - intros e1 i act tid pid dv. apply bk_upd_object_f_k.
    intros o' _. rewrite akey_set_last_access. destruct (akey o'); auto.
  - intros e1 nx. unfold reactivate. apply bk_mapi_k. keepc_tac.
Qed.

Lemma schedule_bk e : bk e (res_exec (fst (schedule e))).
Proof. apply schedule_bk_k, bk_refl. Qed.

Lemma release_lock_bk_k e0 e me m : bk e0 e -> bk e0 (release_lock e me m).
Proof.
  intros H. unfold release_lock. destruct (get_mutex e m) as [s|]; [|exact H]. cbv zeta.
  match goal with |- bk _ (match e_active ?E with _ => _ end) =>
    assert (H1 : bk e0 E) by (apply bk_upd_object_k; [left; reflexivity|exact H]) end.
  destruct (e_active _); [|exact H1].
  apply bk_map_others_k; [keepc_tac|]. apply bk_upd_object_k; [left; reflexivity|exact H1].
Qed.

Lemma choose_store_bk e seed : bk e (fst (choose_store e seed)).
Proof.
  destruct (choose_store_frame e seed) as (H1 & H2 & H3).
  apply (bk_same_k e e); [exact H1| |exact H2|exact H3|apply bk_refl].
  unfold choose_store. destr_all; reflexivity.
Qed.

Ltac bbody_side :=
  let HB := fresh "HB" in
  intros HB; destruct HB as (_ & HB & _);
  cbn [t_cont th_set_dpor th_set_caus thread_new];
  first [ apply HB | rewrite nobo_subst_waker; apply HB ].

Ltac bclose_step :=
  match goal with
  | |- bk ?e ?e => apply bk_refl
  | H : bk ?E ?x |- bk _ ?x => apply (bk_trans _ E x); [|exact H]
  | |- bk _ (log_op _ _ _) => apply bk_log_op_k
  | |- bk _ (log_poll _ _) => apply bk_log_poll_k
  | |- bk _ (push_cont _ _ _) => apply bk_push_cont_k; [reflexivity|]
  | |- bk _ (push_guard _ _ _ _) => apply bk_upd_thread_k; [keepc_tac|]
  | |- bk _ (drop_guard _ _ _ _) => apply bk_upd_thread_k; [keepc_tac|]
  | |- bk _ (causality_inc _ _) => apply bk_upd_thread_k; [keepc_tac|]
  | |- bk _ (set_slot _ _ _ _) => apply bk_upd_hobj_k
  | |- bk _ (release_lock _ _ _) => apply release_lock_bk_k
  | |- bk _ (threads_unpark _ _ _) => apply bk_threads_unpark_k
  | |- bk _ (fold_left _ _ _) => apply bk_fold_unpark_k
  | |- bk _ (ex_set_objects ?e (e_objects ?e ++ _)) =>
      apply bk_append_objects_k; [repeat constructor|]
  | |- bk _ (ex_set_threads ?e (e_threads ?e ++ [_])) =>
      apply bk_append_thread_k; [bbody_side|]
  | |- bk _ (upd_object _ _ _) => apply bk_upd_object_k; [key_side|]
  | |- bk _ (upd_thread _ _ _) => apply bk_upd_thread_k; [keepc_tac|]
  | |- bk _ (upd_hobj _ _ _) => apply bk_upd_hobj_k
  | |- bk _ (set_caus _ _ _) => apply bk_upd_thread_k; [keepc_tac|]
  | |- bk _ (map_others _ _ _ _) => apply bk_map_others_k; [keepc_tac|]
  | |- bk _ ?x =>
      let e := under_setter x in
      lazymatch eval pattern e in x with
      | ?g _ => apply (bk_frame_k g); [(intro; reflexivity)..|]
      end
  end.

Ltac bclose := cbn [res_exec lp_exec]; dead_write; repeat bclose_step.

Lemma post_acquire_bk e me m : bk e (fst (post_acquire e me m)).
Proof.
  unfold post_acquire. destruct (get_mutex e m) as [s|] eqn:Hg; [|apply bk_refl].
  destruct (is_some (mx_lock s)); cbn [fst]; bclose.
Qed.

Lemma post_acquire_read_bk e me r : bk e (fst (post_acquire_read e me r)).
Proof.
  unfold post_acquire_read. destruct (get_rw e r) as [s|] eqn:Hg; [|apply bk_refl].
  destruct (rw_lock s) as [[rs|w]|]; cbn [fst]; bclose.
Qed.

Lemma post_acquire_write_bk e me r : bk e (fst (post_acquire_write e me r)).
Proof.
  unfold post_acquire_write. destruct (get_rw e r) as [s|] eqn:Hg; [|apply bk_refl].
  destruct (rw_lock s) as [lk0|]; cbn [fst]; bclose.
Qed.

Lemma release_read_bk e me r : bk e (res_exec (release_read e me r)).
Proof.
  unfold release_read. destruct (get_rw e r) as [s|] eqn:Hg; [|apply bk_refl]. cbv zeta.
  destruct (rw_lock s) as [[rs|w]|]; cbn [res_exec]; try apply bk_refl.
  destruct (set_remove me rs); bclose.
Qed.

Lemma release_write_bk e me r : bk e (res_exec (release_write e me r)).
Proof.
  unfold release_write. destruct (get_rw e r) as [s|] eqn:Hg; [|apply bk_refl]. bclose.
Qed.

Local Hint Resolve post_acquire_bk post_acquire_read_bk post_acquire_write_bk
  release_read_bk release_write_bk choose_store_bk : frames.

Ltac bk_sched := apply schedule_bk_k.

Lemma load_post_bk e me a o : bk e (lp_exec (load_post e me a o)).
Proof. unfold load_post. repeat walk_step bk_sched leak_frame. all: bclose. Qed.

Local Hint Resolve load_post_bk : frames.

Ltac bk_tac :=
  cbn [exec_micro]; unfold lift_path, mbind; cbv beta iota;
  repeat walk_step bk_sched leak_frame; bclose.

Lemma exec_micro_bk e me m : is_bo m = false -> bk e (res_exec (exec_micro e me m)).
Proof. intros Hm. destruct m; try discriminate Hm; bk_tac. Qed.

Theorem step_BF e me t m rest :
  BF e -> nth_error (e_threads e) me = Some t -> t_cont t = m :: rest ->
  BF (res_exec (exec_micro (upd_thread e me (fun t => th_set_cont t rest)) me m)).
Proof.
  intros HB Hme Hc.
  assert (Hmr : nobo (m :: rest) = true) by (rewrite <- Hc; eapply (proj1 HB); exact Hme).
  unfold nobo in Hmr. cbn [forallb] in Hmr. apply andb_prop in Hmr. destruct Hmr as [Hm Hrest].
  apply exec_micro_bk; [destruct (is_bo m); [discriminate Hm|reflexivity]|].
  revert HB. apply bk_upd_thread_k; [|apply bk_refl]. intros t0 _.
  (* only thread me is changed, and its new continuation is [rest] *)
  exact Hrest.
Qed.

Theorem run_BF : forall fuel e, BF e -> BF (fst (run fuel e)).
Proof. apply run_invariant. intros e me t m rest Hi _. apply step_BF, Hi. Qed.

Lemma expand_nobo body pc i : is_bo_instr i = false -> nobo (expand body pc i) = true.
Proof.
  destruct i; intros H; try discriminate H; try reflexivity.
  cbn [expand]. match goal with |- context [Nat.eqb ?k 2] => destruct (Nat.eqb k 2) end; reflexivity.
Qed.

Lemma expand_body_nobo body : forall l pc,
  forallb (fun i => negb (is_bo_instr i)) l = true -> nobo (expand_body_from body pc l) = true.
Proof.
  induction l as [|i l IH]; intros pc H; cbn [expand_body_from]; [reflexivity|].
  cbn [forallb] in H. apply andb_prop in H. destruct H as [Hi Hl].
  change (MBegin pc :: expand body pc i ++ expand_body_from body (S pc) l)
    with ([MBegin pc] ++ expand body pc i ++ expand_body_from body (S pc) l).
  rewrite !nobo_app, IH by exact Hl. rewrite expand_nobo; [reflexivity|].
  destruct (is_bo_instr i); [discriminate Hi|reflexivity].
Qed.

Lemma exit_seq_nobo b : nobo (exit_seq b) = true.
Proof. destruct b; reflexivity. Qed.

Lemma expand_prog_nobo p b : prog_nobo p = true -> nobo (nth b (expand_prog p) []) = true.
Proof.
  intros Hp. destruct (nth_error (expand_prog p) b) as [l|] eqn:Hn.
  - rewrite (nth_error_nth _ _ [] Hn). unfold expand_prog in Hn. rewrite nth_error_mapi in Hn.
    destruct (nth_error (p_bodies p) b) as [body|] eqn:Hb; [|discriminate Hn].
    cbn [option_map] in Hn. injection Hn as <-.
    rewrite nobo_app, exit_seq_nobo, expand_body_nobo; [reflexivity|].
    unfold prog_nobo in Hp. rewrite forallb_forall in Hp. apply Hp. eapply nth_error_In; exact Hb.
  - apply nth_error_None in Hn. rewrite nth_overflow by exact Hn. reflexivity.
Qed.

Theorem init_BF p pa : prog_nobo p = true -> BF (init_exec p pa).
Proof.
  intros Hp. split; [|split].
  - intros i t Hi. unfold init_exec in Hi. cbn [e_threads] in Hi.
    destruct i as [|i]; cbn [nth_error] in Hi; [|destruct i; discriminate Hi].
    injection Hi as <-. apply expand_prog_nobo, Hp.
  - intros b. apply expand_prog_nobo, Hp.
  - intros i o Hi _. destruct (init_objects p pa) as [Hlen _].
    change (e_h (init_exec p pa)) with (map hobj_of_decl (p_decls p)).
    rewrite map_length, <- Hlen. apply nth_error_Some. congruence.
Qed.

(* no block_on in the program: no Arc beyond the declared objects, ever *)
Theorem nobo_dyn_arcs_released fuel p pa :
  prog_nobo p = true -> dyn_arcs_released p (fst (run fuel (init_exec p pa))).
Proof.
  intros Hp i s Hi Ho. exfalso.
  pose proof (run_BF fuel _ (init_BF p pa Hp)) as (_ & _ & H3).
  pose proof (H3 i _ Ho eq_refl) as Hlt. rewrite run_h_length in Hlt. lia.
Qed.

(* A4 for programs without block_on: the iteration passes iff no declared
   object leaks at the harness level *)
Theorem nobo_iteration_done_iff fuel p pa e :
  prog_nobo p = true -> run fuel (init_exec p pa) = (e, IterDone) ->
  run_disc fuel (init_exec p pa) = true ->
  (iteration fuel p pa = (e, IterDone) <->
   forall k, k < length (p_decls p) -> hleak p e k = None).
Proof.
  intros Hp Hrun Hdisc. rewrite (iteration_done_iff fuel p pa e Hrun Hdisc).
  assert (Hdyn : dyn_arcs_released p e).
  { pose proof (nobo_dyn_arcs_released fuel p pa Hp) as H. rewrite Hrun in H. exact H. }
  split; [intros [H _]; exact H|intros H; split; [exact H|exact Hdyn]].
Qed.

Print Assumptions nobo_dyn_arcs_released.
Print Assumptions nobo_iteration_done_iff.
