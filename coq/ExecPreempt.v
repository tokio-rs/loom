(* C15 for the execution model L, independent reading.

   PathPreempt.v defines the independent count of preemptions
   [switches (branches p)], the linking invariant [pre_inv (branches p)] and
   proves that every Path API function preserves [pre_inv]; for [branch_thread]
   this needs a hypothesis on the seed ([seed_switch_ok]): a property of the
   caller, Execution::schedule.  This file discharges that hypothesis for the
   seeds that [Exec.schedule] really passes, and concludes

       switches (branches p) <= preemption_bound

   for every path explored by the model L.

   Route (the one of ExecFacts.v / ExecFacts2.v):
     [pinv a p]   invariant linking the active thread [a] with the stack [p]:
                    pos p <= length (branches p),
                    a = prev_active (firstn (pos p) (branches p)),
                    pre_inv (branches p);
     [einv e]     := pinv (e_active e) (e_path e);
     one lemma per Path API function (<f>_pinv), [dpor_loop_pinv];
     [sched_seed_switch_ok], [sched_seed_ok]: the seed of schedule;
     [schedule_einv]; [exec_micro_keeps] (from ExecFacts.exec_micro_shape: a
     micro-operation ends in schedule or keeps the active thread and makes at
     most one Path call); [run_keeps]; [iteration_einv].

   Main theorems: L_iteration_pre_inv, L_iteration_switches_le_bound,
   L_explore_switches_le_bound, L_switches_nonvacuous.

   Deviations from the requested statements:
     - [L_iteration_pre_inv] and [L_iteration_switches_le_bound] have the
       hypothesis [pos pa = 0] instead of [wf_path pa] (wf_path is not needed).
       [pos pa = 0] holds for [initial_path c] ([initial_path_pos]) and after
       every [step] ([step_pos]).  It is genuinely needed: an iteration
       started in the middle of a stored stack does not know which thread the
       stack believes to be running; [L_iteration_pre_inv_needs_pos] is a
       concrete counterexample (pre_inv holds before, fails after).
       [L_iteration_pre_inv_gen] is the general form (hypothesis
       [pinv (Some 0) pa]). *)
Require Import LV.Base LV.VV LV.Path LV.PathSpec LV.PathApi LV.PathPreempt LV.Prog LV.Objects
               LV.Exec LV.Atomic LV.Ops LV.Check LV.ExecFacts LV.ExecFacts2.
From Coq Require Import Lia.

(* ------------------------------------------------------------------ *)
(* 1. [prev_active] of a prefix of the stack                           *)
(* ------------------------------------------------------------------ *)

Lemma sched_entries_app b c : sched_entries (b ++ c) = sched_entries b ++ sched_entries c.
Proof.
  induction b as [|e b IH]; cbn [app sched_entries]; [reflexivity|].
  destruct e as [s|l|sp]; [cbn [app]; f_equal; exact IH|exact IH..].
Qed.

Lemma last_opt_snoc l s : last_opt (l ++ [s]) = Some s.
Proof.
  induction l as [|x l IH]; cbn [app last_opt]; [reflexivity|]. rewrite IH. reflexivity.
Qed.

Lemma prev_active_snoc_sched b s : prev_active (b ++ [ESched s]) = active_thread_index s.
Proof.
  unfold prev_active, last_sched. rewrite sched_entries_app. cbn [sched_entries].
  rewrite last_opt_snoc. reflexivity.
Qed.

Lemma prev_active_snoc_other b e : is_sched e = false -> prev_active (b ++ [e]) = prev_active b.
Proof.
  intros He. unfold prev_active, last_sched. rewrite sched_entries_app.
  destruct e as [s|l|sp]; [discriminate|cbn [sched_entries]; rewrite app_nil_r; reflexivity..].
Qed.

Lemma firstn_S_nth (A : Type) (l : list A) : forall k x,
  nth_error l k = Some x -> firstn (S k) l = firstn k l ++ [x].
Proof.
  induction l as [|h t IH]; intros [|k] x Hn; cbn [nth_error] in Hn; try discriminate.
  - injection Hn as ->. reflexivity.
  - cbn [firstn app]. f_equal. apply IH. exact Hn.
Qed.

Lemma firstn_app_le (A : Type) (b c : list A) k :
  k <= length b -> firstn k (b ++ c) = firstn k b.
Proof.
  intros Hk. rewrite firstn_app. replace (k - length b) with 0 by lia.
  cbn [firstn]. apply app_nil_r.
Qed.

Lemma Forall2_firstn (A B : Type) (R : A -> B -> Prop) l l' :
  Forall2 R l l' -> forall k, Forall2 R (firstn k l) (firstn k l').
Proof.
  induction 1 as [|x y l l' Hxy Hl IH]; intros [|k]; cbn [firstn]; constructor; auto.
Qed.

(* backtrack marks do not change which thread is Active *)
Lemma last_active_ext b b' :
  Forall2 ext b b' ->
  option_map active_thread_index (last_opt (sched_entries b')) =
  option_map active_thread_index (last_opt (sched_entries b)).
Proof.
  induction 1 as [|e e' l l' He Hl IH]; [reflexivity|].
  destruct (ext_inv _ _ He) as [->|(s & th & -> & -> & Hex & Hth)].
  - destruct e as [s|ld|sp]; cbn [sched_entries last_opt]; [|exact IH..].
    destruct (last_opt (sched_entries l')), (last_opt (sched_entries l));
      cbn [option_map] in *; congruence.
  - cbn [sched_entries last_opt].
    destruct (last_opt (sched_entries l')), (last_opt (sched_entries l));
      cbn [option_map] in *; try congruence.
    unfold active_thread_index. cbn [s_threads].
    rewrite (ext_t_active_index _ _ Hth). reflexivity.
Qed.

Lemma prev_active_ext b b' : Forall2 ext b b' -> prev_active b' = prev_active b.
Proof.
  intros H. pose proof (last_active_ext _ _ H) as Hl. unfold prev_active, last_sched.
  destruct (last_opt (sched_entries b')), (last_opt (sched_entries b));
    cbn [option_map] in Hl; congruence.
Qed.

(* ------------------------------------------------------------------ *)
(* 2. the invariant and the Path API                                   *)
(* ------------------------------------------------------------------ *)

(* [a] is the thread the stack believes to be running at position [pos p] *)
Definition ainv (a : option nat) (p : path) : Prop :=
  pos p <= length (branches p) /\ a = prev_active (firstn (pos p) (branches p)).

Definition pinv (a : option nat) (p : path) : Prop := ainv a p /\ pre_inv (branches p).

Lemma pinv_same a p p' :
  branches p' = branches p -> pos p' = pos p -> pinv a p -> pinv a p'.
Proof. unfold pinv, ainv. intros -> ->. auto. Qed.

Lemma explore_state_pinv a p p' : explore_state p = POk p' -> pinv a p -> pinv a p'.
Proof.
  intros H. destruct (explore_state_cases _ _ H) as [(_ & ->)|(_ & _ & ->)];
    apply pinv_same; reflexivity.
Qed.

Lemma critical_pinv a p p' : critical p = POk p' -> pinv a p -> pinv a p'.
Proof.
  intros H. destruct (critical_cases _ _ H) as [(_ & ->)|(_ & _ & ->)];
    apply pinv_same; reflexivity.
Qed.

Lemma skip_branch_pinv a p : pinv a p -> pinv a (skip_branch p).
Proof. apply pinv_same; reflexivity. Qed.

(* pushing an entry that is not a Schedule entry *)
Lemma push_other_pinv a p e :
  is_sched e = false -> pinv a p -> pinv a (set_branches p (branches p ++ [e])).
Proof.
  intros He [[Hpos Ha] Hpre]. unfold pinv, ainv. cbn [set_branches pos branches].
  split; [split|].
  - rewrite app_length. lia.
  - rewrite firstn_app_le by exact Hpos. exact Ha.
  - apply pre_inv_push_other; assumption.
Qed.

(* stepping over an entry that is not a Schedule entry *)
Lemma advance_other_pinv a p e :
  nth_error (branches p) (pos p) = Some e -> is_sched e = false ->
  pinv a p -> pinv a (set_pos p (S (pos p))).
Proof.
  intros Hn He [[Hpos Ha] Hpre]. unfold pinv, ainv. cbn [set_pos pos branches].
  split; [split|exact Hpre].
  - apply Nat.le_succ_l. apply nth_error_Some. congruence.
  - rewrite (firstn_S_nth _ _ _ _ Hn), prev_active_snoc_other by exact He. exact Ha.
Qed.

(* stepping over a Schedule entry: its Active thread runs *)
Lemma advance_sched_ainv p s :
  nth_error (branches p) (pos p) = Some (ESched s) ->
  ainv (active_thread_index s) (set_pos p (S (pos p))).
Proof.
  intros Hn. unfold ainv. cbn [set_pos pos branches]. split.
  - apply Nat.le_succ_l. apply nth_error_Some. congruence.
  - rewrite (firstn_S_nth _ _ _ _ Hn), prev_active_snoc_sched. reflexivity.
Qed.

Lemma push_load_pinv a p seed p' : push_load p seed = POk p' -> pinv a p -> pinv a p'.
Proof.
  intros H. destruct (push_load_cases _ _ _ H) as (_ & _ & ->).
  apply push_other_pinv. reflexivity.
Qed.

Lemma branch_load_entry p p' v :
  branch_load p = POk (p', v) ->
  p' = set_pos p (S (pos p)) /\ exists l, nth_error (branches p) (pos p) = Some (ELoad l).
Proof.
  intros H. split; [exact (branch_load_cases _ _ _ H)|].
  unfold branch_load in H. destruct (is_traversed p); [discriminate|].
  destruct (nth_error (branches p) (pos p)) as [[s|l|s]|]; try discriminate. eauto.
Qed.

Lemma branch_load_pinv a p p' v : branch_load p = POk (p', v) -> pinv a p -> pinv a p'.
Proof.
  intros H. destruct (branch_load_entry _ _ _ H) as (-> & l & Hn).
  eapply advance_other_pinv; [exact Hn|reflexivity].
Qed.

Lemma branch_spurious_pinv a p p' b :
  branch_spurious p = POk (p', b) -> pinv a p -> pinv a p'.
Proof.
  intros H Hinv.
  destruct (branch_spurious_cases _ _ _ H) as [(Htr & ->)|(Htr & _ & ->)].
  - unfold branch_spurious in H. rewrite Htr in H. cbv iota in H.
    destruct (nth_error (branches p) (pos p)) as [[s|l|s]|] eqn:Hn; try discriminate.
    eapply advance_other_pinv; [exact Hn|reflexivity|exact Hinv].
  - set (E := ESpur (mkSpur false (exploring p))).
    pose proof (push_other_pinv a p E eq_refl Hinv) as Hq.
    set (Q := set_branches p (branches p ++ [E])) in *.
    change (set_pos Q (S (pos p))) with (set_pos Q (S (pos Q))).
    eapply advance_other_pinv with (e := E); [|reflexivity|exact Hq].
    subst Q. cbn [set_branches branches pos].
    unfold is_traversed in Htr. apply Nat.eqb_eq in Htr. rewrite Htr.
    rewrite nth_error_app2, Nat.sub_diag by apply Nat.le_refl. reflexivity.
Qed.

Lemma backtrack_pinv a p point tid p' : backtrack p point tid = POk p' -> pinv a p -> pinv a p'.
Proof.
  intros H [[Hpos Ha] Hpre].
  destruct (backtrack_marks _ _ _ _ H) as (_ & _ & _ & Hp & _ & _ & Hbr).
  unfold pinv, ainv. rewrite Hp. split; [split|].
  - rewrite <- (Forall2_len _ _ _ _ _ Hbr). exact Hpos.
  - rewrite (prev_active_ext _ _ (Forall2_firstn _ _ _ _ _ Hbr (pos p))). exact Ha.
  - eapply backtrack_pre_inv; eassumption.
Qed.

Lemma dpor_loop_pinv a objs ths p p' : dpor_loop objs ths p = POk p' -> pinv a p -> pinv a p'.
Proof.
  apply (dpor_loop_rel (fun p p' => pinv a p -> pinv a p')); eauto using backtrack_pinv.
Qed.

(* what branch_thread returns: the Active thread of the entry at the old
   position, and the position advanced by one *)
Lemma branch_thread_ret p seed p' t :
  branch_thread p seed = POk (p', t) ->
  exists q s, p' = set_pos q (S (pos q)) /\ pos q = pos p /\
              nth_error (branches q) (pos q) = Some (ESched s) /\
              t = active_thread_index s.
Proof.
  intros H.
  destruct (branch_thread_inv _ _ _ _ H)
    as [(_ & -> & s & Hn & ->)|(Htr & _ & _ & _ & _ & -> & ->)].
  - exists p, s. auto.
  - exists (set_branches p (branches p ++ [ESched (pushed_sched p seed)])), (pushed_sched p seed).
    split; [reflexivity|]. split; [reflexivity|]. split; [|reflexivity].
    cbn [branches pos set_branches]. apply Nat.eqb_eq in Htr.
    rewrite Htr, nth_error_app2, Nat.sub_diag by apply Nat.le_refl. reflexivity.
Qed.

Lemma is_traversed_all p : is_traversed p = true -> firstn (pos p) (branches p) = branches p.
Proof.
  unfold is_traversed. intros H. apply Nat.eqb_eq in H. rewrite H. apply firstn_all.
Qed.

Lemma branch_thread_pinv a p seed p' t :
  pinv a p ->
  (is_traversed p = true -> seed_switch_ok a seed) ->
  branch_thread p seed = POk (p', t) -> pinv t p'.
Proof.
  intros [[Hpos Ha] Hpre] Hseed H. split.
  - destruct (branch_thread_ret _ _ _ _ H) as (q & s & -> & _ & Hn & ->).
    apply advance_sched_ainv. exact Hn.
  - eapply branch_thread_pre_inv_gen; [exact Hpre| |exact H].
    intros Htr. rewrite <- (is_traversed_all _ Htr), <- Ha. exact (Hseed Htr).
Qed.

(* ------------------------------------------------------------------ *)
(* 3. the seed of Execution::schedule                                  *)
(* ------------------------------------------------------------------ *)

(* the running thread stays Active in the seed, or else it is Disabled/Yield *)
Lemma sched_seed_switch_ok l curr cur_th :
  nth_error l curr = Some cur_th ->
  seed_switch_ok (Some curr) (sched_seed l curr cur_th).
Proof.
  intros Hc.
  assert (Hlt : curr < length l) by (apply nth_error_Some; congruence).
  destruct (is_runnable cur_th) eqn:Hr.
  - (* the running thread can continue: it is the only Active entry *)
    apply seed_switch_ok_keep.
    assert (Hi : sched_initial l curr cur_th = Some curr)
      by (unfold sched_initial; rewrite Hr; reflexivity).
    destruct (find_index is_active (sched_seed l curr cur_th)) as [i|] eqn:Hfa.
    + apply (find_index_tstat Active), sched_seed_Active in Hfa. destruct Hfa as [Hfa _].
      congruence.
    + discriminate (find_index_None _ _ _ _ _ Hfa (proj2 (sched_seed_Active _ _ _ _) (conj Hi Hlt))).
  - (* the running thread is blocked, yielded or terminated *)
    apply seed_switch_ok_blocked.
    pose proof (sched_seed_nth l curr cur_th curr) as Hst. rewrite Hc in Hst.
    rewrite (nth_error_nth _ _ Disabled Hst).
    destruct (opt_nat_eqb (sched_initial l curr cur_th) (Some curr)) eqn:E.
    + exfalso. apply opt_nat_eqb_eq in E.
      destruct (sched_initial_runnable _ _ _ _ Hc E) as (th' & Hth' & Hr'). congruence.
    + unfold seed_class. destruct (is_yield cur_th); [right; reflexivity|].
      rewrite Hr. left. reflexivity.
Qed.


(* the full hypothesis of PathPreempt.reach *)
Lemma sched_seed_ok l curr cur_th :
  nth_error l curr = Some cur_th -> seed_ok (Some curr) (sched_seed l curr cur_th).
Proof.
  intros Hc. split; [apply sched_seed_switch_ok; exact Hc|apply seed_loop_clean].
Qed.

(* ------------------------------------------------------------------ *)
(* 4. schedule                                                         *)
(* ------------------------------------------------------------------ *)

Definition einv (e : exec) : Prop := pinv (e_active e) (e_path e).

Lemma sched_prefix_pinv e curr cur_th p1 p2 next :
  sched_prefix e curr cur_th p1 p2 next -> einv e -> pinv next p2.
Proof.
  intros (Hact & Hc & Hd & Hb) Hinv. unfold einv in Hinv. rewrite Hact in Hinv.
  eapply branch_thread_pinv; [eapply dpor_loop_pinv; eassumption| |exact Hb].
  intros _. apply sched_seed_switch_ok. exact Hc.
Qed.

Lemma sched_post_active e curr pid next :
  e_active (res_exec (fst (sched_post e curr pid next))) = e_active e.
Proof.
  unfold sched_post. destruct next as [nx|].
  - destruct (nth_error _ _); [|reflexivity].
    cbn [fst res_exec]. apply sched_note_active.
  - destruct (forallb _ _); reflexivity.
Qed.

Lemma schedule_einv e : einv e -> einv (res_exec (fst (schedule e))).
Proof.
  intros Hinv.
  destruct (schedule_cases e)
    as [(c & ->)|[(x & ->)|[(p1 & x & Hd & ->)|(curr & cur_th & p1 & p2 & next & Hp & ->)]]].
  - exact Hinv.
  - exact Hinv.
  - cbn [fst res_exec]. unfold einv. cbn [ex_set_path e_active e_path].
    eapply dpor_loop_pinv; eassumption.
  - unfold einv. rewrite sched_post_path, sched_post_active.
    cbn [sched_base ex_set_active ex_set_path e_active e_path].
    eapply sched_prefix_pinv; eassumption.
Qed.

(* ------------------------------------------------------------------ *)
(* 5. framing: e_active is written by schedule only                    *)
(* ------------------------------------------------------------------ *)
Lemma upd_thread_active e i f : e_active (upd_thread e i f) = e_active e.
Proof. reflexivity. Qed.
Lemma upd_object_active e i f : e_active (upd_object e i f) = e_active e.
Proof. reflexivity. Qed.
Lemma upd_hobj_active e i f : e_active (upd_hobj e i f) = e_active e.
Proof. reflexivity. Qed.
Lemma ex_set_path_active e p : e_active (ex_set_path e p) = e_active e.
Proof. reflexivity. Qed.
Lemma ex_set_threads_active e x : e_active (ex_set_threads e x) = e_active e.
Proof. reflexivity. Qed.
Lemma ex_set_seqcst_active e x : e_active (ex_set_seqcst e x) = e_active e.
Proof. reflexivity. Qed.
Lemma ex_set_objects_active e x : e_active (ex_set_objects e x) = e_active e.
Proof. reflexivity. Qed.
Lemma ex_set_h_active e x : e_active (ex_set_h e x) = e_active e.
Proof. reflexivity. Qed.
Lemma ex_set_spawned_active e x : e_active (ex_set_spawned e x) = e_active e.
Proof. reflexivity. Qed.
Lemma ex_set_joined_active e x : e_active (ex_set_joined e x) = e_active e.
Proof. reflexivity. Qed.
Lemma ex_set_log_active e x : e_active (ex_set_log e x) = e_active e.
Proof. reflexivity. Qed.
Lemma ex_set_lazy_active e x : e_active (ex_set_lazy e x) = e_active e.
Proof. reflexivity. Qed.
Lemma set_caus_active e me v : e_active (set_caus e me v) = e_active e.
Proof. reflexivity. Qed.
Lemma causality_inc_active e me : e_active (causality_inc e me) = e_active e.
Proof. reflexivity. Qed.
Lemma push_cont_active e me ms : e_active (push_cont e me ms) = e_active e.
Proof. reflexivity. Qed.
Lemma log_op_active e me r : e_active (log_op e me r) = e_active e.
Proof. unfold log_op. destruct (get_thread e me); reflexivity. Qed.
Lemma log_poll_active e me : e_active (log_poll e me) = e_active e.
Proof. unfold log_poll. destruct (get_thread e me); reflexivity. Qed.
Lemma map_others_active e me p f : e_active (map_others e me p f) = e_active e.
Proof. reflexivity. Qed.
Lemma set_slot_active e k i b : e_active (set_slot e k i b) = e_active e.
Proof. reflexivity. Qed.
Lemma push_guard_active e me k m : e_active (push_guard e me k m) = e_active e.
Proof. reflexivity. Qed.
Lemma drop_guard_active e me k m : e_active (drop_guard e me k m) = e_active e.
Proof. reflexivity. Qed.

Lemma release_lock_active e me m : e_active (release_lock e me m) = e_active e.
Proof.
  unfold release_lock. destruct (get_mutex e m); [|reflexivity].
  cbv zeta.
  match goal with
  | |- e_active (match ?x with _ => _ end) = _ => destruct x; reflexivity
  end.
Qed.

Lemma fold_unpark_active me l e :
  e_active (fold_left (fun e t => threads_unpark e me t) l e) = e_active e.
Proof.
  revert e; induction l as [|w l IH]; intros e; cbn [fold_left]; [reflexivity|].
  rewrite IH. apply threads_unpark_act.
Qed.

Global Hint Rewrite upd_thread_active upd_object_active upd_hobj_active ex_set_path_active
  ex_set_threads_active ex_set_seqcst_active ex_set_objects_active
  ex_set_h_active ex_set_spawned_active ex_set_joined_active ex_set_log_active
  ex_set_lazy_active set_caus_active causality_inc_active push_cont_active log_op_active
  log_poll_active map_others_active set_slot_active push_guard_active
  drop_guard_active release_lock_active fold_unpark_active : eact.

(* ------------------------------------------------------------------ *)
(* 6. one micro-operation, one iteration                               *)
(* ------------------------------------------------------------------ *)

(* a path operation performed on the state: the active thread is kept and the
   new path satisfies the invariant for every active thread the old one did *)
Definition pstep (p p' : path) : Prop := forall a, pinv a p -> pinv a p'.

Lemma pstep_refl p : pstep p p.
Proof. intros a H. exact H. Qed.

Lemma pcall_pstep p p' : pcall p p' -> pstep p p'.
Proof.
  intros H a. destruct H;
    eauto using push_load_pinv, branch_load_pinv, branch_spurious_pinv, explore_state_pinv,
      critical_pinv, skip_branch_pinv.
Qed.

Definition keeps (e e' : exec) : Prop := einv e -> einv e'.

Lemma exec_micro_keeps e me m : keeps e (res_exec (exec_micro e me m)).
Proof.
  intros H. destruct (exec_micro_shape e me m) as [(i & f & ->)|(Ha & [Hp|Hc])].
  - apply schedule_einv. exact H.
  - unfold einv. rewrite Ha, Hp. exact H.
  - unfold einv. rewrite Ha. exact (pcall_pstep _ _ Hc _ H).
Qed.

Lemma run_keeps fuel e : keeps e (fst (run fuel e)).
Proof.
  apply (run_invariant (keeps e)); [|exact (fun H => H)].
  intros e0 me t m rest H _ _ _ Hinv. apply exec_micro_keeps. exact (H Hinv).
Qed.

Lemma init_exec_active p pa : e_active (init_exec p pa) = Some 0.
Proof. reflexivity. Qed.

Lemma pinv_pos0 pa : pos pa = 0 -> pre_inv (branches pa) -> pinv (Some 0) pa.
Proof.
  intros Hpos Hpre. unfold pinv, ainv. rewrite Hpos. cbn [firstn].
  split; [split; [apply Nat.le_0_l|reflexivity]|exact Hpre].
Qed.

Theorem iteration_einv fuel p pa :
  pinv (Some 0) pa -> einv (fst (iteration fuel p pa)).
Proof.
  intros H. rewrite iteration_fst. apply run_keeps.
  unfold einv. rewrite init_exec_active, init_exec_path. exact H.
Qed.

(* ------------------------------------------------------------------ *)
(* 7. main theorems                                                    *)
(* ------------------------------------------------------------------ *)

(* general form: the iteration may start anywhere in a stored stack, provided
   the stack agrees that the main thread is the one running there *)
Theorem L_iteration_pre_inv_gen : forall fuel p pa,
  pinv (Some 0) pa -> pre_inv (branches (e_path (fst (iteration fuel p pa)))).
Proof. intros fuel p pa H. exact (proj2 (iteration_einv fuel p pa H)). Qed.

Theorem L_iteration_pre_inv : forall fuel p pa,
  pos pa = 0 -> pre_inv (branches pa) ->
  pre_inv (branches (e_path (fst (iteration fuel p pa)))).
Proof.
  intros fuel p pa Hpos Hpre. apply L_iteration_pre_inv_gen. apply pinv_pos0; assumption.
Qed.

Theorem L_iteration_switches_le_bound : forall fuel p pa bd,
  pos pa = 0 -> pre_inv (branches pa) -> c15_inv pa -> bound pa = Some bd ->
  switches (branches (e_path (fst (iteration fuel p pa)))) <= bd.
Proof.
  intros fuel p pa bd Hpos Hpre Hc Hbd.
  destruct (iteration_path_ok fuel p pa) as (Hext & _ & Hc15).
  apply switches_le_bound.
  - apply L_iteration_pre_inv; assumption.
  - auto.
  - destruct Hext as (Hb & _). congruence.
Qed.

(* the hypotheses hold initially and are preserved by step *)
Lemma initial_path_pos c : pos (initial_path c) = 0.
Proof. reflexivity. Qed.

Lemma initial_path_bound c : bound (initial_path c) = preemption_bound c.
Proof. reflexivity. Qed.

Lemma initial_path_pre_inv c : pre_inv (branches (initial_path c)).
Proof. apply pre_inv_new. Qed.

Lemma step_pos p p' : step p = Some p' -> pos p' = 0.
Proof.
  unfold step. destruct (step_rev (rev (branches p))); [|discriminate].
  intros H. injection H as <-. reflexivity.
Qed.

Lemma step_bound p p' : step p = Some p' -> bound p' = bound p.
Proof.
  unfold step. destruct (step_rev (rev (branches p))); [|discriminate].
  intros H. injection H as <-. reflexivity.
Qed.

(* the state in which every iteration of the exploration loop starts *)
Definition start_ok (bd : nat) (pa : path) : Prop :=
  pos pa = 0 /\ pre_inv (branches pa) /\ c15_inv pa /\ bound pa = Some bd.

Lemma initial_path_start_ok c bd : preemption_bound c = Some bd -> start_ok bd (initial_path c).
Proof.
  intros Hbd. unfold start_ok.
  split; [apply initial_path_pos|]. split; [apply initial_path_pre_inv|].
  split; [exact (proj2 (initial_path_ok c))|]. rewrite initial_path_bound. exact Hbd.
Qed.

Lemma iteration_step_start_ok fuel p pa bd pa' :
  start_ok bd pa -> step (e_path (fst (iteration fuel p pa))) = Some pa' -> start_ok bd pa'.
Proof.
  intros (Hpos & Hpre & Hc & Hbd) Hs.
  destruct (iteration_path_ok fuel p pa) as (Hext & _ & Hc15).
  unfold start_ok.
  split; [eapply step_pos; exact Hs|].
  split; [eapply step_pre_inv; [exact Hs|apply L_iteration_pre_inv; assumption]|].
  split; [eapply step_c15; [|exact Hs]; auto|].
  rewrite (step_bound _ _ Hs). destruct Hext as (Hb & _). congruence.
Qed.

Lemma explore_switches_le_bound fuel p bd n : forall pa k pk,
  start_ok bd pa ->
  nth_error (explore (fun pa => e_path (fst (iteration fuel p pa))) n pa) k = Some pk ->
  switches (branches pk) <= bd.
Proof.
  apply (explore_nth_inv _ (start_ok bd) (fun pk => switches (branches pk) <= bd)).
  - intros pa (Hpos & Hpre & Hc & Hbd). apply L_iteration_switches_le_bound; assumption.
  - intros pa pa'. apply iteration_step_start_ok.
Qed.

Theorem L_explore_switches_le_bound : forall fuel p c n k pk bd,
  preemption_bound c = Some bd ->
  nth_error (explore (fun pa => e_path (fst (iteration fuel p pa))) n (initial_path c)) k
    = Some pk ->
  switches (branches pk) <= bd.
Proof.
  intros fuel p c n k pk bd Hbd Hk.
  eapply explore_switches_le_bound; [|exact Hk]. apply initial_path_start_ok. exact Hbd.
Qed.

(* every explored path is reachable in the sense of PathPreempt.reach as far
   as its invariant is concerned: pre_inv holds on it *)
Theorem L_explore_pre_inv : forall fuel p c n k pk,
  nth_error (explore (fun pa => e_path (fst (iteration fuel p pa))) n (initial_path c)) k
    = Some pk ->
  pre_inv (branches pk).
Proof.
  intros fuel p c n k pk.
  apply (explore_nth_inv _ (fun pa => pos pa = 0 /\ pre_inv (branches pa))
                           (fun pk => pre_inv (branches pk))).
  - intros pa [Hpos Hpre]. apply L_iteration_pre_inv; assumption.
  - intros pa pa' [Hpos Hpre] Hs. split; [eapply step_pos; exact Hs|].
    eapply step_pre_inv; [exact Hs|apply L_iteration_pre_inv; assumption].
  - split; [apply initial_path_pos|apply initial_path_pre_inv].
Qed.

(* ------------------------------------------------------------------ *)
(* 8. non-vacuity, and the counterexample for pos <> 0                 *)
(* ------------------------------------------------------------------ *)

(* two threads store to one atomic; preemption_bound = Some 1 *)
Definition cfg_b1 : config := mkConfig 5 1000 (Some 1) None None false.
Definition p_two_stores : prog :=
  mkProg cfg_b1 [DAtomic 0]
    [[ISpawn 1; IStore 0 1 SeqCst; IJoin 1]; [IStore 0 2 SeqCst]].

Definition FUELP : nat := 100 * 100.

Definition explored_two_stores : list path :=
  explore (fun pa => e_path (fst (iteration FUELP p_two_stores pa))) 100 (initial_path cfg_b1).

(* the exploration finishes by itself, some explored path has exactly one
   switch, and none has more *)
Example L_switches_nonvacuous :
  finishes (fun pa => e_path (fst (iteration FUELP p_two_stores pa))) 100 (initial_path cfg_b1)
    = true /\
  existsb (fun pk => Nat.eqb (switches (branches pk)) 1) explored_two_stores = true /\
  forallb (fun pk => Nat.leb (switches (branches pk)) 1) explored_two_stores = true /\
  1 < length explored_two_stores.
Proof. vm_compute. repeat split; reflexivity. Qed.

(* [pos pa = 0] cannot be dropped from L_iteration_pre_inv (nor replaced by
   wf_path): a stack whose only Schedule entry has thread 1 Active, entered
   behind that entry (pos = 1), while the execution starts with the main
   thread running.  At the first scheduling point thread 0 keeps running and
   thread 1 is runnable: the new entry has initial_active = None although the
   stack's "previously running" thread 1 could have continued. *)
Definition pa_mid : path :=
  mkPath None 1
         [ESched (mkSched 0 None [Disabled; Active; Disabled; Disabled; Disabled] None true)]
         true false true 1000.

Lemma pa_mid_ok : wf_path pa_mid /\ pre_inv (branches pa_mid) /\ c15_inv pa_mid.
Proof.
  split; [|split].
  - split; [repeat constructor|cbn; lia].
  - cbn. unfold link. cbn. repeat split; try tauto; try discriminate.
    right. intros u Hu. injection Hu as <-. reflexivity.
  - repeat constructor.
Qed.

Definition stack_mid : list entry :=
  branches (e_path (fst (iteration FUELP p_two_stores pa_mid))).

(* a stack that starts with two Schedule entries, the first one with thread 1
   Active, the second one with initial_active = None and thread 1 runnable,
   violates pre_inv *)
Definition bad_stack (b : list entry) : bool :=
  match b with
  | ESched s0 :: ESched s :: _ =>
      opt_nat_eqb (active_thread_index s0) (Some 1) && negb (is_some (s_ia s)) &&
      runnable_status (thread_status s 1)
  | _ => false
  end.

Lemma bad_stack_not_pre_inv b : bad_stack b = true -> ~ pre_inv b.
Proof.
  unfold bad_stack. intros Hb H.
  destruct b as [|[s0|l0|sp0] [|[s|l|sp] rest]]; try discriminate.
  apply andb_true_iff in Hb. destruct Hb as [Hb Hrun].
  apply andb_true_iff in Hb. destruct Hb as [Hact Hia].
  apply opt_nat_eqb_eq in Hact.
  unfold pre_inv in H. cbn [pre_inv_from] in H.
  destruct H as (_ & (_ & _ & _ & Hl) & _).
  cbn [st_of st_act] in Hl. rewrite Hact in Hl. destruct Hl as [Hl|Hl].
  - rewrite Hl in Hia. discriminate.
  - rewrite (Hl 1 eq_refl) in Hrun. discriminate.
Qed.

Lemma stack_mid_bad : bad_stack stack_mid = true.
Proof. vm_compute. reflexivity. Qed.

Lemma L_iteration_pre_inv_needs_pos :
  wf_path pa_mid /\ pre_inv (branches pa_mid) /\ ~ pre_inv stack_mid.
Proof.
  destruct pa_mid_ok as (H1 & H2 & _). split; [exact H1|]. split; [exact H2|].
  apply bad_stack_not_pre_inv. exact stack_mid_bad.
Qed.

Print Assumptions sched_seed_ok.
Print Assumptions schedule_einv.
Print Assumptions exec_micro_keeps.
Print Assumptions L_iteration_pre_inv_gen.
Print Assumptions L_iteration_pre_inv.
Print Assumptions L_iteration_switches_le_bound.
Print Assumptions L_explore_switches_le_bound.
Print Assumptions L_explore_pre_inv.
Print Assumptions L_switches_nonvacuous.
Print Assumptions L_iteration_pre_inv_needs_pos.
