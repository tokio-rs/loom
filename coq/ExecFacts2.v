(* The second iteration contract (PathExhaust.iter_ok2) for the execution model,
   and the path theorems instantiated on the concrete iteration of Check.v.

   ExecFacts.v proves that every iteration of the model
       L fuel p := fun pa => e_path (fst (iteration fuel p pa))
   satisfies [iter_ok] (the stack is only extended, wf_path is kept).  This
   file proves the same for [iter_ok2] (at most one Active thread per Schedule
   entry, every appended entry is fresh), following the same route:

     path_ok2 p0 p := path_ok p0 p /\ api_ok2 p0 p
       (path_ok gives [extends], which is what api_ok2 needs to compose:
        PathExhaust.api_ok2_compose);
     path_ok2_refl, path_ok2_trans;
     one lemma per Path API function (<f>_ok2);
     seed_loop_no_visited, dpor_loop_ok2, schedule_path_ok2;
     pcall_ok2 (the calls a micro-operation makes outside schedule), hence
     run_path_ok2 by ExecFacts.run_path_rel; iteration_path_ok2, L_iter_ok2.

   Then, for the concrete iteration:
     L_dfs_exhaustive       (PathExhaust.dfs_exhaustive), and its instance
     L_dfs_exhaustive_initial for [initial_path c];
     L_explore_terminates   (PathTerm.explore_terminates);
     L_decisions_distinct   (PathDistinct.decisions_distinct).

   Deviations from the requested statements: none. *)
Require Import LV.Base LV.VV LV.Path LV.PathSpec LV.PathTerm LV.PathDistinct LV.PathApi
               LV.PathExhaust LV.Prog LV.Objects LV.Exec LV.Atomic LV.Ops LV.Check
               LV.ExecFacts.
From Coq Require Import Lia.

(* ------------------------------------------------------------------ *)
(* path_ok2                                                            *)
(* ------------------------------------------------------------------ *)

Definition path_ok2 (p0 p : path) : Prop := path_ok p0 p /\ api_ok2 p0 p.

Lemma path_ok2_refl p : path_ok2 p p.
Proof. split; [apply path_ok_refl|apply api_same; reflexivity]. Qed.

Lemma path_ok2_trans p q r : path_ok2 p q -> path_ok2 q r -> path_ok2 p r.
Proof.
  intros [Hpq Apq] [Hqr Aqr]. split; [eapply path_ok_trans; eassumption|].
  destruct Hpq as (Epq & _). destruct Hqr as (Eqr & _).
  eapply api_ok2_compose; eassumption.
Qed.

Lemma path_ok2_intro p p' : path_ok p p' -> api_ok2 p p' -> path_ok2 p p'.
Proof. intros H A. split; assumption. Qed.

(* ---- the Path API ---- *)
Lemma backtrack_ok2 p point tid p' : backtrack p point tid = POk p' -> path_ok2 p p'.
Proof. intros H. apply path_ok2_intro; eauto using backtrack_ok, backtrack_wf2. Qed.

Lemma explore_state_ok2 p p' : explore_state p = POk p' -> path_ok2 p p'.
Proof. intros H. apply path_ok2_intro; eauto using explore_state_ok, explore_state_wf2. Qed.

Lemma critical_ok2 p p' : critical p = POk p' -> path_ok2 p p'.
Proof. intros H. apply path_ok2_intro; eauto using critical_ok, critical_wf2. Qed.

Lemma skip_branch_ok2 p : path_ok2 p (skip_branch p).
Proof. apply path_ok2_intro; auto using skip_branch_ok, skip_branch_wf2. Qed.

Lemma push_load_ok2 p seed p' : push_load p seed = POk p' -> path_ok2 p p'.
Proof. intros H. apply path_ok2_intro; eauto using push_load_ok, push_load_wf2. Qed.

Lemma branch_load_ok2 p p' v : branch_load p = POk (p', v) -> path_ok2 p p'.
Proof. intros H. apply path_ok2_intro; eauto using branch_load_ok, branch_load_wf2. Qed.

Lemma branch_spurious_ok2 p p' b : branch_spurious p = POk (p', b) -> path_ok2 p p'.
Proof.
  intros H. apply path_ok2_intro; eauto using branch_spurious_ok, branch_spurious_wf2.
Qed.

Lemma branch_thread_ok2 p seed p' t :
  Forall (fun t => t <> Pending) seed -> Forall (fun t => t <> Visited) seed ->
  branch_thread p seed = POk (p', t) -> path_ok2 p p'.
Proof.
  intros Hp Hv H. apply path_ok2_intro; eauto using branch_thread_ok, branch_thread_wf2.
Qed.

(* ---- the DPOR loop ---- *)
Lemma dpor_loop_ok2 objs ths p p' : dpor_loop objs ths p = POk p' -> path_ok2 p p'.
Proof. apply dpor_loop_rel; eauto using path_ok2_refl, path_ok2_trans, backtrack_ok2. Qed.

(* ---- the seed ---- *)
Lemma seed_loop_no_visited ths initial :
  Forall (fun t => t <> Visited) (seed_loop ths initial).
Proof. eapply Forall_impl; [|apply seed_loop_clean]. intros t [_ H]. exact H. Qed.

(* ---- schedule ---- *)
Lemma sched_prefix_ok2 e curr cur_th p1 p2 next :
  sched_prefix e curr cur_th p1 p2 next -> path_ok2 (e_path e) p2.
Proof.
  intros (_ & _ & Hd & Hb).
  eapply path_ok2_trans; [eapply dpor_loop_ok2; eassumption|].
  eapply branch_thread_ok2; [| |eassumption].
  - apply seed_loop_no_pending.
  - apply seed_loop_no_visited.
Qed.

Lemma schedule_path_ok2 e :
  path_ok2 (e_path e) (e_path (res_exec (fst (schedule e)))).
Proof.
  destruct (schedule_cases e)
    as [(c & ->)|[(x & ->)|[(p1 & x & Hd & ->)|(curr & cur_th & p1 & p2 & next & Hp & ->)]]].
  - apply path_ok2_refl.
  - apply path_ok2_refl.
  - cbn [fst res_exec]. eapply dpor_loop_ok2; eassumption.
  - rewrite sched_post_path. eapply sched_prefix_ok2; eassumption.
Qed.

Lemma pcall_ok2 p p' : pcall p p' -> path_ok2 p p'.
Proof.
  destruct 1;
    eauto using path_ok2_trans, push_load_ok2, branch_load_ok2, branch_spurious_ok2,
      explore_state_ok2, critical_ok2, skip_branch_ok2.
Qed.

Lemma run_path_ok2 fuel e : path_ok2 (e_path e) (e_path (fst (run fuel e))).
Proof.
  exact (run_path_rel path_ok2 path_ok2_refl path_ok2_trans schedule_path_ok2 pcall_ok2 fuel e).
Qed.

Theorem iteration_path_ok2 fuel p pa : path_ok2 pa (e_path (fst (iteration fuel p pa))).
Proof.
  rewrite iteration_fst.
  pose proof (run_path_ok2 fuel (init_exec p pa)) as H.
  rewrite init_exec_path in H. exact H.
Qed.

Theorem L_iter_ok2 fuel p : iter_ok2 (fun pa => e_path (fst (iteration fuel p pa))).
Proof.
  intros pa Hwf Hwf2. destruct (iteration_path_ok2 fuel p pa) as [_ Hapi].
  exact (Hapi Hwf2).
Qed.

(* ------------------------------------------------------------------ *)
(* the path theorems on the concrete iteration                         *)
(* ------------------------------------------------------------------ *)

Theorem L_dfs_exhaustive :
  forall fuel p n pa, wf_path pa -> wf2_path pa -> fresh_path pa ->
    finishes (fun pa => e_path (fst (iteration fuel p pa))) n pa = true ->
  forall k ek q c,
    nth_error (explore (fun pa => e_path (fst (iteration fuel p pa))) n pa) k = Some ek ->
    registered ek q c ->
    exists j ej,
      nth_error (explore (fun pa => e_path (fst (iteration fuel p pa))) n pa) j = Some ej /\
      firstn q (choices ej) = firstn q (choices ek) /\ nth_error (choices ej) q = Some c.
Proof.
  intros fuel p n pa Hwf Hwf2 Hfresh Hfin k ek q c Hk Hreg.
  exact (dfs_exhaustive _ n pa (L_iter_ok fuel p) (L_iter_ok2 fuel p)
                        Hwf Hwf2 Hfresh Hfin k ek q c Hk Hreg).
Qed.

Lemma initial_path_ok2 c : wf2_path (initial_path c) /\ fresh_path (initial_path c).
Proof.
  unfold initial_path.
  destruct (path_new_fresh (max_branches c) (preemption_bound c) (negb (explicit_explore c)))
    as [Hf Hw].
  split; assumption.
Qed.

Theorem L_dfs_exhaustive_initial :
  forall fuel p c n,
    finishes (fun pa => e_path (fst (iteration fuel p pa))) n (initial_path c) = true ->
  forall k ek q ch,
    nth_error (explore (fun pa => e_path (fst (iteration fuel p pa))) n (initial_path c)) k
      = Some ek ->
    registered ek q ch ->
    exists j ej,
      nth_error (explore (fun pa => e_path (fst (iteration fuel p pa))) n (initial_path c)) j
        = Some ej /\
      firstn q (choices ej) = firstn q (choices ek) /\ nth_error (choices ej) q = Some ch.
Proof.
  intros fuel p c n Hfin k ek q ch Hk Hreg.
  destruct (initial_path_ok c) as [Hwf _]. destruct (initial_path_ok2 c) as [Hwf2 Hfresh].
  exact (L_dfs_exhaustive fuel p n (initial_path c) Hwf Hwf2 Hfresh Hfin k ek q ch Hk Hreg).
Qed.

Theorem L_explore_terminates :
  forall fuel p c,
    finishes (fun pa => e_path (fst (iteration fuel p pa)))
             (S (BASE ^ cap (initial_path c))) (initial_path c) = true.
Proof.
  intros fuel p c. apply explore_terminates; [apply L_iter_ok|].
  exact (proj1 (initial_path_ok c)).
Qed.

Theorem L_decisions_distinct :
  forall fuel p c n i j pi pj,
    nth_error (explore (fun pa => e_path (fst (iteration fuel p pa))) n (initial_path c)) i
      = Some pi ->
    nth_error (explore (fun pa => e_path (fst (iteration fuel p pa))) n (initial_path c)) j
      = Some pj ->
    i < j ->
    exists q, diverge_at (choices pi) (choices pj) q.
Proof.
  intros fuel p c n i j pi pj Hi Hj Hlt.
  eapply decisions_distinct with (3 := Hi) (4 := Hj); [apply L_iter_ok| |exact Hlt].
  exact (proj1 (initial_path_ok c)).
Qed.

(* the whole exploration from the initial path, with the fuel that suffices:
   it stops by itself, and every registered alternative is decided by some
   iteration of it *)
Corollary L_exhaustive_complete :
  forall fuel p c k ek q ch,
    let it := fun pa => e_path (fst (iteration fuel p pa)) in
    let n := S (BASE ^ cap (initial_path c)) in
    nth_error (explore it n (initial_path c)) k = Some ek -> registered ek q ch ->
    exists j ej, nth_error (explore it n (initial_path c)) j = Some ej /\
                 firstn q (choices ej) = firstn q (choices ek) /\
                 nth_error (choices ej) q = Some ch.
Proof.
  intros fuel p c k ek q ch it n Hk Hreg.
  exact (L_dfs_exhaustive_initial fuel p c n (L_explore_terminates fuel p c) k ek q ch Hk Hreg).
Qed.

Print Assumptions L_iter_ok2.
Print Assumptions L_dfs_exhaustive.
Print Assumptions L_dfs_exhaustive_initial.
Print Assumptions L_explore_terminates.
Print Assumptions L_decisions_distinct.
Print Assumptions L_exhaustive_complete.
