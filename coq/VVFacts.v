(* Facts about the vector clocks of VV.v: the pointwise order, join as least
   upper bound, and the specifications of the derived comparison functions
   (vv_le, vv_lt, vv_eqb, vv_ahead) through vv_get.

   Deviations from the requested statements: none. Every statement is proved
   as requested (vv_get_inc_same carries the hypothesis [i < length v], which
   was already part of the request). *)
Require Import LV.Base LV.VV.
Require Export LV.ListFacts.
From Coq Require Import Lia.

Definition vle (a b : vv) : Prop := forall i, vv_get a i <= vv_get b i.

(* ------------------------------------------------------------------ *)
(* vv_get on constructors                                              *)

Lemma vv_get_nil : forall i, vv_get [] i = 0.
Proof. intros i. unfold vv_get. destruct i; reflexivity. Qed.

Lemma vv_get_cons_0 : forall x (v : vv), vv_get (x :: v) 0 = x.
Proof. reflexivity. Qed.

Lemma vv_get_cons_S : forall x (v : vv) i, vv_get (x :: v) (S i) = vv_get v i.
Proof. reflexivity. Qed.

Lemma vv_get_overflow : forall (v : vv) i, length v <= i -> vv_get v i = 0.
Proof. intros v i Hle. unfold vv_get. apply nth_overflow. exact Hle. Qed.

(* ------------------------------------------------------------------ *)
(* join                                                                *)

Lemma vv_get_join : forall a b i,
  vv_get (vv_join a b) i = Nat.max (vv_get a i) (vv_get b i).
Proof.
  induction a as [|x a IHa]; intros b i.
  - simpl vv_join. rewrite vv_get_nil. reflexivity.
  - destruct b as [|y b].
    + simpl vv_join. rewrite vv_get_nil. rewrite Nat.max_0_r. reflexivity.
    + simpl vv_join. destruct i as [|i].
      * reflexivity.
      * rewrite !vv_get_cons_S. apply IHa.
Qed.

Lemma vv_join_length : forall a b,
  length (vv_join a b) = Nat.max (length a) (length b).
Proof.
  induction a as [|x a IHa]; intros b.
  - reflexivity.
  - destruct b as [|y b].
    + reflexivity.
    + simpl. rewrite IHa. reflexivity.
Qed.

Lemma vv_join_comm_get : forall a b i,
  vv_get (vv_join a b) i = vv_get (vv_join b a) i.
Proof. intros a b i. rewrite !vv_get_join. apply Nat.max_comm. Qed.

Lemma vv_join_assoc_get : forall a b c i,
  vv_get (vv_join a (vv_join b c)) i = vv_get (vv_join (vv_join a b) c) i.
Proof. intros a b c i. rewrite !vv_get_join. apply Nat.max_assoc. Qed.

Lemma vv_join_idem_get : forall a i, vv_get (vv_join a a) i = vv_get a i.
Proof. intros a i. rewrite vv_get_join. apply Nat.max_id. Qed.

(* ------------------------------------------------------------------ *)
(* the pointwise order                                                 *)

Lemma vle_refl : forall a, vle a a.
Proof. intros a i. apply le_n. Qed.

Lemma vle_trans : forall a b c, vle a b -> vle b c -> vle a c.
Proof.
  intros a b c Hab Hbc i. specialize (Hab i). specialize (Hbc i). lia.
Qed.

Lemma vle_antisym_get : forall a b,
  vle a b -> vle b a -> forall i, vv_get a i = vv_get b i.
Proof.
  intros a b Hab Hba i. specialize (Hab i). specialize (Hba i). lia.
Qed.

Lemma vle_join_l : forall a b, vle a (vv_join a b).
Proof. intros a b i. rewrite vv_get_join. lia. Qed.

Lemma vle_join_r : forall a b, vle b (vv_join a b).
Proof. intros a b i. rewrite vv_get_join. lia. Qed.

Lemma vle_join_lub : forall a b c, vle a c -> vle b c -> vle (vv_join a b) c.
Proof.
  intros a b c Hac Hbc i. rewrite vv_get_join.
  specialize (Hac i). specialize (Hbc i). lia.
Qed.

Lemma vv_join_mono : forall a a' b b',
  vle a a' -> vle b b' -> vle (vv_join a b) (vv_join a' b').
Proof.
  intros a a' b b' Ha Hb i. rewrite !vv_get_join.
  specialize (Ha i). specialize (Hb i). lia.
Qed.

Lemma vv_get_hd : forall a : vv, vv_get a 0 = hd 0 a.
Proof. intros [|x a]; reflexivity. Qed.

Lemma vv_get_tl : forall (a : vv) i, vv_get a (S i) = vv_get (tl a) i.
Proof. intros [|x a] i; [destruct i|]; reflexivity. Qed.

(* vle against a cons on the left: the workhorse for vv_ahead *)
Lemma vle_cons_l : forall y (b a : vv),
  vle (y :: b) a <-> (y <= hd 0 a /\ vle b (tl a)).
Proof.
  intros y b a. split.
  - intros H. split.
    + rewrite <- vv_get_hd. exact (H 0).
    + intros i. rewrite <- vv_get_tl. exact (H (S i)).
  - intros [H0 HS] [|i].
    + rewrite (vv_get_hd a). exact H0.
    + rewrite (vv_get_tl a). exact (HS i).
Qed.

(* ------------------------------------------------------------------ *)
(* vv_zip through nth                                                  *)

Lemma vv_zip_nth : forall a b i,
  nth i (vv_zip a b) (0, 0) = (vv_get a i, vv_get b i).
Proof.
  induction a as [|x a IHa]; intros b i.
  - simpl vv_zip. rewrite vv_get_nil.
    change (0, 0) with ((fun y : nat => (0, y)) 0).
    rewrite map_nth. reflexivity.
  - destruct b as [|y b].
    + simpl vv_zip. destruct i as [|i].
      * reflexivity.
      * simpl nth at 1. rewrite IHa. rewrite vv_get_cons_S. rewrite !vv_get_nil.
        reflexivity.
    + simpl vv_zip. destruct i as [|i].
      * reflexivity.
      * simpl nth at 1. rewrite IHa. reflexivity.
Qed.

Lemma vv_zip_length : forall a b,
  length (vv_zip a b) = Nat.max (length a) (length b).
Proof.
  induction a as [|x a IHa]; intros b.
  - simpl. apply map_length.
  - destruct b as [|y b]; simpl; rewrite IHa.
    + simpl. rewrite Nat.max_0_r. reflexivity.
    + reflexivity.
Qed.

Lemma vv_zip_Forall : forall (P : nat * nat -> Prop) a b,
  P (0, 0) ->
  (Forall P (vv_zip a b) <-> forall i, P (vv_get a i, vv_get b i)).
Proof.
  intros P a b H0. split.
  - intros HF i. rewrite <- vv_zip_nth.
    destruct (Nat.lt_ge_cases i (length (vv_zip a b))) as [Hlt|Hge].
    + rewrite Forall_nth in HF. apply HF. exact Hlt.
    + rewrite nth_overflow by exact Hge. exact H0.
  - intros Hall. apply Forall_nth. intros i d Hlt.
    rewrite (nth_indep _ d (0, 0) Hlt). rewrite vv_zip_nth. apply Hall.
Qed.

Lemma vv_zip_Exists : forall (P : nat * nat -> Prop) a b,
  ~ P (0, 0) ->
  (Exists P (vv_zip a b) <-> exists i, P (vv_get a i, vv_get b i)).
Proof.
  intros P a b H0. split.
  - intros HE. apply Exists_nth in HE. destruct HE as [i [d [Hlt HP]]].
    exists i. rewrite (nth_indep _ d (0, 0) Hlt) in HP.
    rewrite vv_zip_nth in HP. exact HP.
  - intros [i HP]. rewrite <- vv_zip_nth in HP.
    destruct (Nat.lt_ge_cases i (length (vv_zip a b))) as [Hlt|Hge].
    + apply Exists_nth. exists i, (0, 0). split; assumption.
    + rewrite nth_overflow in HP by exact Hge. contradiction.
Qed.

(* ------------------------------------------------------------------ *)
(* vv_pcmp_acc, characterised by two boolean passes                     *)

Definition ple (p : nat * nat) : bool := Nat.leb (fst p) (snd p).
Definition pge (p : nat * nat) : bool := Nat.leb (snd p) (fst p).

Lemma ple_true : forall x y, x <= y -> ple (x, y) = true.
Proof. intros x y H. unfold ple. simpl. apply Nat.leb_le. exact H. Qed.
Lemma ple_false : forall x y, y < x -> ple (x, y) = false.
Proof. intros x y H. unfold ple. simpl. apply Nat.leb_gt. exact H. Qed.
Lemma pge_true : forall x y, y <= x -> pge (x, y) = true.
Proof. intros x y H. unfold pge. simpl. apply Nat.leb_le. exact H. Qed.
Lemma pge_false : forall x y, x < y -> pge (x, y) = false.
Proof. intros x y H. unfold pge. simpl. apply Nat.leb_gt. exact H. Qed.

Lemma pcmp_acc_Lt : forall l,
  vv_pcmp_acc Lt l = if forallb ple l then Some Lt else None.
Proof.
  induction l as [|[x y] l IHl].
  - reflexivity.
  - cbn [vv_pcmp_acc forallb].
    destruct (Nat.compare_spec x y) as [Heq|Hlt|Hgt].
    + rewrite ple_true by lia. cbn [andb]. exact IHl.
    + rewrite ple_true by lia. cbn [andb]. exact IHl.
    + rewrite ple_false by lia. reflexivity.
Qed.

Lemma pcmp_acc_Gt : forall l,
  vv_pcmp_acc Gt l = if forallb pge l then Some Gt else None.
Proof.
  induction l as [|[x y] l IHl].
  - reflexivity.
  - cbn [vv_pcmp_acc forallb].
    destruct (Nat.compare_spec x y) as [Heq|Hlt|Hgt].
    + rewrite pge_true by lia. cbn [andb]. exact IHl.
    + rewrite pge_false by lia. reflexivity.
    + rewrite pge_true by lia. cbn [andb]. exact IHl.
Qed.

Lemma pcmp_acc_Eq : forall l,
  vv_pcmp_acc Eq l =
  match forallb ple l, forallb pge l with
  | true, true => Some Eq
  | true, false => Some Lt
  | false, true => Some Gt
  | false, false => None
  end.
Proof.
  induction l as [|[x y] l IHl].
  - reflexivity.
  - cbn [vv_pcmp_acc forallb].
    destruct (Nat.compare_spec x y) as [Heq|Hlt|Hgt].
    + rewrite ple_true by lia. rewrite pge_true by lia. cbn [andb]. exact IHl.
    + rewrite ple_true by lia. rewrite pge_false by lia. cbn [andb].
      rewrite pcmp_acc_Lt. destruct (forallb ple l); reflexivity.
    + rewrite ple_false by lia. rewrite pge_true by lia. cbn [andb].
      rewrite pcmp_acc_Gt. destruct (forallb pge l); reflexivity.
Qed.

Lemma forallb_Forall_true : forall (f : nat * nat -> bool) l,
  forallb f l = true <-> Forall (fun p => f p = true) l.
Proof. intros f l. rewrite forallb_forall, Forall_forall. reflexivity. Qed.

Lemma forallb_false_Exists : forall (f : nat * nat -> bool) l,
  forallb f l = false <-> Exists (fun p => f p = false) l.
Proof.
  intros f l. induction l as [|p l IHl].
  - simpl. split; [discriminate|]. intros HE. inversion HE.
  - simpl. rewrite andb_false_iff. rewrite IHl. split.
    + intros [Hp|Hl]; [apply Exists_cons_hd|apply Exists_cons_tl]; assumption.
    + intros HE. inversion HE as [p' l' Hp|p' l' Hl]; subst; [left|right]; assumption.
Qed.

Lemma zip_ple_vle : forall a b, forallb ple (vv_zip a b) = true <-> vle a b.
Proof.
  intros a b. rewrite forallb_Forall_true.
  rewrite (vv_zip_Forall (fun p => ple p = true) a b) by reflexivity.
  unfold vle, ple. simpl. split; intros H i; apply Nat.leb_le; apply H.
Qed.

Lemma zip_pge_vle : forall a b, forallb pge (vv_zip a b) = true <-> vle b a.
Proof.
  intros a b. rewrite forallb_Forall_true.
  rewrite (vv_zip_Forall (fun p => pge p = true) a b) by reflexivity.
  unfold vle, pge. simpl. split; intros H i; apply Nat.leb_le; apply H.
Qed.

Lemma zip_pge_false : forall a b,
  forallb pge (vv_zip a b) = false <-> exists i, vv_get a i < vv_get b i.
Proof.
  intros a b. rewrite forallb_false_Exists.
  rewrite (vv_zip_Exists (fun p => pge p = false) a b) by (unfold pge; simpl; discriminate).
  unfold pge. simpl. split; intros [i H]; exists i; apply Nat.leb_gt; exact H.
Qed.

(* ------------------------------------------------------------------ *)
(* vv_le, vv_lt, vv_eqb                                                *)

Lemma vv_le_spec : forall a b, vv_le a b = true <-> vle a b.
Proof.
  intros a b. rewrite <- zip_ple_vle. unfold vv_le, vv_pcmp.
  rewrite pcmp_acc_Eq.
  destruct (forallb ple (vv_zip a b)); destruct (forallb pge (vv_zip a b));
    split; intros H; try reflexivity; try discriminate.
Qed.

Lemma vv_lt_spec : forall a b,
  vv_lt a b = true <-> (vle a b /\ exists i, vv_get a i < vv_get b i).
Proof.
  intros a b. rewrite <- zip_ple_vle. rewrite <- zip_pge_false.
  unfold vv_lt, vv_pcmp. rewrite pcmp_acc_Eq.
  destruct (forallb ple (vv_zip a b)); destruct (forallb pge (vv_zip a b));
    split; intros H; try reflexivity; try discriminate;
    try (split; reflexivity); destruct H as [H1 H2]; discriminate.
Qed.

Lemma vv_eqb_spec : forall a b,
  vv_eqb a b = true <-> forall i, vv_get a i = vv_get b i.
Proof.
  intros a b. unfold vv_eqb. rewrite forallb_Forall_true.
  rewrite (vv_zip_Forall (fun p => Nat.eqb (fst p) (snd p) = true) a b) by reflexivity.
  simpl. split; intros H i; apply Nat.eqb_eq; apply H.
Qed.

(* ------------------------------------------------------------------ *)
(* vv_ahead                                                            *)

Lemma vv_ahead_from_none : forall b a k,
  vv_ahead_from k a b = None <-> vle b a.
Proof.
  induction b as [|y b IHb]; intros a k.
  - simpl. split; [|reflexivity]. intros _ i. rewrite vv_get_nil. lia.
  - rewrite vle_cons_l. simpl.
    replace (match a with [] => 0 | x :: _ => x end) with (hd 0 a)
      by (destruct a; reflexivity).
    replace (match a with [] => [] | _ :: s => s end) with (tl a)
      by (destruct a; reflexivity).
    destruct (Nat.ltb_spec (hd 0 a) y) as [Hlt|Hge].
    + split; [discriminate|]. intros [Hle _]. lia.
    + rewrite IHb. split.
      * intros H. split; assumption.
      * intros [_ H]. exact H.
Qed.

Lemma vv_ahead_none : forall a b, vv_ahead a b = None <-> vle b a.
Proof. intros a b. unfold vv_ahead. apply vv_ahead_from_none. Qed.

Lemma vv_ahead_from_some : forall b a k i,
  vv_ahead_from k a b = Some i ->
  exists j, i = k + j /\ vv_get a j < vv_get b j /\
            forall m, m < j -> vv_get b m <= vv_get a m.
Proof.
  induction b as [|y b IHb]; intros a k i H.
  - simpl in H. discriminate.
  - simpl in H.
    replace (match a with [] => 0 | x :: _ => x end) with (vv_get a 0) in H
      by (destruct a; reflexivity).
    destruct (Nat.ltb_spec (vv_get a 0) y) as [Hlt|Hge].
    + inversion H. subst i. exists 0. split; [lia|]. split.
      * rewrite vv_get_cons_0. exact Hlt.
      * intros m Hm. lia.
    + apply IHb in H. destruct H as [j [Hi [Hj Hbelow]]].
      exists (S j). split; [lia|]. split.
      * rewrite vv_get_cons_S, vv_get_tl. exact Hj.
      * intros m Hm. destruct m as [|m].
        -- rewrite vv_get_cons_0. exact Hge.
        -- rewrite vv_get_cons_S, vv_get_tl. apply Hbelow. lia.
Qed.

Lemma vv_ahead_some : forall a b i,
  vv_ahead a b = Some i ->
  vv_get a i < vv_get b i /\ forall j, j < i -> vv_get b j <= vv_get a j.
Proof.
  intros a b i H. unfold vv_ahead in H. apply vv_ahead_from_some in H.
  destruct H as [j [Hi [Hj Hbelow]]]. simpl in Hi. subst i.
  split; assumption.
Qed.

(* ------------------------------------------------------------------ *)
(* vv_inc                                                              *)

Lemma vv_inc_length : forall v i, length (vv_inc v i) = length v.
Proof.
  intros v i. unfold vv_inc, list_upd.
  destruct (nth_error v i) as [x|].
  - apply list_set_length.
  - reflexivity.
Qed.

Lemma vv_get_inc_same : forall v i,
  i < length v -> vv_get (vv_inc v i) i = S (vv_get v i).
Proof.
  intros v i Hlt. unfold vv_inc, list_upd, vv_get.
  rewrite (nth_error_nth' v 0 Hlt).
  apply list_set_nth_same. exact Hlt.
Qed.

Lemma vv_get_inc_other : forall v i j,
  i <> j -> vv_get (vv_inc v i) j = vv_get v j.
Proof.
  intros v i j Hne. unfold vv_inc, list_upd, vv_get.
  destruct (nth_error v i) as [x|].
  - apply list_set_nth_other. exact Hne.
  - reflexivity.
Qed.

Lemma vle_inc : forall v i, vle v (vv_inc v i).
Proof.
  intros v i j. destruct (Nat.eq_dec i j) as [Heq|Hne].
  - subst j. destruct (Nat.lt_ge_cases i (length v)) as [Hlt|Hge].
    + rewrite vv_get_inc_same by exact Hlt. lia.
    + rewrite (vv_get_overflow v) by exact Hge. lia.
  - rewrite vv_get_inc_other by exact Hne. lia.
Qed.

(* ------------------------------------------------------------------ *)
(* vv_new                                                              *)

Lemma nth_repeat_0 : forall n i, nth i (repeat 0 n) 0 = 0.
Proof.
  induction n as [|n IHn]; intros i.
  - destruct i; reflexivity.
  - destruct i as [|i]; simpl.
    + reflexivity.
    + apply IHn.
Qed.

Lemma vv_new_get : forall i, vv_get vv_new i = 0.
Proof. intros i. unfold vv_get, vv_new. apply nth_repeat_0. Qed.

Lemma vle_new : forall a, vle vv_new a.
Proof. intros a i. rewrite vv_new_get. lia. Qed.

Print Assumptions vv_le_spec.
Print Assumptions vv_lt_spec.
Print Assumptions vle_join_lub.
