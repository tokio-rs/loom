(* ListFacts: the facts about the list functions of Base.v (list_set, list_upd,
   mapi) that the proof files share. *)
Require Import LV.Base.
From Coq Require Import List Arith Lia.
Import ListNotations.

Lemma list_set_length : forall (A : Type) (l : list A) n x,
  length (list_set l n x) = length l.
Proof.
  intros A. induction l as [|h t IHt]; intros n x.
  - reflexivity.
  - destruct n as [|n]; simpl.
    + reflexivity.
    + rewrite IHt. reflexivity.
Qed.

Lemma list_set_nth_same : forall (A : Type) (l : list A) n x d,
  n < length l -> nth n (list_set l n x) d = x.
Proof.
  intros A. induction l as [|h t IHt]; intros n x d Hlt.
  - simpl in Hlt. lia.
  - destruct n as [|n]; simpl.
    + reflexivity.
    + apply IHt. simpl in Hlt. lia.
Qed.

Lemma list_set_nth_other : forall (A : Type) (l : list A) n j x d,
  n <> j -> nth j (list_set l n x) d = nth j l d.
Proof.
  intros A. induction l as [|h t IHt]; intros n j x d Hne.
  - reflexivity.
  - destruct n as [|n]; destruct j as [|j]; simpl.
    + lia.
    + reflexivity.
    + reflexivity.
    + apply IHt. lia.
Qed.

Lemma nth_error_list_set_same : forall (A : Type) (l : list A) n x,
  n < length l -> nth_error (list_set l n x) n = Some x.
Proof.
  intros A. induction l as [|h t IHt]; intros n x Hlt.
  - simpl in Hlt. lia.
  - destruct n as [|n]; simpl.
    + reflexivity.
    + apply IHt. simpl in Hlt. lia.
Qed.

Lemma nth_error_list_set_other : forall (A : Type) (l : list A) n j x,
  n <> j -> nth_error (list_set l n x) j = nth_error l j.
Proof.
  intros A. induction l as [|h t IHt]; intros n j x Hne.
  - reflexivity.
  - destruct n as [|n]; destruct j as [|j]; simpl.
    + lia.
    + reflexivity.
    + reflexivity.
    + apply IHt. lia.
Qed.

Lemma list_set_id : forall (A : Type) (l : list A) i x,
  nth_error l i = Some x -> list_set l i x = l.
Proof.
  intros A. induction l as [|h t IH]; intros i x Hx; [reflexivity|].
  destruct i as [|i]; cbn [list_set nth_error] in *.
  - injection Hx as ->. reflexivity.
  - rewrite IH by exact Hx. reflexivity.
Qed.

Lemma map_list_set : forall (A B : Type) (g : A -> B) (l : list A) i x,
  map g (list_set l i x) = list_set (map g l) i (g x).
Proof.
  intros A B g. induction l as [|h t IH]; intros i x; [reflexivity|].
  destruct i as [|i]; cbn [list_set map]; [reflexivity|]. rewrite IH. reflexivity.
Qed.

Lemma Forall_list_set (A : Type) (P : A -> Prop) (l : list A) (n : nat) (x : A) :
  Forall P l -> P x -> Forall P (list_set l n x).
Proof.
  intros Hl Hx; revert n; induction Hl as [|h t Hh Ht IH]; intros [|n];
    cbn [list_set]; auto.
Qed.

Lemma nth_error_list_upd_same : forall (A : Type) (l : list A) n f,
  nth_error (list_upd l n f) n = option_map f (nth_error l n).
Proof.
  intros A l n f. unfold list_upd.
  destruct (nth_error l n) as [x|] eqn:Hn.
  - simpl. apply nth_error_list_set_same. apply nth_error_Some. rewrite Hn. discriminate.
  - simpl. exact Hn.
Qed.

Lemma nth_error_list_upd_other : forall (A : Type) (l : list A) n j f,
  n <> j -> nth_error (list_upd l n f) j = nth_error l j.
Proof.
  intros A l n j f Hne. unfold list_upd.
  destruct (nth_error l n) as [x|].
  - apply nth_error_list_set_other. exact Hne.
  - reflexivity.
Qed.

Lemma list_upd_length : forall (A : Type) (l : list A) n f,
  length (list_upd l n f) = length l.
Proof.
  intros A l n f. unfold list_upd. destruct (nth_error l n) as [x|].
  - apply list_set_length.
  - reflexivity.
Qed.

(* nth through list_upd for a projection that the update preserves *)

Lemma nth_list_upd_proj : forall (A B : Type) (g : A -> B) (l : list A) n f d,
  (forall x, g (f x) = g x) -> forall j, g (nth j (list_upd l n f) d) = g (nth j l d).
Proof.
  intros A B g l n f d Hg j. unfold list_upd.
  destruct (nth_error l n) as [x|] eqn:Hn.
  - destruct (Nat.eq_dec n j) as [Heq|Hne].
    + subst j. rewrite list_set_nth_same.
      * rewrite Hg. apply nth_error_nth with (d := d) in Hn. rewrite Hn. reflexivity.
      * apply nth_error_Some. rewrite Hn. discriminate.
    + rewrite list_set_nth_other by exact Hne. reflexivity.
  - reflexivity.
Qed.

Lemma nth_list_upd_same_or : forall (A : Type) (l : list A) i f d k,
  nth k (list_upd l i f) d = nth k l d \/ (k = i /\ nth k (list_upd l i f) d = f (nth k l d)).
Proof.
  intros A l i f d k. destruct (Nat.eq_dec i k) as [->|Hne].
  - unfold list_upd. destruct (nth_error l k) as [x|] eqn:Hx; [|left; reflexivity].
    right. split; [reflexivity|].
    assert (Hlt : k < length l) by (apply nth_error_Some; congruence).
    rewrite list_set_nth_same by exact Hlt. f_equal.
    symmetry. apply nth_error_nth. exact Hx.
  - left. unfold list_upd. destruct (nth_error l i); [|reflexivity].
    apply list_set_nth_other. exact Hne.
Qed.

Lemma list_upd_id : forall (A : Type) (l : list A) i, list_upd l i (fun x => x) = l.
Proof.
  intros A l i. unfold list_upd. destruct (nth_error l i) as [x|] eqn:Hx; [|reflexivity].
  apply list_set_id, Hx.
Qed.

Lemma map_list_upd : forall (A B : Type) (g : A -> B) (l : list A) i f f',
  (forall x, g (f x) = f' (g x)) -> map g (list_upd l i f) = list_upd (map g l) i f'.
Proof.
  intros A B g l i f f' H. unfold list_upd. rewrite nth_error_map.
  destruct (nth_error l i) as [x|]; cbn [option_map]; [|reflexivity].
  rewrite map_list_set, H. reflexivity.
Qed.

Lemma list_upd_upd_const : forall (A : Type) (l : list A) k (a b : A),
  list_upd (list_upd l k (fun _ => a)) k (fun _ => b) = list_upd l k (fun _ => b).
Proof.
  intros A l k a b. unfold list_upd at 1. rewrite nth_error_list_upd_same.
  unfold list_upd. destruct (nth_error l k) as [x|] eqn:Hn; cbn [option_map]; [|reflexivity].
  clear Hn x. revert k. induction l as [|y l IH]; intros k; [reflexivity|].
  destruct k as [|k]; cbn [list_set]; [reflexivity|]. rewrite IH. reflexivity.
Qed.

Lemma nth_error_mapi_from : forall (A B : Type) (f : nat -> A -> B) (l : list A) k j,
  nth_error (mapi_from k f l) j = option_map (f (k + j)) (nth_error l j).
Proof.
  intros A B f. induction l as [|h t IHt]; intros k j.
  - destruct j; reflexivity.
  - destruct j as [|j]; simpl.
    + rewrite Nat.add_0_r. reflexivity.
    + rewrite IHt. replace (S k + j) with (k + S j) by lia. reflexivity.
Qed.

Lemma nth_error_mapi : forall (A B : Type) (f : nat -> A -> B) (l : list A) j,
  nth_error (mapi f l) j = option_map (f j) (nth_error l j).
Proof. intros A B f l j. unfold mapi. rewrite nth_error_mapi_from. reflexivity. Qed.

Lemma mapi_from_length : forall (A B : Type) (f : nat -> A -> B) (l : list A) k,
  length (mapi_from k f l) = length l.
Proof.
  intros A B f. induction l as [|h t IHt]; intros k.
  - reflexivity.
  - simpl. rewrite IHt. reflexivity.
Qed.

Lemma mapi_length : forall (A B : Type) (f : nat -> A -> B) (l : list A),
  length (mapi f l) = length l.
Proof. intros A B f l. unfold mapi. apply mapi_from_length. Qed.

(* nth through mapi for a projection that the (endo)map preserves *)

Lemma nth_mapi_from_proj : forall (A B : Type) (g : A -> B) (f : nat -> A -> A) (l : list A) d,
  (forall i x, g (f i x) = g x) ->
  forall k j, g (nth j (mapi_from k f l) d) = g (nth j l d).
Proof.
  intros A B g f l d Hg. induction l as [|h t IHt]; intros k j.
  - reflexivity.
  - destruct j as [|j]; cbn [mapi_from nth].
    + apply Hg.
    + apply IHt.
Qed.

Lemma nth_mapi_proj : forall (A B : Type) (g : A -> B) (f : nat -> A -> A) (l : list A) d,
  (forall i x, g (f i x) = g x) -> forall j, g (nth j (mapi f l) d) = g (nth j l d).
Proof. intros A B g f l d Hg j. unfold mapi. apply nth_mapi_from_proj. exact Hg. Qed.

Definition pointwise {A : Type} (R : A -> A -> Prop) (l l' : list A) : Prop :=
  length l' = length l /\
  forall i x, nth_error l i = Some x -> exists y, nth_error l' i = Some y /\ R x y.

Lemma pointwise_refl (A : Type) (R : A -> A -> Prop) l : (forall x, R x x) -> pointwise R l l.
Proof. intros Hr. split; [reflexivity|]. intros i x Hi. eauto. Qed.

Lemma pointwise_list_upd (A : Type) (R : A -> A -> Prop) l i f :
  (forall x, R x x) -> (forall x, R x (f x)) -> pointwise R l (list_upd l i f).
Proof.
  intros Hr Hf. split; [apply list_upd_length|]. intros j x Hj.
  destruct (Nat.eq_dec i j) as [->|Hne].
  - rewrite nth_error_list_upd_same, Hj. cbn [option_map]. eauto.
  - rewrite nth_error_list_upd_other by exact Hne. eauto.
Qed.

Lemma pointwise_mapi (A : Type) (R : A -> A -> Prop) l g :
  (forall i x, R x (g i x)) -> pointwise R l (mapi g l).
Proof.
  intros Hg. split; [apply mapi_length|]. intros j x Hj.
  rewrite nth_error_mapi, Hj. cbn [option_map]. eauto.
Qed.

Lemma pointwise_trans (A : Type) (R1 R2 R : A -> A -> Prop) l1 l2 l3 :
  (forall x y z, R1 x y -> R2 y z -> R x z) ->
  pointwise R1 l1 l2 -> pointwise R2 l2 l3 -> pointwise R l1 l3.
Proof.
  intros Hc [Hl1 H1] [Hl2 H2]. split; [congruence|]. intros i x Hi.
  destruct (H1 i x Hi) as (y & Hy & Hxy). destruct (H2 i y Hy) as (z & Hz & Hyz). eauto.
Qed.

Lemma Forall_skipn_S : forall (A : Type) (P : A -> Prop) k l,
  Forall P (skipn k l) -> Forall P (skipn (S k) l).
Proof.
  intros A P k. induction k as [|k IH]; intros l H.
  - destruct l as [|x l]; cbn [skipn] in *; [constructor|]. inversion H; assumption.
  - destruct l as [|x l]; [constructor|]. cbn [skipn] in H. apply IH in H. exact H.
Qed.

Lemma Forall_skipn_le : forall (A : Type) (P : A -> Prop) k k' l,
  k <= k' -> Forall P (skipn k l) -> Forall P (skipn k' l).
Proof.
  intros A P k k' l Hle H. induction Hle as [|k' _ IH]; [exact H|].
  apply Forall_skipn_S, IH.
Qed.

Lemma filter_length_le {A : Type} (f : A -> bool) (l : list A) :
  length (filter f l) <= length l.
Proof.
  induction l as [|h t IH]; simpl; [lia|].
  destruct (f h); simpl; lia.
Qed.

Lemma Forall2_rev' {A B : Type} (R : A -> B -> Prop) (l : list A) (l' : list B) :
  Forall2 R l l' -> Forall2 R (rev l) (rev l').
Proof.
  induction 1 as [|x y l l' Hxy _ IH]; simpl; [constructor|].
  apply Forall2_app; [exact IH|]. constructor; [exact Hxy|constructor].
Qed.

Lemma Forall2_Forall (A : Type) (R : A -> A -> Prop) (P : A -> Prop) (l l' : list A) :
  (forall a b, R a b -> P a -> P b) -> Forall2 R l l' -> Forall P l -> Forall P l'.
Proof.
  intros HR. induction 1 as [|a b l l' Hab _ IH]; intros Hl; [constructor|].
  inversion Hl; subst. constructor; eauto.
Qed.

Lemma Forall2_nth (A B : Type) (R : A -> B -> Prop) (l : list A) (l' : list B) (i : nat) :
  Forall2 R l l' ->
  match nth_error l i, nth_error l' i with
  | Some x, Some y => R x y
  | None, None => True
  | _, _ => False
  end.
Proof.
  intros H; revert i.
  induction H as [|x y l l' Hxy _ IH]; intros [|i]; cbn [nth_error];
    [exact I|exact I|exact Hxy|apply IH].
Qed.

Lemma Forall2_len (A B : Type) (R : A -> B -> Prop) (l : list A) (l' : list B) :
  Forall2 R l l' -> length l = length l'.
Proof. induction 1; cbn [length]; auto. Qed.

Lemma filter_list_set_length (A : Type) (f : A -> bool) (l : list A) (n : nat) (x y : A) :
  nth_error l n = Some y ->
  length (filter f (list_set l n x)) + (if f y then 1 else 0)
  = length (filter f l) + (if f x then 1 else 0).
Proof.
  revert n; induction l as [|h t IH]; intros [|n] Hn; cbn [nth_error list_set filter] in *;
    try discriminate.
  - injection Hn as ->. destruct (f x), (f y); cbn [length]; lia.
  - specialize (IH _ Hn). destruct (f h); cbn [length]; lia.
Qed.

Lemma find_index_Some (A : Type) (f : A -> bool) (l : list A) (i : nat) :
  find_index f l = Some i -> exists x, nth_error l i = Some x /\ f x = true.
Proof.
  revert i; induction l as [|h t IH]; intros i; cbn [find_index]; [discriminate|].
  destruct (f h) eqn:Hh.
  - intros H. injection H as <-. exists h. auto.
  - destruct (find_index f t) as [j|]; cbn [option_map]; [|discriminate].
    intros H. injection H as <-. cbn [nth_error]. apply IH. reflexivity.
Qed.

Lemma find_index_None (A : Type) (f : A -> bool) (l : list A) (i : nat) (x : A) :
  find_index f l = None -> nth_error l i = Some x -> f x = false.
Proof.
  revert i; induction l as [|h t IH]; intros [|i]; cbn [find_index nth_error];
    try discriminate.
  - intros H Hx. injection Hx as <-. destruct (f h); [discriminate|reflexivity].
  - destruct (f h); [discriminate|].
    destruct (find_index f t); [discriminate|]. intros _. apply IH. reflexivity.
Qed.

Lemma Forall2_refl (A : Type) (R : A -> A -> Prop) (l : list A) :
  (forall a, R a a) -> Forall2 R l l.
Proof. intros HR; induction l; constructor; auto. Qed.

Lemma list_ext {A : Type} (l l' : list A) :
  (forall i, nth_error l i = nth_error l' i) -> l = l'.
Proof.
  revert l'; induction l as [|h t IH]; intros [|h' t'] H.
  - reflexivity.
  - specialize (H 0). discriminate H.
  - specialize (H 0). discriminate H.
  - pose proof (H 0) as H0. cbn in H0. injection H0 as ->.
    f_equal. apply IH. intros i. apply (H (S i)).
Qed.

Lemma pointwise_inv {A : Type} (R : A -> A -> Prop) l l' i y :
  pointwise R l l' -> nth_error l' i = Some y -> exists x, nth_error l i = Some x /\ R x y.
Proof.
  intros [Hl H] Hy. destruct (nth_error l i) as [x|] eqn:Hx.
  - destruct (H i x Hx) as (y' & Hy' & Hr). exists x. split; [reflexivity|congruence].
  - apply nth_error_None in Hx. rewrite <- Hl in Hx. apply nth_error_None in Hx. congruence.
Qed.

Lemma pointwise_map {A B : Type} (R : A -> A -> Prop) (f : A -> B) l l' :
  pointwise R l l' -> (forall x y, R x y -> f y = f x) -> map f l' = map f l.
Proof.
  intros [Hl H] Hf. apply list_ext. intros i. rewrite !nth_error_map.
  destruct (nth_error l i) as [x|] eqn:Hx.
  - destruct (H i x Hx) as (y & -> & Hr). cbn [option_map]. rewrite (Hf x y Hr). reflexivity.
  - apply nth_error_None in Hx. rewrite <- Hl in Hx. apply nth_error_None in Hx. rewrite Hx. reflexivity.
Qed.
