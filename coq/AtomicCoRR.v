(* Coherence (CoRR / CoWR / CoRW / CoWW) of ONE atomic cell over SEQUENCES of
   operations by SEVERAL threads.

   THREE load-coherence rules ([rule], [alc_g]):
     RBefore  [alc_before_fix]: apply_load_coherence before fix c0421c4 (only the
              loaded store is raised) -- verbatim local copy;
     RC0421   [alc_c0421c4]: the rule of fix c0421c4 (the raise is propagated to
              the mo-successors of the loaded store) -- verbatim local copy;
     RModel   the MODEL's current apply_load_coherence = the c0421c4 rule
              followed by close_rmw_atomicity (fix D19): [model_alc_eq],
              [atomic_load_g_model], [atomic_rmw_g_model] (all by reflexivity):
              "mstep RModel" is literally Atomic.atomic_load / atomic_rmw /
              atomic_store / match_load_to_stores / match_rmw_to_stores.

   MACHINE ([mstep tr], [mrun tr], [minit]).  State = (atomic_state, clocks :
   list vv).  Steps of thread t, exactly as Ops.v does them (own clock
   component incremented first, last_yield = None, released = vv_new = t_rel of
   a thread that never fenced):
     XLoad idx o   allowed iff idx is in match_load_to_stores s t c None o;
                   effect of load_post (atomic_load, clock := returned clock);
     XStore v o    track_store; atomic_store s t c vv_new vv_new v o;
     XRmw idx f so fo  allowed iff idx is in match_rmw_to_stores s; atomic_rmw;
     XSync u       clock_t := clock_t join clock_u (ANY other synchronisation).
   Stores/RMWs are refused when the ring is full (at_cnt = 7): wrap-around is
   out of scope.  Start: thread 0 creates the cell with clock [1;0;0;0;0]
   (atomic_new), n <= MAX_THREADS threads, all clocks equal to the creator's.

   WHAT IS PROVED, AND FOR WHICH RULE

   (a) RBefore, by vm_compute (first and fourth also seen on the real loom
       before c0421c4): [coherence_counterexample_before_fix] (CoWR false: T1:
       store 20; store 30; load -> 20 after T0: store 40; load 20),
       [corr_counterexample_before_fix], [assert_ne_counterexample_before_fix]
       (two live stores with equal clocks: assert_ne! fires),
       [rmw_counterexample_before_fix] (two RMWs read the same store).

   (b) RC0421: the full invariant development, every name with the suffix
       _c0421c4 (these are theorems about the LOCAL copy [alc_c0421c4], i.e.
       about the model as it was between c0421c4 and the D19 fix):
       invariant [InvO] / [Inv] / [StampO] / [Inv2] ([minit_inv], [minit_inv2],
       [mstep_ext_c0421c4], [mstep_inv_c0421c4], [mrun_inv_c0421c4],
       [mrun_inv2_c0421c4], [reach_inv_c0421c4], [reach_inv2_c0421c4]);
       [mlts_never_none_c0421c4]; [step_stable_c0421c4] / [run_stable_c0421c4]
       (vv_lt between live stores is never lost); [step_knows_c0421c4] /
       [run_knows_c0421c4]; [load_knows_c0421c4], [store_knows_c0421c4],
       [sync_knows_c0421c4]; [CoRR_CoWR_c0421c4], [CoRR_CoWR_rmw_c0421c4],
       [CoWW_CoRW_c0421c4] (happens-before versions); [CoRR_same_thread_c0421c4],
       [CoWR_same_thread_c0421c4], [CoRW_same_thread_c0421c4],
       [CoWW_same_thread_c0421c4].  [search_clean_c0421c4]: the sweep [search]
       (it tests, after every step, that no edge is lost and no two live
       stores have equal clocks) finds nothing from a state with the
       invariant; [search_repaired] is an instance, [search_before_fix] its
       counterpart for RBefore.  And its gap: [rmw_gap_before_fix] (loads
       order 20 <mo 10 <mo 21 with 21 = fetch_add of 20).

   (c) RModel (the model's CURRENT functions):
       PROVED (closed):
       - [model_alc_eq]: model rule = c0421c4 rule + close_rmw_atomicity;
       - [close_no_src], [model_alc_no_src]: when no store in the ring is the
         store of an RMW the closure is the identity and apply_load_coherence
         = alc_c0421c4; [mstep_model_eq], [mrun_model_eq]: on RMW-free runs the
         model's machine IS the c0421c4 machine; hence
         [reach_model_rmw_free_c0421c4]: every state the model's functions
         reach by an RMW-free run satisfies every theorem of (b)
         ([model_rmw_free_inv] spells out Inv2 and "assert_ne! never fires").
       COMPUTED (vm_compute):
       - [rmw_gap_refused]: both orders of the D19 gap are refused by the model
         (I1 resp. I2 of the closure added the forcing edge);
       - [model_refuses_old_counterexamples];
       - [search_closure_c0421c4]: the sweep of [search_m] meets a state that is
         not closed under the c0421c4 rule.
       PROVED for ALL runs, RMWs included (section 13; the theorems on runs are
       in AtomicClosure.v): every step keeps the invariant [GoodSc] =
       (exists own rk, [GoodOc] = InvO /\ LinkOc /\ Closedc /\ Syc) /\ StampO.
       Each raise of the closure is an instance of the generic "raise a above
       b" step, which preserves InvO iff not (a <=mo b); for I1 / I2 that side
       condition is "no live store strictly between the RMW and its source" IN
       THE CURRENT, PARTIALLY CLOSED state, which is not inductive over the
       closure's own steps from syntactic facts alone (a raise for one RMW pair
       can momentarily put a store between another pair whose own raise is
       still pending).  The inductive statement is semantic, [LinkOc own rk s]:
       the live stores have a LINEAR extension [rk] of vv_lt in which every RMW
       store immediately follows its source.  Every I1 / I2 / transitivity
       edge is forced by that extension, so the witness survives the whole
       closure unchanged, and only the c0421c4 step (new read-read edges
       x -> idx for the seen x) has to construct a new extension.
       1. [raise_inv] (+ [rz_K'], [rz_fields], [rz_grow]): raise_mo a (mo b)
          preserves InvO whenever not (a <=mo b); the new order is the old one
          plus "x <= b -> x <= everything above a".  This and the load phase
          of the c0421c4 rule ([load_phase_inv]) are the two instances of
          Section RaiseAbove ([ra_inv], [ra_K']).  [raise_link]: if
          rk b < rk a the SAME witness survives.
       2. the fuel: [muc] counts the ordered pairs among the unordered pairs of
          live slots, [mu_le] (<= 21 by antisymmetry), [mu_strict];
          [close_step_cases]: a step either changes nothing (then its rule is
          not applicable: [NoFire]) or sets the flag, strictly increases muc
          and keeps InvO and the witness (I1 raises i above r and adjacency
          gives rk r < rk i; I2 raises the source above i and adjacency gives
          rk i < rk source) and only enlarges st_mo ([Samec]);
          [close_fold_cases]; [close_closed]: with 21 < muc + fuel the result
          is closed; [close_model_closedc]: the model's call (fuel 4 * 7 = 28)
          returns a state with InvO, the same witness, and [Closedc] (neither
          rule of close_step applies).
       3. [load_witness]: on a closed state with a witness the c0421c4 load
          step has a NEW witness: the up-set of the head of idx's RMW chain
          ([hd], [chainQ]) is a union of RMW blocks ([lw_block], by
          I2-closedness) and contains no seen store that is not already below
          idx ([lw_ext], by I1-closedness along the chain and the candidate
          condition); it is moved behind everything else; [lw_idx_last]: if
          idx is mo-maximal (RMW) it is ranked last, hence stays mo-maximal
          after the closure.
       4. [model_loadpart_good]: the load part of the model's atomic_load /
          atomic_rmw (c0421c4 step, closure, first-seen stamp) maps InvO +
          witness + closed to InvO + (new) witness + closed, with [LoadFacts]
          (K only grows, the stamps, the other fields, "seen before => below
          idx afterwards").
       5. the store phase ([StoreW]: [store_witness], [store_closed],
          [store_sy], together [store_good]): [plain_store_good] (the new
          slot is ranked last; closed by the store-time closure of
          atomic_store_from, [sw_C1]); [rmw_store_good] (the RMW's store is
          ranked immediately after its source idx, the slots ranked after idx
          shift by one, [rk_after]; everything below the new store is below
          idx: [rmw_mo_ub] by [rmw_atomicity_ub], [fold_ub];
          [Syc]: a store seen by the synchronisation clock of b is mo-below b,
          for what is known through the acquired st_sync of idx).
       6. [mstep_goodOc] ([store_stepR_goodOc], [rmw_stepR_goodOc] for stores
          and RMWs with any released clock): every step of mstep RModel
          preserves GoodOc and StampO and satisfies [ext]; InvO, ext and
          StampO come from the exits [Out0] that [mstep_ext_c0421c4] uses
          ([load_out0], [store_out0], [rmw_store_out0], [sync_out0]), the
          rest is added by [Out0_goodOc]; [mstep_goodSc],
          [minit_goodSc], [step_stable_model], [witness_atomicity].
       COROLLARY (section 14), [search_closure_clean]: the sweep over all
       stores / loads / RMWs of 4 threads x 3 steps and 3 threads x 4 steps
       after the prefix store 10 | store 20; fetch_add finds nothing, because
       what [step_chk] tests after a step (no vv_lt edge lost, no two live
       stores with equal clocks, RMW atomicity [atom_viol], closed under
       close_step, also after stores, which do not run the closure) is what
       the invariant says ([step_chk_good], [search_m_clean] for any fuel and
       any number of threads); only that the prefix runs is evaluated. *)
Require Import LV.Base LV.VV LV.VVFacts LV.Path LV.Prog LV.Objects LV.Atomic LV.AtomicFacts LV.AtomicCoherence.
From Coq Require Import Lia.

(* ------------------------------------------------------------------ *)
(* 1. the two load-coherence rules                                      *)

(* The HISTORICAL rule: apply_load_coherence as it was before fix c0421c4 (a
   verbatim copy): only the loaded store is raised. *)
Definition alc_before_fix (s : atomic_state) (caus : vv) (index : nat) : atomic_state :=
  let mo :=
    fold_left
      (fun mo ix =>
         let '(i, x) := ix in
         if Nat.eqb index i then mo
         else
           let mo := if is_seen_by_current (st_seen x) caus then vv_join mo (st_mo x) else mo in
           if vv_lt (st_hb x) caus then vv_join mo (st_mo x) else mo)
      (index_list (at_stores s)) (st_mo (get_store s index)) in
  at_set_stores s (list_upd (at_stores s) index (fun x => st_set_mo x mo)) (at_cnt s).

(* The rule of fix c0421c4 (a verbatim copy of apply_load_coherence as it was
   between c0421c4 and the D19 fix): the raise of the loaded store is propagated
   to its mo-successors; no RMW-atomicity closure. *)
Definition alc_c0421c4 (s : atomic_state) (caus : vv) (index : nat) : atomic_state :=
  let mo :=
    fold_left
      (fun mo ix =>
         let '(i, x) := ix in
         if Nat.eqb index i then mo
         else
           let mo := if is_seen_by_current (st_seen x) caus then vv_join mo (st_mo x) else mo in
           if vv_lt (st_hb x) caus then vv_join mo (st_mo x) else mo)
      (index_list (at_stores s)) (st_mo (get_store s index)) in
  let before := st_mo (get_store s index) in
  let stores1 := list_upd (at_stores s) index (fun x => st_set_mo x mo) in
  let stores2 :=
    if vv_eqb mo before then stores1
    else mapi (fun i x => if negb (Nat.eqb index i) && vv_lt before (st_mo x)
                          then st_set_mo x (vv_join (st_mo x) mo) else x) stores1 in
  at_set_stores s stores2 (at_cnt s).

(* which load-coherence rule the machine uses *)
Inductive rule := RBefore | RC0421 | RModel.

Definition alc_g (tr : rule) (s : atomic_state) (caus : vv) (index : nat) : atomic_state :=
  match tr with
  | RModel => apply_load_coherence s caus index
  | RC0421 => alc_c0421c4 s caus index
  | RBefore => alc_before_fix s caus index
  end.

(* the model's rule = the c0421c4 rule followed by the RMW-atomicity closure *)
Lemma model_alc_eq : forall s caus index,
  apply_load_coherence s caus index =
  at_set_stores s
    (close_rmw_atomicity (4 * MAX_ATOMIC_HISTORY) (Nat.min (at_cnt s) MAX_ATOMIC_HISTORY)
       (at_stores (alc_c0421c4 s caus index)))
    (at_cnt s).
Proof. reflexivity. Qed.

Definition loadpart_g (tr : rule) (s1 : atomic_state) (me : nat) (caus : vv) (index : nat)
  : atomic_state :=
  let s2 := alc_g tr s1 caus index in
  at_set_stores s2
    (list_upd (at_stores s2) index
       (fun x => st_set_seen x (seen_touch (st_seen x) me (vv_get caus me))))
    (at_cnt s2).

Definition atomic_load_g (tr : rule) (s : atomic_state) (me : nat) (caus : vv) (index : nat)
           (o : ord) : (atomic_state * vv * N) + panic :=
  match track_load s caus with
  | inr p => inr p
  | inl s1 =>
      let s3 := loadpart_g tr s1 me caus index in
      let x := get_store s3 index in
      inl (s3, sync_load caus (st_sync x) o, st_value x)
  end.

Definition atomic_rmw_g (tr : rule) (s : atomic_state) (me : nat) (caus released : vv)
           (index : nat) (so fo : ord) (f : N -> option N)
  : (atomic_state * vv * N * bool) + panic :=
  match track_load s caus with
  | inr p => inr p
  | inl s1 =>
      let s3 := loadpart_g tr s1 me caus index in
      let prev := st_value (get_store s3 index) in
      match f prev with
      | Some next =>
          match track_store s3 caus with
          | inr p => inr p
          | inl s4 =>
              let sync := st_sync (get_store s4 index) in
              let caus' := sync_load caus sync so in
              let s5 := atomic_store_from s4 me caus' released sync next so
                          (Some (index, st_id (get_store s4 index))) in
              inl (s5, caus', prev, true)
          end
      | None =>
          inl (s3, sync_load caus (st_sync (get_store s3 index)) fo, prev, false)
      end
  end.

(* with tr = RModel these ARE the model's functions *)
Lemma atomic_load_g_model : forall s me caus index o,
  atomic_load_g RModel s me caus index o = atomic_load s me caus index o.
Proof. reflexivity. Qed.

Lemma atomic_rmw_g_model : forall s me caus released index so fo f,
  atomic_rmw_g RModel s me caus released index so fo f =
  atomic_rmw s me caus released index so fo f.
Proof. reflexivity. Qed.

(* ------------------------------------------------------------------ *)
(* 2. the machine                                                       *)

Inductive aop :=
  | XLoad (idx : nat) (o : ord)
  | XStore (v : N) (o : ord)
  | XRmw (idx : nat) (f : N -> option N) (so fo : ord)
  | XSync (u : nat).

Definition mstate := (atomic_state * list vv)%type.

Definition clk (cs : list vv) (t : nat) : vv := nth t cs vv_new.

Definition mstep (tr : rule) (st : mstate) (t : nat) (op : aop) : option mstate :=
  let '(s, cs) := st in
  if negb (Nat.ltb t (length cs)) then None else
  match op with
  | XSync u =>
      if Nat.ltb u (length cs)
      then Some (s, list_set cs t (vv_join (clk cs t) (clk cs u))) else None
  | XLoad idx o =>
      let c := vv_inc (clk cs t) t in
      match match_load_to_stores s t c None o with
      | Some l =>
          if existsb (Nat.eqb idx) l then
            match atomic_load_g tr s t c idx o with
            | inl (s', c', _) => Some (s', list_set cs t c')
            | inr _ => None
            end
          else None
      | None => None
      end
  | XStore v o =>
      if Nat.leb MAX_ATOMIC_HISTORY (at_cnt s) then None else
      let c := vv_inc (clk cs t) t in
      match track_store s c with
      | inl s1 => Some (atomic_store s1 t c vv_new vv_new v o, list_set cs t c)
      | inr _ => None
      end
  | XRmw idx f so fo =>
      if Nat.leb MAX_ATOMIC_HISTORY (at_cnt s) then None else
      let c := vv_inc (clk cs t) t in
      match match_rmw_to_stores s with
      | Some l =>
          if existsb (Nat.eqb idx) l then
            match atomic_rmw_g tr s t c vv_new idx so fo f with
            | inl (s', c', _, _) => Some (s', list_set cs t c')
            | inr _ => None
            end
          else None
      | None => None
      end
  end.

Fixpoint mrun (tr : rule) (st : mstate) (evs : list (nat * aop)) : option mstate :=
  match evs with
  | [] => Some st
  | (t, op) :: r => match mstep tr st t op with Some st' => mrun tr st' r | None => None end
  end.

(* thread 0 creates the cell; [n] threads, every clock equal to the creator's
   clock at creation (the other threads are spawned by thread 0) *)
Definition c_init : vv := vv_inc vv_new 0.
Definition minit (n : nat) (v0 : N) : option mstate :=
  match atomic_new 0 c_init vv_new v0 with
  | inl s => Some (s, repeat c_init n)
  | inr _ => None
  end.

Definition mrun0 (tr : rule) (n : nat) (evs : list (nat * aop)) : option mstate :=
  match minit n 0%N with Some st => mrun tr st evs | None => None end.

(* ---- observation helpers ---- *)
Definition mo_of (st : mstate) (i : nat) : vv := st_mo (get_store (fst st) i).
Definition mo_lt (st : mstate) (i j : nat) : bool := vv_lt (mo_of st i) (mo_of st j).
Definition lives (st : mstate) (a : nat) : Prop := a < at_cnt (fst st).
(* loom's own notion: thread t has seen store i (it read or wrote it, or an
   access of it happens-before t's current point) *)
Definition knows (st : mstate) (t i : nat) : Prop :=
  is_seen_by_current (st_seen (get_store (fst st) i)) (clk (snd st) t) = true.
Definition cands (tr : rule) (st : option mstate) (t : nat) (o : ord) : option (list nat) :=
  match st with
  | Some (s, cs) => match_load_to_stores s t (vv_inc (clk cs t) t) None o
  | None => None
  end.
Definition rcands (st : option mstate) : option (list nat) :=
  match st with Some (s, _) => match_rmw_to_stores s | None => None end.
Definition vals (st : option mstate) :=
  match st with
  | Some (s, cs) => map (fun x => (st_value x, st_mo x)) (firstn (at_cnt s) (at_stores s))
  | None => []
  end.

(* ---- brute-force sanity search ---- *)
Definition inc1 (x : N) : option N := Some (x + 1)%N.

Definition live_pairs (s : atomic_state) : list (nat * nat) :=
  flat_map (fun i => map (fun j => (i, j)) (seq 0 (at_cnt s))) (seq 0 (at_cnt s)).

(* post-state keeps every strict mo edge of the pre-state, and has no two
   live stores with equal clocks *)
Definition step_ok (st st' : mstate) : bool :=
  forallb (fun p => let '(i, j) := p in
             implb (mo_lt st i j) (mo_lt st' i j)) (live_pairs (fst st))
  && forallb (fun p => let '(i, j) := p in
             Nat.eqb i j || negb (vv_eqb (mo_of st' i) (mo_of st' j))) (live_pairs (fst st')).

Definition moves (n : nat) : list (nat * aop) :=
  flat_map (fun t => (t, XStore 1%N Relaxed)
                     :: map (fun k => (t, XLoad k Relaxed)) (seq 0 MAX_ATOMIC_HISTORY)
                     ++ map (fun k => (t, XRmw k inc1 Relaxed Relaxed)) (seq 0 MAX_ATOMIC_HISTORY))
           (seq 0 n).

Fixpoint first_some {A B} (f : A -> option B) (l : list A) : option B :=
  match l with [] => None | a :: r => match f a with Some b => Some b | None => first_some f r end end.

Fixpoint search (tr : rule) (n : nat) (fuel : nat) (st : mstate) (trace : list (nat * nat * nat))
  : option (list (nat * nat * nat)) :=
  match fuel with
  | 0 => None
  | S f =>
      first_some
        (fun m => let '(t, op) := m in
           let code := match op with XStore _ _ => (t, 0, 0) | XLoad k _ => (t, 1, k)
                                | XRmw k _ _ _ => (t, 2, k) | XSync u => (t, 3, u) end in
           match mstep tr st t op with
           | None => None
           | Some st' => if step_ok st st' then search tr n f st' (code :: trace)
                         else Some (rev (code :: trace))
           end)
        (moves n)
  end.

Definition search0 tr n pre fuel :=
  match mrun0 tr n pre with Some st => search tr n fuel st [] | None => Some [(99,99,99)] end.

Definition pre3 := [(1, XStore 10 Relaxed); (2, XStore 20 Relaxed); (2, XStore 30 Relaxed)].

(* ================================================================== *)
(* 3. generic lemmas                                                    *)

Lemma clk_set : forall cs t v u, t < length cs ->
  clk (list_set cs t v) u = if Nat.eqb u t then v else clk cs u.
Proof. intros cs t v u Ht. unfold clk. apply list_set_nth. exact Ht. Qed.

Lemma mapi_from_nth : forall (A B : Type) (f : nat -> A -> B) (l : list A) i k d d',
  k < length l -> nth k (mapi_from i f l) d' = f (i + k) (nth k l d).
Proof.
  intros A B f l. induction l as [|h r IH]; intros i k d d' Hk.
  - simpl in Hk. lia.
  - destruct k as [|k]; cbn [mapi_from nth].
    + rewrite Nat.add_0_r. reflexivity.
    + rewrite (IH (S i) k d d') by (simpl in Hk; lia). f_equal. lia.
Qed.

Lemma vv_lt_new_false : forall a, vv_lt a vv_new = false.
Proof.
  intros a. destruct (vv_lt a vv_new) eqn:H; [|reflexivity].
  apply vv_lt_spec in H. destruct H as [_ [i Hi]]. rewrite vv_new_get in Hi. lia.
Qed.

(* is_seen_by_current, both directions *)
Lemma seen_by_current_from_inv : forall seen k caus,
  seen_by_current_from k seen caus = true ->
  exists m v, nth_error seen m = Some (Some v) /\ v <= vv_get caus (k + m).
Proof.
  induction seen as [|s rest IH]; intros k caus H.
  - simpl in H. discriminate.
  - cbn [seen_by_current_from] in H. destruct s as [v|].
    + destruct (Nat.leb_spec v (vv_get caus k)) as [Hle|Hgt].
      * exists 0, v. split; [reflexivity|]. rewrite Nat.add_0_r. exact Hle.
      * destruct (IH _ _ H) as [m [w [Hn Hw]]]. exists (S m), w. split; [exact Hn|].
        replace (k + S m) with (S k + m) by lia. exact Hw.
    + destruct (IH _ _ H) as [m [w [Hn Hw]]]. exists (S m), w. split; [exact Hn|].
      replace (k + S m) with (S k + m) by lia. exact Hw.
Qed.

Lemma is_seen_by_current_spec : forall seen caus,
  is_seen_by_current seen caus = true <->
  exists m v, nth_error seen m = Some (Some v) /\ v <= vv_get caus m.
Proof.
  intros seen caus. split.
  - intros H. apply seen_by_current_from_inv in H. exact H.
  - intros [m [v [Hn Hv]]]. apply (is_seen_by_current_hit seen m caus Hn Hv).
Qed.

Lemma seen_touch_keeps : forall seen me w m v,
  nth_error seen m = Some (Some v) -> nth_error (seen_touch seen me w) m = Some (Some v).
Proof.
  intros seen me w m v H. unfold seen_touch.
  destruct (nth_error seen me) as [[x|]|] eqn:Hme; try exact H.
  destruct (Nat.eq_dec m me) as [Heq|Hne]; [subst m; rewrite H in Hme; discriminate|].
  revert me m H Hme Hne. induction seen as [|h r IH]; intros me m H Hme Hne.
  - destruct m; discriminate.
  - destruct me as [|me]; destruct m as [|m]; cbn [list_set nth_error] in *; try lia; try exact H.
    apply IH; try assumption. lia.
Qed.

Lemma seen_touch_mono : forall seen me w caus,
  is_seen_by_current seen caus = true ->
  is_seen_by_current (seen_touch seen me w) caus = true.
Proof.
  intros seen me w caus H. apply is_seen_by_current_spec in H.
  destruct H as [m [v [Hn Hv]]]. apply is_seen_by_current_spec.
  exists m, v. split; [apply seen_touch_keeps; exact Hn | exact Hv].
Qed.

Lemma seen_clock_mono : forall seen c c',
  vle c c' -> is_seen_by_current seen c = true -> is_seen_by_current seen c' = true.
Proof.
  intros seen c c' Hle H. apply is_seen_by_current_spec in H.
  destruct H as [m [v [Hn Hv]]]. apply is_seen_by_current_spec.
  exists m, v. split; [exact Hn|]. specialize (Hle m). lia.
Qed.

(* ---- "r is mo joined with some vectors satisfying P" ---- *)
Definition jn (P : vv -> Prop) (mo r : vv) : Prop :=
  vle mo r /\
  forall q, vv_get r q = vv_get mo q \/
            exists g, P g /\ vle g r /\ vv_get r q = vv_get g q.

Lemma jn_refl : forall P mo, jn P mo mo.
Proof. intros P mo. split; [apply vle_refl|]. intros q. left. reflexivity. Qed.

Lemma jn_step : forall (P : vv -> Prop) mo g, P g -> jn P mo (vv_join mo g).
Proof.
  intros P mo g Hg. split; [apply vle_join_l|]. intros q. rewrite vv_get_join.
  destruct (Nat.max_spec (vv_get mo q) (vv_get g q)) as [[_ Hm]|[_ Hm]].
  - right. exists g. split; [exact Hg|]. split; [apply vle_join_r | exact Hm].
  - left. exact Hm.
Qed.

Lemma jn_trans : forall P a b c, jn P a b -> jn P b c -> jn P a c.
Proof.
  intros P a b c [Hab Ha] [Hbc Hb]. split; [eapply vle_trans; eassumption|].
  intros q. destruct (Hb q) as [Heq|[g [Hg [Hle Hq]]]].
  - destruct (Ha q) as [Heq'|[g [Hg [Hle Hq]]]].
    + left. lia.
    + right. exists g. split; [exact Hg|]. split; [eapply vle_trans; eassumption | lia].
  - right. exists g. split; [exact Hg|]. split; assumption.
Qed.

Lemma jn_weaken : forall (P Q : vv -> Prop) a b, (forall g, P g -> Q g) -> jn P a b -> jn Q a b.
Proof.
  intros P Q a b HPQ [Hab Ha]. split; [exact Hab|]. intros q.
  destruct (Ha q) as [Heq|[g [Hg Hr]]]; [left; exact Heq|].
  right. exists g. split; [apply HPQ; exact Hg | exact Hr].
Qed.

Lemma jn_fold : forall (A : Type) (P : vv -> Prop) (f : vv -> A -> vv) (l : list A),
  (forall mo a, In a l -> jn P mo (f mo a)) ->
  forall mo, jn P mo (fold_left f l mo).
Proof.
  intros A P f l. induction l as [|a l IH]; intros Hf mo.
  - apply jn_refl.
  - cbn [fold_left]. eapply jn_trans; [apply Hf; left; reflexivity|].
    apply IH. intros mo' a' Ha'. apply Hf. right. exact Ha'.
Qed.

(* ================================================================== *)
(* 4. the invariant                                                     *)

Set Implicit Arguments.

Definition mo (s : atomic_state) (a : nat) : vv := st_mo (get_store s a).
(* the key of a store: the storing thread's own clock component at the store *)
Definition hbk (own : nat -> nat) (s : atomic_state) (a : nat) : nat :=
  vv_get (st_hb (get_store s a)) (own a).
(* [b]'s modification-order clock knows the key of [a] *)
Definition K (own : nat -> nat) (s : atomic_state) (a b : nat) : Prop :=
  hbk own s a <= vv_get (mo s b) (own a).

Record InvO (own : nat -> nat) (s : atomic_state) (cs : list vv) : Prop := mkInvO {
  i_len : length (at_stores s) = MAX_ATOMIC_HISTORY;
  i_cnt1 : 1 <= at_cnt s;
  i_cnt7 : at_cnt s <= MAX_ATOMIC_HISTORY;
  i_mut : at_mutating s = false;
  i_nthr : length cs <= MAX_THREADS;
  i_clen : forall t, t < length cs -> t < length (clk cs t);
  i_dead : forall a, at_cnt s <= a -> get_store s a = store_default;
  i_own : forall a, a < at_cnt s -> own a < length cs;
  (* the key is a real tick, except for a bottom store (created with the zero clock) *)
  i_key1 : forall a, a < at_cnt s -> 1 <= hbk own s a \/ (forall q, vv_get (mo s a) q = 0);
  i_seen : forall a, a < at_cnt s ->
     nth_error (st_seen (get_store s a)) (own a) = Some (Some (hbk own s a));
  i_hbmo : forall a, a < at_cnt s -> K own s a a;
  i_bmo : forall a t, a < at_cnt s -> t < length cs ->
     vv_get (mo s a) t <= vv_get (clk cs t) t;
  i_bsync : forall a t, a < at_cnt s -> t < length cs ->
     vv_get (st_sync (get_store s a)) t <= vv_get (clk cs t) t;
  i_bclk : forall u t, u < length cs -> t < length cs ->
     vv_get (clk cs u) t <= vv_get (clk cs t) t;
  (* a clock that knows the key of [a] dominates the whole clock of [a] *)
  i_star : forall a b, a < at_cnt s -> b < at_cnt s -> K own s a b -> vle (mo s a) (mo s b);
  (* ... and this order is antisymmetric on live stores *)
  i_D : forall a b, a < at_cnt s -> b < at_cnt s -> a <> b -> K own s a b -> K own s b a -> False
}.

Definition Inv (st : mstate) : Prop := exists own, InvO own (fst st) (snd st).

Section InvFacts.
  Variable own : nat -> nat.
  Variable s : atomic_state.
  Variable cs : list vv.
  Hypothesis HI : InvO own s cs.

  Lemma K_trans : forall a b c, a < at_cnt s -> b < at_cnt s -> c < at_cnt s ->
    K own s a b -> K own s b c -> K own s a c.
  Proof.
    intros a b c Ha Hb Hc Hab Hbc. pose proof (i_star HI Hb Hc Hbc (own a)) as Hle.
    unfold K in *. lia.
  Qed.

  Lemma K_of_vle : forall a b, a < at_cnt s -> vle (mo s a) (mo s b) -> K own s a b.
  Proof.
    intros a b Ha Hle. pose proof (i_hbmo HI Ha) as Hk. specialize (Hle (own a)).
    unfold K in *. lia.
  Qed.

  Lemma lt_iff_K : forall a b, a < at_cnt s -> b < at_cnt s ->
    (vv_lt (mo s a) (mo s b) = true <-> (a <> b /\ K own s a b)).
  Proof.
    intros a b Ha Hb. split.
    - intros Hlt. split.
      + intros Heq. subst b. rewrite vv_lt_irrefl in Hlt. discriminate.
      + apply K_of_vle; [exact Ha|]. apply vv_lt_spec in Hlt. apply Hlt.
    - intros [Hne Hk]. apply vv_lt_spec. split; [apply (i_star HI Ha Hb Hk)|].
      exists (own b). pose proof (i_hbmo HI Hb) as Hbb. unfold K in Hbb.
      destruct (Nat.lt_ge_cases (vv_get (mo s a) (own b)) (vv_get (mo s b) (own b))) as [Hl|Hg];
        [exact Hl|].
      exfalso. apply (i_D HI Ha Hb Hne Hk). unfold K. lia.
  Qed.

  Lemma lt_iff_K_ne : forall a b, a < at_cnt s -> b < at_cnt s -> b <> a ->
    (vv_lt (mo s a) (mo s b) = true <-> K own s a b).
  Proof.
    intros a b Ha Hb Hne. rewrite (lt_iff_K Ha Hb). split.
    - intros [_ H]. exact H.
    - intros H. split; [lia | exact H].
  Qed.

  (* distinct live stores never carry equal clocks: loom's assert_ne! holds *)
  Lemma live_mo_distinct : forall a b, a < at_cnt s -> b < at_cnt s -> a <> b ->
    vv_eqb (mo s a) (mo s b) = false.
  Proof.
    intros a b Ha Hb Hne. destruct (vv_eqb (mo s a) (mo s b)) eqn:He; [|reflexivity].
    exfalso. rewrite vv_eqb_spec in He.
    apply (i_D HI Ha Hb Hne).
    - apply K_of_vle; [exact Ha|]. intros q. rewrite (He q). lia.
    - apply K_of_vle; [exact Hb|]. intros q. rewrite (He q). lia.
  Qed.

  Lemma key_seen : forall a c, a < at_cnt s -> hbk own s a <= vv_get c (own a) ->
    is_seen_by_current (st_seen (get_store s a)) c = true.
  Proof.
    intros a c Ha Hle. apply (is_seen_by_current_hit _ (own a) c (i_seen HI Ha) Hle).
  Qed.

  Lemma get_store_cases : forall k, k < at_cnt s \/ get_store s k = store_default.
  Proof.
    intros k. destruct (Nat.lt_ge_cases k (at_cnt s)) as [H|H]; [left; exact H|].
    right. apply (i_dead HI). exact H.
  Qed.

  Lemma store_In_cases : forall x, In x (at_stores s) ->
    x = store_default \/ exists k, k < at_cnt s /\ x = get_store s k.
  Proof.
    intros x Hin. apply (In_nth _ _ store_default) in Hin. destruct Hin as [k [_ Hk]].
    fold (get_store s k) in Hk. subst x.
    destruct (get_store_cases k) as [Hl|Hd]; [right; exists k; split; [exact Hl | reflexivity] | left; exact Hd].
  Qed.
End InvFacts.

(* ================================================================== *)
(* 4b. raising the clocks above a store                                  *)

(* [s'] is [s] with [M] joined into the modification-order clock of every
   store that is mo-above [a] ([a] included); each component of [M] is zero,
   that of [a], or that of a store in [Q] that lies below [M]; no store of [Q]
   is mo-above [a].  Both the load phase of the c0421c4 rule (a := the loaded
   store, Q := the other stores the thread has seen) and raise_mo
   (M := mo s b, Q := {b}) are of this form. *)
Section RaiseAbove.
  Variable own : nat -> nat.
  Variables s s' : atomic_state.
  Variable cs : list vv.
  Variable a : nat.
  Variable M : vv.
  Variable Q : nat -> Prop.
  Hypothesis HI : InvO own s cs.
  Hypothesis Ha : a < at_cnt s.
  Hypothesis Fhb : forall k, k < at_cnt s -> st_hb (get_store s' k) = st_hb (get_store s k).
  Hypothesis Fmo_C : forall k, k < at_cnt s -> K own s a k ->
    forall q, vv_get (mo s' k) q = Nat.max (vv_get (mo s k) q) (vv_get M q).
  Hypothesis Fmo_notC : forall k, k < at_cnt s -> ~ K own s a k -> mo s' k = mo s k.
  Hypothesis HM : forall q,
    vv_get M q = 0 \/ vv_get M q = vv_get (mo s a) q \/
    exists z, z < at_cnt s /\ Q z /\ vle (mo s z) M /\ vv_get M q = vv_get (mo s z) q.

  Lemma ra_hbk : forall k, k < at_cnt s -> hbk own s' k = hbk own s k.
  Proof. intros k Hk. unfold hbk. rewrite (Fhb Hk). reflexivity. Qed.

  Lemma ra_C_dec : forall k, K own s a k \/ ~ K own s a k.
  Proof.
    intros k. unfold K.
    destruct (le_dec (hbk own s a) (vv_get (mo s k) (own a))); [left|right]; assumption.
  Qed.

  Lemma ra_grow : forall k, k < at_cnt s -> vle (mo s k) (mo s' k).
  Proof.
    intros k Hk. destruct (ra_C_dec k) as [HC|HC].
    - intros q. rewrite (Fmo_C Hk HC q). lia.
    - rewrite (Fmo_notC Hk HC). apply vle_refl.
  Qed.

  Lemma ra_K_old : forall x y, x < at_cnt s -> y < at_cnt s -> K own s x y -> K own s' x y.
  Proof.
    intros x y Hx Hy HK. unfold K. rewrite (ra_hbk Hx).
    pose proof (ra_grow Hy (own x)). unfold K in HK. lia.
  Qed.

  Lemma ra_K_new : forall x y z, x < at_cnt s -> y < at_cnt s ->
    K own s a y -> vle (mo s z) M -> K own s x z -> K own s' x y.
  Proof.
    intros x y z Hx Hy HC Hle HK. unfold K. rewrite (ra_hbk Hx), (Fmo_C Hy HC (own x)).
    specialize (Hle (own x)). unfold K in HK. lia.
  Qed.

  (* the new order: the old one plus  x <= some z in Q  ->  x <= everything above a *)
  Lemma ra_K' : forall x y, x < at_cnt s -> y < at_cnt s -> K own s' x y ->
    K own s x y \/
    (K own s a y /\ exists z, z < at_cnt s /\ Q z /\ vle (mo s z) M /\ K own s x z).
  Proof.
    intros x y Hx Hy HK. unfold K in HK. rewrite (ra_hbk Hx) in HK.
    destruct (ra_C_dec y) as [HC|HC]; [|rewrite (Fmo_notC Hy HC) in HK; left; exact HK].
    rewrite (Fmo_C Hy HC (own x)) in HK.
    destruct (le_dec (hbk own s x) (vv_get (mo s y) (own x))) as [H1|H1]; [left; exact H1|].
    destruct (HM (own x)) as [H0|[Hma|[z [Hz [HQ [Hle Hq]]]]]].
    - lia.
    - left. apply (K_trans HI Hx Ha Hy); [unfold K; lia | exact HC].
    - right. split; [exact HC|]. exists z. split; [exact Hz|]. split; [exact HQ|].
      split; [exact Hle | unfold K; lia].
  Qed.

  Hypothesis HQn : forall z, z < at_cnt s -> Q z -> ~ K own s a z.

  Lemma ra_C_noQ : forall x z, x < at_cnt s -> z < at_cnt s ->
    K own s a x -> Q z -> K own s x z -> False.
  Proof. intros x z Hx Hz HC HQ HK. apply (HQn Hz HQ). apply (K_trans HI Ha Hx Hz HC HK). Qed.

  Lemma ra_vle : forall x y, x < at_cnt s -> y < at_cnt s ->
    K own s' x y -> vle (mo s' x) (mo s' y).
  Proof.
    intros x y Hx Hy HK. destruct (ra_K' Hx Hy HK) as [HKo|[HCy [z [Hz [HQ [HzM Hxz]]]]]].
    - pose proof (i_star HI Hx Hy HKo) as Hle.
      destruct (ra_C_dec x) as [HCx|HCx].
      + pose proof (K_trans HI Ha Hx Hy HCx HKo) as HCy. intros q.
        rewrite (Fmo_C Hx HCx q), (Fmo_C Hy HCy q). specialize (Hle q). lia.
      + rewrite (Fmo_notC Hx HCx). eapply vle_trans; [exact Hle | apply (ra_grow Hy)].
    - destruct (ra_C_dec x) as [HCx|HCx]; [exfalso; apply (ra_C_noQ Hx Hz HCx HQ Hxz)|].
      rewrite (Fmo_notC Hx HCx). pose proof (i_star HI Hx Hz Hxz) as Hle. intros q.
      rewrite (Fmo_C Hy HCy q). specialize (Hle q). specialize (HzM q). lia.
  Qed.

  Hypothesis Fcnt : at_cnt s' = at_cnt s.
  Hypothesis Fmut : at_mutating s' = at_mutating s.
  Hypothesis Flen : length (at_stores s') = length (at_stores s).
  Hypothesis Fdead : forall k, at_cnt s <= k -> get_store s' k = store_default.
  Hypothesis Fsync : forall k, k < at_cnt s -> st_sync (get_store s' k) = st_sync (get_store s k).
  Hypothesis Fseen : forall k, k < at_cnt s ->
    nth_error (st_seen (get_store s' k)) (own k) = Some (Some (hbk own s k)).

  Lemma ra_inv : InvO own s' cs.
  Proof.
    constructor.
    - rewrite Flen. apply (i_len HI).
    - rewrite Fcnt. apply (i_cnt1 HI).
    - rewrite Fcnt. apply (i_cnt7 HI).
    - rewrite Fmut. apply (i_mut HI).
    - apply (i_nthr HI).
    - apply (i_clen HI).
    - intros k Hk. rewrite Fcnt in Hk. apply (Fdead Hk).
    - intros k Hk. rewrite Fcnt in Hk. apply (i_own HI Hk).
    - intros k Hk. rewrite Fcnt in Hk. rewrite (ra_hbk Hk).
      destruct (i_key1 HI Hk) as [Hk1|Hz]; [left; exact Hk1|]. right.
      destruct (ra_C_dec k) as [HC|HC]; [|rewrite (Fmo_notC Hk HC); exact Hz].
      (* a bottom store above a: then a is a bottom store with key 0, and M is zero *)
      pose proof (i_star HI Ha Hk HC) as Hak.
      assert (Hka : hbk own s a <= 0) by (rewrite <- (Hz (own a)); exact HC).
      intros q. rewrite (Fmo_C Hk HC q), (Hz q). specialize (Hak q). rewrite (Hz q) in Hak.
      destruct (HM q) as [H0|[Hma|[z [Hz' [HQ _]]]]]; [lia | lia |].
      exfalso. apply (HQn Hz' HQ). unfold K. lia.
    - intros k Hk. rewrite Fcnt in Hk. rewrite (ra_hbk Hk). apply (Fseen Hk).
    - intros k Hk. rewrite Fcnt in Hk. apply (ra_K_old Hk Hk (i_hbmo HI Hk)).
    - intros k u Hk Hu. rewrite Fcnt in Hk. pose proof (i_bmo HI Hk Hu) as Hb.
      destruct (ra_C_dec k) as [HC|HC]; [|rewrite (Fmo_notC Hk HC); exact Hb].
      rewrite (Fmo_C Hk HC u).
      destruct (HM u) as [H0|[Hma|[z [Hz [_ [_ Hq]]]]]].
      + lia.
      + pose proof (i_bmo HI Ha Hu). lia.
      + pose proof (i_bmo HI Hz Hu). lia.
    - intros k u Hk Hu. rewrite Fcnt in Hk. rewrite (Fsync Hk). apply (i_bsync HI Hk Hu).
    - apply (i_bclk HI).
    - intros x y Hx Hy. rewrite Fcnt in Hx, Hy. apply (ra_vle Hx Hy).
    - intros x y Hx Hy Hne Hxy Hyx. rewrite Fcnt in Hx, Hy.
      destruct (ra_K' Hx Hy Hxy) as [Hxy'|[HCy [z [Hz [HQz [_ Hxz]]]]]];
      destruct (ra_K' Hy Hx Hyx) as [Hyx'|[HCx [w [Hw [HQw [_ Hyw]]]]]].
      + apply (i_D HI Hx Hy Hne Hxy' Hyx').
      + apply (ra_C_noQ Hy Hw (K_trans HI Ha Hx Hy HCx Hxy') HQw Hyw).
      + apply (ra_C_noQ Hx Hz (K_trans HI Ha Hy Hx HCy Hyx') HQz Hxz).
      + apply (ra_C_noQ Hx Hz HCx HQz Hxz).
  Qed.
End RaiseAbove.

(* ================================================================== *)
(* 5. the load phase of the c0421c4 rule                                 *)

Lemma alc_eq : forall s c idx,
  alc_c0421c4 s c idx =
  at_set_stores s
    (if vv_eqb (alc_mo s c idx) (st_mo (get_store s idx))
     then list_upd (at_stores s) idx (fun x => st_set_mo x (alc_mo s c idx))
     else mapi (fun i x => if negb (Nat.eqb idx i) && vv_lt (st_mo (get_store s idx)) (st_mo x)
                           then st_set_mo x (vv_join (st_mo x) (alc_mo s c idx)) else x)
               (list_upd (at_stores s) idx (fun x => st_set_mo x (alc_mo s c idx))))
    (at_cnt s).
Proof. reflexivity. Qed.

Lemma loadpart_tr_get : forall s t c idx k,
  length (at_stores s) = MAX_ATOMIC_HISTORY -> idx < MAX_ATOMIC_HISTORY -> k < MAX_ATOMIC_HISTORY ->
  get_store (loadpart_g RC0421 s t c idx) k =
    if Nat.eqb k idx
    then st_set_seen (st_set_mo (get_store s idx) (alc_mo s c idx))
                     (seen_touch (st_seen (get_store s idx)) t (vv_get c t))
    else if vv_eqb (alc_mo s c idx) (mo s idx) then get_store s k
    else if vv_lt (mo s idx) (mo s k)
         then st_set_mo (get_store s k) (vv_join (mo s k) (alc_mo s c idx))
         else get_store s k.
Proof.
  intros s t c idx k Hlen Hidx Hk.
  unfold loadpart_g, alc_g. rewrite alc_eq. cbv zeta. unfold mo.
  set (M := alc_mo s c idx). set (B := st_mo (get_store s idx)).
  set (st2 := list_upd (at_stores s) idx (fun x => st_set_mo x M)).
  assert (Hl2 : length st2 = MAX_ATOMIC_HISTORY) by (unfold st2; rewrite list_upd_length; exact Hlen).
  assert (Hg2 : forall j, nth j st2 store_default =
                  if Nat.eqb j idx then st_set_mo (get_store s idx) M else get_store s j).
  { intros j. unfold st2. rewrite (@list_upd_nth astore (at_stores s) idx _ j store_default)
      by (rewrite Hlen; exact Hidx). reflexivity. }
  unfold get_store at 1. cbn [at_stores at_set_stores at_cnt].
  destruct (vv_eqb M B) eqn:He.
  - rewrite (@list_upd_nth astore st2 idx _ k store_default) by (rewrite Hl2; exact Hidx).
    rewrite !Hg2. rewrite Nat.eqb_refl. destruct (Nat.eqb k idx); reflexivity.
  - match goal with |- context [mapi ?g st2] => set (G := g) end.
    assert (Hl3 : length (mapi G st2) = MAX_ATOMIC_HISTORY).
    { unfold mapi. rewrite mapi_from_length. exact Hl2. }
    rewrite (@list_upd_nth astore (mapi G st2) idx _ k store_default) by (rewrite Hl3; exact Hidx).
    assert (Hm : forall j, j < MAX_ATOMIC_HISTORY ->
               nth j (mapi G st2) store_default = G j (nth j st2 store_default)).
    { intros j Hj. unfold mapi.
      rewrite (@mapi_from_nth astore astore G st2 0 j store_default store_default)
        by (rewrite Hl2; exact Hj). reflexivity. }
    rewrite (Hm idx Hidx), (Hm k Hk), !Hg2, Nat.eqb_refl.
    destruct (Nat.eqb_spec k idx) as [Heq|Hne].
    + subst k. unfold G. rewrite Nat.eqb_refl. cbn [negb andb]. reflexivity.
    + unfold G. destruct (Nat.eqb_spec idx k) as [Heq|_]; [lia|]. cbn [negb andb]. reflexivity.
Qed.

Lemma loadpart_tr_frame : forall s t c idx,
  let s' := loadpart_g RC0421 s t c idx in
  at_cnt s' = at_cnt s /\ at_mutating s' = at_mutating s /\
  at_unsync_mut s' = at_unsync_mut s /\ at_unsync_loaded s' = at_unsync_loaded s /\
  length (at_stores s') = length (at_stores s).
Proof.
  intros s t c idx. cbv zeta. repeat split.
  unfold loadpart_g, alc_g. rewrite alc_eq. cbv zeta. cbn [at_stores at_set_stores].
  rewrite list_upd_length.
  destruct (vv_eqb (alc_mo s c idx) (st_mo (get_store s idx)));
    [|unfold mapi; rewrite mapi_from_length]; apply list_upd_length.
Qed.

(* the vectors joined into the loaded store: clocks of OTHER stores the
   loading thread has seen (or the zero clock of an empty slot) *)
Definition PS (s : atomic_state) (c : vv) (idx : nat) (g : vv) : Prop :=
  g = vv_new \/
  exists x, x < at_cnt s /\ x <> idx /\ g = mo s x /\
            (is_seen_by_current (st_seen (get_store s x)) c = true \/
             vv_lt (st_hb (get_store s x)) c = true).

Lemma alc_mo_jn : forall own s cs c idx,
  InvO own s cs -> jn (PS s c idx) (mo s idx) (alc_mo s c idx).
Proof.
  intros own s cs c idx HI. unfold alc_mo. apply jn_fold.
  intros m [i x] Hin. apply (@index_list_In astore _ i x store_default) in Hin.
  destruct Hin as [Hi Hx].
  destruct (Nat.eqb_spec idx i) as [Heq|Hne]; [apply jn_refl|].
  assert (HP : is_seen_by_current (st_seen x) c = true \/ vv_lt (st_hb x) c = true ->
               PS s c idx (st_mo x)).
  { intros Hcond. destruct (get_store_cases HI i) as [Hlive|Hdead].
    - right. exists i. split; [exact Hlive|]. split; [lia|]. split.
      + unfold mo, get_store. rewrite Hx. reflexivity.
      + unfold get_store. rewrite <- Hx. exact Hcond.
    - left. unfold get_store in Hdead. rewrite Hx, Hdead. reflexivity. }
  destruct (is_seen_by_current (st_seen x) c) eqn:Hs; destruct (vv_lt (st_hb x) c) eqn:Hh.
  - eapply jn_trans; apply jn_step; apply HP; left; reflexivity.
  - apply jn_step. apply HP. left. reflexivity.
  - apply jn_step. apply HP. right. reflexivity.
  - apply jn_refl.
Qed.

Section LoadPhase.
  Variable own : nat -> nat.
  Variable s : atomic_state.
  Variable cs : list vv.
  Variables (t : nat) (c : vv) (idx : nat).
  Hypothesis HI : InvO own s cs.
  Hypothesis Hidx : idx < at_cnt s.
  (* the candidate condition of the load (match_load_to_stores / match_rmw_to_stores) *)
  Hypothesis Hcand : forall x, x < at_cnt s -> x <> idx ->
    is_seen_by_current (st_seen (get_store s x)) c = true ->
    vv_lt (mo s idx) (mo s x) = false.

  Let s' := loadpart_g RC0421 s t c idx.
  Let M := alc_mo s c idx.

  Lemma lp_live7 : forall k, k < at_cnt s -> k < MAX_ATOMIC_HISTORY.
  Proof. intros k Hk. pose proof (i_cnt7 HI). lia. Qed.

  Lemma lp_get : forall k, k < MAX_ATOMIC_HISTORY ->
    get_store s' k =
      if Nat.eqb k idx
      then st_set_seen (st_set_mo (get_store s idx) M)
                       (seen_touch (st_seen (get_store s idx)) t (vv_get c t))
      else if vv_eqb M (mo s idx) then get_store s k
      else if vv_lt (mo s idx) (mo s k)
           then st_set_mo (get_store s k) (vv_join (mo s k) M)
           else get_store s k.
  Proof.
    intros k Hk. apply loadpart_tr_get; [apply (i_len HI) | apply lp_live7; exact Hidx | exact Hk].
  Qed.

  Lemma lp_mo : forall k, k < MAX_ATOMIC_HISTORY ->
    mo s' k = if Nat.eqb k idx then M
              else if vv_eqb M (mo s idx) then mo s k
              else if vv_lt (mo s idx) (mo s k) then vv_join (mo s k) M else mo s k.
  Proof.
    intros k Hk. unfold mo at 1. rewrite (lp_get Hk).
    destruct (Nat.eqb k idx); [reflexivity|].
    destruct (vv_eqb M (mo s idx)); [reflexivity|].
    destruct (vv_lt (mo s idx) (mo s k)); reflexivity.
  Qed.

  Lemma lp_hb : forall k, k < MAX_ATOMIC_HISTORY ->
    st_hb (get_store s' k) = st_hb (get_store s k).
  Proof.
    intros k Hk. rewrite (lp_get Hk).
    destruct (Nat.eqb_spec k idx) as [Heq|_]; [subst k; reflexivity|].
    destruct (vv_eqb M (mo s idx)); [reflexivity|].
    destruct (vv_lt (mo s idx) (mo s k)); reflexivity.
  Qed.

  Lemma lp_sync : forall k, k < MAX_ATOMIC_HISTORY ->
    st_sync (get_store s' k) = st_sync (get_store s k).
  Proof.
    intros k Hk. rewrite (lp_get Hk).
    destruct (Nat.eqb_spec k idx) as [Heq|_]; [subst k; reflexivity|].
    destruct (vv_eqb M (mo s idx)); [reflexivity|].
    destruct (vv_lt (mo s idx) (mo s k)); reflexivity.
  Qed.

  Lemma lp_id_src : forall k, k < MAX_ATOMIC_HISTORY ->
    st_id (get_store s' k) = st_id (get_store s k) /\
    st_rmw_src (get_store s' k) = st_rmw_src (get_store s k).
  Proof.
    intros k Hk. rewrite (lp_get Hk).
    destruct (Nat.eqb_spec k idx) as [Heq|_]; [subst k; split; reflexivity|].
    destruct (vv_eqb M (mo s idx)); [split; reflexivity|].
    destruct (vv_lt (mo s idx) (mo s k)); split; reflexivity.
  Qed.

  Lemma lp_seen : forall k, k < MAX_ATOMIC_HISTORY ->
    st_seen (get_store s' k) =
    if Nat.eqb k idx then seen_touch (st_seen (get_store s idx)) t (vv_get c t)
    else st_seen (get_store s k).
  Proof.
    intros k Hk. rewrite (lp_get Hk).
    destruct (Nat.eqb_spec k idx) as [Heq|_]; [reflexivity|].
    destruct (vv_eqb M (mo s idx)); [reflexivity|].
    destruct (vv_lt (mo s idx) (mo s k)); reflexivity.
  Qed.

  Lemma lp_hbk : forall k, k < MAX_ATOMIC_HISTORY -> hbk own s' k = hbk own s k.
  Proof. intros k Hk. unfold hbk. rewrite (lp_hb Hk). reflexivity. Qed.

  Lemma lp_jn : jn (PS s c idx) (mo s idx) M.
  Proof. apply (alc_mo_jn c idx HI). Qed.

  Lemma lp_grow : forall k, k < MAX_ATOMIC_HISTORY -> vle (mo s k) (mo s' k).
  Proof.
    intros k Hk. rewrite (lp_mo Hk). destruct (Nat.eqb_spec k idx) as [Heq|_].
    - subst k. apply lp_jn.
    - destruct (vv_eqb M (mo s idx)); [apply vle_refl|].
      destruct (vv_lt (mo s idx) (mo s k)); [apply vle_join_l | apply vle_refl].
  Qed.

  Lemma lp_mo_C : forall k, k < at_cnt s -> K own s idx k ->
    forall q, vv_get (mo s' k) q = Nat.max (vv_get (mo s k) q) (vv_get M q).
  Proof.
    intros k Hk HC q. pose proof (i_star HI Hidx Hk HC q) as Hik.
    destruct lp_jn as [HleM _]. specialize (HleM q).
    rewrite (lp_mo (lp_live7 Hk)). destruct (Nat.eqb_spec k idx) as [Heq|Hne]; [subst k; lia|].
    destruct (vv_eqb M (mo s idx)) eqn:He.
    - rewrite vv_eqb_spec in He. rewrite (He q). lia.
    - rewrite (proj2 (lt_iff_K_ne HI Hidx Hk Hne) HC). apply vv_get_join.
  Qed.

  Lemma lp_mo_notC : forall k, k < at_cnt s -> ~ K own s idx k -> mo s' k = mo s k.
  Proof.
    intros k Hk HC. rewrite (lp_mo (lp_live7 Hk)). destruct (Nat.eqb_spec k idx) as [Heq|Hne].
    - exfalso. apply HC. subst k. apply (i_hbmo HI Hidx).
    - destruct (vv_eqb M (mo s idx)); [reflexivity|].
      destruct (vv_lt (mo s idx) (mo s k)) eqn:Hlt; [|reflexivity].
      exfalso. apply HC. apply (lt_iff_K_ne HI Hidx Hk Hne). exact Hlt.
  Qed.

  Lemma lp_dead : forall k, at_cnt s <= k -> get_store s' k = store_default.
  Proof.
    intros k Hk. destruct (Nat.lt_ge_cases k MAX_ATOMIC_HISTORY) as [H7|H7].
    - rewrite (lp_get H7). destruct (Nat.eqb_spec k idx) as [Heq|_]; [lia|].
      destruct (vv_eqb M (mo s idx)); [apply (i_dead HI Hk)|].
      unfold mo at 2. rewrite (i_dead HI Hk). cbn [st_mo store_default].
      rewrite vv_lt_new_false. reflexivity.
    - destruct (loadpart_tr_frame s t c idx) as [_ [_ [_ [_ Fl]]]].
      unfold get_store. apply nth_overflow. fold s' in Fl. rewrite Fl, (i_len HI). exact H7.
  Qed.

  Lemma lp_seen_key : forall k, k < at_cnt s ->
    nth_error (st_seen (get_store s' k)) (own k) = Some (Some (hbk own s k)).
  Proof.
    intros k Hk. rewrite (lp_seen (lp_live7 Hk)). destruct (Nat.eqb_spec k idx) as [Heq|_].
    - subst k. apply seen_touch_keeps. apply (i_seen HI Hidx).
    - apply (i_seen HI Hk).
  Qed.

  (* a joined vector is the zero clock or the clock of a seen live store *)
  Lemma lp_PS : forall g, PS s c idx g ->
    g = vv_new \/
    exists x, x < at_cnt s /\ x <> idx /\ g = mo s x /\
              is_seen_by_current (st_seen (get_store s x)) c = true.
  Proof.
    intros g [H0|[x [Hx [Hne [Hg Hcond]]]]]; [left; exact H0|].
    right. exists x. split; [exact Hx|]. split; [exact Hne|]. split; [exact Hg|].
    destruct Hcond as [Hs|Hh]; [exact Hs|].
    apply (key_seen HI c Hx). apply vv_lt_spec in Hh. destruct Hh as [Hle _].
    apply (Hle (own x)).
  Qed.

  Lemma lp_seen_notK : forall x, x < at_cnt s -> x <> idx ->
    is_seen_by_current (st_seen (get_store s x)) c = true -> ~ K own s idx x.
  Proof.
    intros x Hx Hne Hs HK.
    assert (Hlt : vv_lt (mo s idx) (mo s x) = true).
    { apply (lt_iff_K HI Hidx Hx). split; [lia | exact HK]. }
    rewrite (Hcand Hx Hne Hs) in Hlt. discriminate.
  Qed.

  Let Q (z : nat) : Prop :=
    z <> idx /\ is_seen_by_current (st_seen (get_store s z)) c = true.

  Lemma lp_M : forall q,
    vv_get M q = 0 \/ vv_get M q = vv_get (mo s idx) q \/
    exists z, z < at_cnt s /\ Q z /\ vle (mo s z) M /\ vv_get M q = vv_get (mo s z) q.
  Proof.
    intros q. destruct lp_jn as [_ Hq]. destruct (Hq q) as [Heq|[g [Hg [Hle Heq]]]].
    - right. left. exact Heq.
    - destruct (lp_PS Hg) as [H0|[x [Hx [Hne [Hgx Hs]]]]]; subst g.
      + left. rewrite Heq. apply vv_new_get.
      + right. right. exists x. split; [exact Hx|]. split; [split; [exact Hne | exact Hs]|].
        split; [exact Hle | exact Heq].
  Qed.

  (* where the knowledge of a key in a new clock comes from *)
  Lemma lp_K' : forall a b, a < at_cnt s -> b < at_cnt s -> K own s' a b ->
    K own s a b \/
    (K own s idx b /\ exists x, x < at_cnt s /\ Q x /\ vle (mo s x) M /\ K own s a x).
  Proof.
    apply (ra_K' Q HI Hidx (fun k Hk => lp_hb (lp_live7 Hk)) lp_mo_C lp_mo_notC lp_M).
  Qed.

  Lemma load_phase_inv : InvO own s' cs.
  Proof.
    destruct (loadpart_tr_frame s t c idx) as [Fc [Fm [_ [_ Fl]]]].
    apply (@ra_inv own s s' cs idx M Q HI Hidx (fun k Hk => lp_hb (lp_live7 Hk)) lp_mo_C lp_mo_notC lp_M).
    - intros z Hz [Hne Hs]. apply (lp_seen_notK Hz Hne Hs).
    - exact Fc.
    - exact Fm.
    - exact Fl.
    - exact lp_dead.
    - intros k Hk. apply (lp_sync (lp_live7 Hk)).
    - exact lp_seen_key.
  Qed.
End LoadPhase.

(* ================================================================== *)
(* 6. clocks, frames                                                    *)

Lemma InvO_frame : forall own s s' cs,
  InvO own s cs ->
  at_mutating s' = at_mutating s -> at_unsync_mut s' = at_unsync_mut s ->
  at_unsync_loaded s' = at_unsync_loaded s ->
  at_stores s' = at_stores s -> at_cnt s' = at_cnt s ->
  InvO own s' cs.
Proof.
  intros own s s' cs HI Hm Hum Hul Hst Hc.
  destruct s as [lo ul sd um mu ll ln st cn].
  destruct s' as [lo' ul' sd' um' mu' ll' ln' st' cn'].
  simpl in Hm, Hum, Hul, Hst, Hc. subst mu' um' ul' st' cn'.
  destruct HI. constructor; assumption.
Qed.

(* thread t's clock grows without learning more about another thread u than
   u knows about itself *)
Lemma InvO_clock : forall own s cs t v,
  InvO own s cs -> t < length cs -> vle (clk cs t) v -> t < length v ->
  (forall u, u < length cs -> u <> t -> vv_get v u <= vv_get (clk cs u) u) ->
  InvO own s (list_set cs t v).
Proof.
  intros own s cs t v HI Ht Hle Hlen Hb.
  assert (Hc : forall u, clk (list_set cs t v) u = if Nat.eqb u t then v else clk cs u).
  { intros u. apply clk_set. exact Ht. }
  assert (Hown : forall u, u < length cs ->
            vv_get (clk cs u) u <= vv_get (clk (list_set cs t v) u) u).
  { intros u Hu. rewrite Hc. destruct (Nat.eqb_spec u t) as [Heq|_]; [subst u; apply Hle | lia]. }
  assert (Hgrow : forall u, vle (clk cs u) (clk (list_set cs t v) u)).
  { intros u. rewrite Hc. destruct (Nat.eqb_spec u t) as [Heq|_]; [subst u; exact Hle | apply vle_refl]. }
  destruct HI. constructor; try assumption; rewrite ?list_set_length.
  - exact i_nthr0.
  - intros u Hu. rewrite Hc. destruct (Nat.eqb_spec u t) as [Heq|_]; [subst u; exact Hlen | apply i_clen0; exact Hu].
  - exact i_own0.
  - intros a u Ha Hu. pose proof (i_bmo0 a u Ha Hu). pose proof (Hown u Hu). lia.
  - intros a u Ha Hu. pose proof (i_bsync0 a u Ha Hu). pose proof (Hown u Hu). lia.
  - intros u w Hu Hw. pose proof (Hown w Hw) as Hw'.
    rewrite (Hc u). destruct (Nat.eqb_spec u t) as [Heq|Hne].
    + subst u. destruct (Nat.eq_dec w t) as [Heq|Hne]; [subst w; rewrite Hc, Nat.eqb_refl; lia|].
      pose proof (Hb w Hw Hne). lia.
    + pose proof (i_bclk0 u w Hu Hw). lia.
Qed.

Lemma track_load_inl : forall s c s1, track_load s c = inl s1 -> s1 = tl_state s c.
Proof.
  intros s c s1 H. unfold track_load in H. destruct (at_mutating s) eqn:Hm; [discriminate|].
  destruct (vv_ahead c (at_unsync_mut s)); [discriminate|]. inversion H.
  unfold tl_state. rewrite Hm. reflexivity.
Qed.

Lemma track_store_inl : forall s c s1, track_store s c = inl s1 -> s1 = ts_state s c.
Proof.
  intros s c s1 H. unfold track_store in H. destruct (at_mutating s) eqn:Hm; [discriminate|].
  destruct (vv_ahead c (at_unsync_mut s)); [discriminate|].
  destruct (vv_ahead c (at_unsync_loaded s)); [discriminate|]. inversion H.
  unfold ts_state. rewrite Hm. reflexivity.
Qed.

Lemma InvO_tl : forall own s cs c, InvO own s cs -> InvO own (tl_state s c) cs.
Proof. intros own s cs c HI. apply (@InvO_frame own s (tl_state s c) cs HI); reflexivity. Qed.
Lemma InvO_ts : forall own s cs c, InvO own s cs -> InvO own (ts_state s c) cs.
Proof. intros own s cs c HI. apply (@InvO_frame own s (ts_state s c) cs HI); reflexivity. Qed.

(* ================================================================== *)
(* 7. the store phase (State::store_from)                               *)

Definition PT (stores : list astore) (g : vv) : Prop := exists x, In x stores /\ g = st_mo x.

Lemma store_mo_jn : forall s c, jn (PT (at_stores s)) c (store_mo s c).
Proof.
  intros s c. unfold store_mo. apply jn_fold. intros m a Ha.
  destruct (is_seen_by_current (st_seen a) c); [|apply jn_refl].
  apply jn_step. exists a. split; [exact Ha | reflexivity].
Qed.

Lemma rmw_atomicity_jn : forall fuel stores src m,
  jn (PT stores) m (rmw_atomicity fuel stores src m).
Proof.
  intros fuel stores src. apply (rmw_atomicity_ind stores src (jn (PT stores)) (@jn_refl _) (@jn_trans _)).
  intros x w m Hx _ _. apply jn_step. exists x. split; [exact Hx | reflexivity].
Qed.

Lemma store_from_mo_jn : forall s c src, jn (PT (at_stores s)) c (store_from_mo s c src).
Proof.
  intros s c src. unfold store_from_mo.
  eapply jn_trans; [apply store_mo_jn | apply rmw_atomicity_jn].
Qed.

Lemma aindex_small : forall n, n < MAX_ATOMIC_HISTORY -> aindex n = n.
Proof. intros n Hn. unfold aindex. apply Nat.mod_small. exact Hn. Qed.

Lemma sync_store_bound : forall sync0 c rel o u b,
  vv_get sync0 u <= b -> vv_get c u <= b -> vv_get rel u <= b ->
  vv_get (sync_store sync0 c rel o) u <= b.
Proof.
  intros sync0 c rel o u b H0 Hc Hr. unfold sync_store.
  destruct (ord_rel o); rewrite ?vv_get_join; lia.
Qed.

Section StorePhase.
  Variable own : nat -> nat.
  Variable s : atomic_state.
  Variable cs : list vv.
  Variables (t : nat) (c sync0 : vv) (v : N) (o : ord) (src : option (nat * nat)).
  (* the clock of the thread's last release fence: Ops.v passes t_rel *)
  Variable rel : vv.
  Hypothesis HI : InvO own s cs.
  Hypothesis Ht : t < length cs.
  Hypothesis Hroom : at_cnt s < MAX_ATOMIC_HISTORY.
  Hypothesis Hle : vle (clk cs t) c.
  Hypothesis Hfr : vv_get (clk cs t) t < vv_get c t.
  Hypothesis Hlen : t < length c.
  Hypothesis Hoth : forall u, u < length cs -> u <> t -> vv_get c u <= vv_get (clk cs u) u.
  Hypothesis Hsync0 : forall u, u < length cs ->
    vv_get sync0 u <= vv_get (clk (list_set cs t c) u) u.
  Hypothesis Hrel : vle rel c.

  Let n := at_cnt s.
  Let cs' := list_set cs t c.
  Let s' := atomic_store_from s t c rel sync0 v o src.
  Let own' := fun k => if Nat.eqb k n then t else own k.
  Let MN := store_from_mo s c src.
  Let newst := mkStore v c MN (sync_store sync0 c rel o)
                       (seen_touch seen_new t (vv_get c t)) (is_seq_cst o) n src.

  Lemma sp_HI2 : InvO own s cs'.
  Proof. apply (InvO_clock HI Ht Hle Hlen Hoth). Qed.

  Lemma sp_clk_t : clk cs' t = c.
  Proof. unfold cs'. rewrite (clk_set cs t c t Ht). rewrite Nat.eqb_refl. reflexivity. Qed.

  Lemma sp_get : forall k, get_store s' k = if Nat.eqb k n then newst else get_store s k.
  Proof.
    intros k. unfold s', atomic_store_from. cbv zeta.
    rewrite (aindex_small Hroom).
    apply (get_store_set s newst (S (at_cnt s)) k). rewrite (i_len HI). exact Hroom.
  Qed.

  Lemma sp_old : forall k, k < n -> get_store s' k = get_store s k.
  Proof. intros k Hk. rewrite sp_get. destruct (Nat.eqb_spec k n); [lia | reflexivity]. Qed.

  Lemma sp_cnt : at_cnt s' = S n.
  Proof. reflexivity. Qed.

  Lemma sp_fresh : forall a, a < n -> vv_get (mo s a) t < vv_get c t.
  Proof. intros a Ha. pose proof (i_bmo HI Ha Ht). lia. Qed.

  Lemma sp_PT : forall g, PT (at_stores s) g -> g = vv_new \/ exists x, x < n /\ g = mo s x.
  Proof.
    intros g [x [Hin Hg]]. destruct (store_In_cases HI x Hin) as [Hd|[k [Hl Hk]]]; subst x.
    - left. exact Hg.
    - right. exists k. split; [exact Hl | exact Hg].
  Qed.

  Lemma sp_seen_le : forall a, a < n ->
    is_seen_by_current (st_seen (get_store s a)) c = true -> vle (mo s a) MN.
  Proof.
    intros a Ha Hs. apply store_from_mo_ge_seen; [|exact Hs].
    unfold get_store. apply nth_In. rewrite (i_len HI). unfold n in Ha. lia.
  Qed.

  Lemma sp_KN : forall a, a < n -> hbk own s a <= vv_get MN (own a) -> vle (mo s a) MN.
  Proof.
    intros a Ha Hk. destruct (store_from_mo_jn s c src) as [_ Hq]. fold MN in Hq.
    destruct (Hq (own a)) as [Heq|[g [Hg [HgN Heq]]]].
    - apply (sp_seen_le Ha). apply (key_seen HI c Ha). lia.
    - destruct (sp_PT Hg) as [H0|[x [Hx Hgx]]].
      + subst g. rewrite vv_new_get in Heq. destruct (i_key1 HI Ha) as [Hk1|Hz]; [lia|].
        intros q. rewrite (Hz q). lia.
      + subst g. eapply vle_trans; [|exact HgN]. apply (i_star HI Ha Hx). unfold K. lia.
  Qed.

  Lemma sp_hbk_old : forall a, a < n -> hbk own' s' a = hbk own s a.
  Proof.
    intros a Ha. unfold hbk, own'. rewrite (sp_old Ha).
    destruct (Nat.eqb_spec a n); [lia | reflexivity].
  Qed.
  Lemma sp_own_old : forall a, a < n -> own' a = own a.
  Proof. intros a Ha. unfold own'. destruct (Nat.eqb_spec a n); [lia | reflexivity]. Qed.
  Lemma sp_mo_old : forall a, a < n -> mo s' a = mo s a.
  Proof. intros a Ha. unfold mo. rewrite (sp_old Ha). reflexivity. Qed.
  Lemma sp_getn : get_store s' n = newst.
  Proof. rewrite sp_get. rewrite Nat.eqb_refl. reflexivity. Qed.
  Lemma sp_hbk_n : hbk own' s' n = vv_get c t.
  Proof. unfold hbk, own'. rewrite sp_getn. rewrite Nat.eqb_refl. reflexivity. Qed.
  Lemma sp_mo_n : mo s' n = MN.
  Proof. unfold mo. rewrite sp_getn. reflexivity. Qed.
  Lemma sp_own_n : own' n = t.
  Proof. unfold own'. rewrite Nat.eqb_refl. reflexivity. Qed.

  Lemma sp_cases : forall a, a < S n -> a < n \/ a = n.
  Proof. intros a Ha. lia. Qed.

  Lemma sp_K_old : forall a b, a < n -> b < n -> (K own' s' a b <-> K own s a b).
  Proof.
    intros a b Ha Hb. unfold K. rewrite (sp_hbk_old Ha), (sp_own_old Ha), (sp_mo_old Hb). tauto.
  Qed.

  Lemma sp_K_n_old : forall b, b < n -> ~ K own' s' n b.
  Proof.
    intros b Hb HK. unfold K in HK. rewrite sp_hbk_n, sp_own_n, (sp_mo_old Hb) in HK.
    pose proof (sp_fresh Hb). lia.
  Qed.

  Lemma store_phase_inv : InvO own' s' cs'.
  Proof.
    pose proof sp_HI2 as H2.
    assert (HcN : vle c MN) by apply store_from_mo_ge_caus.
    constructor.
    - unfold s', atomic_store_from. cbv zeta. cbn [at_stores at_set_stores].
      rewrite list_set_length. apply (i_len HI).
    - rewrite sp_cnt. lia.
    - rewrite sp_cnt. unfold n. lia.
    - apply (i_mut HI).
    - apply (i_nthr H2).
    - apply (i_clen H2).
    - intros a Ha. rewrite sp_cnt in Ha. rewrite sp_get.
      destruct (Nat.eqb_spec a n); [lia|]. apply (i_dead HI). unfold n in Ha. lia.
    - intros a Ha. rewrite sp_cnt in Ha. destruct (sp_cases Ha) as [Hl|He].
      + rewrite (sp_own_old Hl). apply (i_own H2 Hl).
      + subst a. rewrite sp_own_n. unfold cs'. rewrite list_set_length. exact Ht.
    - intros a Ha. rewrite sp_cnt in Ha. destruct (sp_cases Ha) as [Hl|He].
      + rewrite (sp_hbk_old Hl), (sp_mo_old Hl). apply (i_key1 HI Hl).
      + subst a. left. rewrite sp_hbk_n. lia.
    - intros a Ha. rewrite sp_cnt in Ha. destruct (sp_cases Ha) as [Hl|He].
      + rewrite (sp_hbk_old Hl), (sp_own_old Hl), (sp_old Hl). apply (i_seen HI Hl).
      + subst a. rewrite sp_hbk_n, sp_own_n, sp_getn. cbn [st_seen newst].
        apply seen_touch_new. pose proof (i_nthr HI). lia.
    - intros a Ha. rewrite sp_cnt in Ha. destruct (sp_cases Ha) as [Hl|He].
      + apply (sp_K_old Hl Hl). apply (i_hbmo HI Hl).
      + subst a. unfold K. rewrite sp_hbk_n, sp_own_n, sp_mo_n. apply HcN.
    - intros a u Ha Hu. rewrite sp_cnt in Ha. unfold cs' in Hu. rewrite list_set_length in Hu.
      assert (Hu' : u < length cs') by (unfold cs'; rewrite list_set_length; exact Hu).
      destruct (sp_cases Ha) as [Hl|He].
      + rewrite (sp_mo_old Hl). apply (i_bmo H2 Hl Hu').
      + subst a. rewrite sp_mo_n.
        assert (Hcu : vv_get c u <= vv_get (clk cs' u) u).
        { unfold cs'. rewrite (clk_set cs t c u Ht). destruct (Nat.eqb_spec u t) as [Heq|Hne]; [lia|].
          apply (Hoth Hu Hne). }
        destruct (store_from_mo_jn s c src) as [_ Hq]. fold MN in Hq.
        destruct (Hq u) as [Heq|[g [Hg [_ Heq]]]]; [lia|].
        destruct (sp_PT Hg) as [H0|[x [Hx Hgx]]].
        * subst g. rewrite vv_new_get in Heq. lia.
        * subst g. rewrite Heq. apply (i_bmo H2 Hx Hu').
    - intros a u Ha Hu. rewrite sp_cnt in Ha. unfold cs' in Hu. rewrite list_set_length in Hu.
      assert (Hu' : u < length cs') by (unfold cs'; rewrite list_set_length; exact Hu).
      destruct (sp_cases Ha) as [Hl|He].
      + rewrite (sp_old Hl). apply (i_bsync H2 Hl Hu').
      + subst a. rewrite sp_getn. cbn [st_sync newst]. apply sync_store_bound.
        * apply (Hsync0 Hu).
        * unfold cs'. rewrite (clk_set cs t c u Ht). destruct (Nat.eqb_spec u t) as [Heq|Hne]; [lia|].
          apply (Hoth Hu Hne).
        * eapply Nat.le_trans; [apply (Hrel u)|].
          unfold cs'. rewrite (clk_set cs t c u Ht). destruct (Nat.eqb_spec u t) as [Heq|Hne]; [lia|].
          apply (Hoth Hu Hne).
    - apply (i_bclk H2).
    - intros a b Ha Hb HK. rewrite sp_cnt in Ha, Hb.
      destruct (sp_cases Ha) as [Hla|Hea]; destruct (sp_cases Hb) as [Hlb|Heb].
      + rewrite (sp_mo_old Hla), (sp_mo_old Hlb). apply (i_star HI Hla Hlb).
        apply (sp_K_old Hla Hlb). exact HK.
      + subst b. rewrite (sp_mo_old Hla), sp_mo_n. apply (sp_KN Hla).
        unfold K in HK. rewrite (sp_hbk_old Hla), (sp_own_old Hla), sp_mo_n in HK. exact HK.
      + subst a. exfalso. apply (sp_K_n_old Hlb HK).
      + subst a b. apply vle_refl.
    - intros a b Ha Hb Hne HKab HKba. rewrite sp_cnt in Ha, Hb.
      destruct (sp_cases Ha) as [Hla|Hea]; destruct (sp_cases Hb) as [Hlb|Heb].
      + apply (i_D HI Hla Hlb Hne); [apply (sp_K_old Hla Hlb) | apply (sp_K_old Hlb Hla)]; assumption.
      + subst b. apply (sp_K_n_old Hla HKba).
      + subst a. apply (sp_K_n_old Hlb HKab).
      + lia.
  Qed.

  (* CoWW / CoRW at the store: everything the storing thread has seen is
     strictly mo-before the new store *)
  Lemma store_phase_after_seen : forall a, a < n ->
    is_seen_by_current (st_seen (get_store s a)) c = true ->
    vv_lt (mo s' a) (mo s' n) = true.
  Proof.
    intros a Ha Hs.
    assert (Han : a < at_cnt s') by (rewrite sp_cnt; lia).
    assert (Hnn : n < at_cnt s') by (rewrite sp_cnt; lia).
    apply (lt_iff_K store_phase_inv Han Hnn). split; [lia|].
    apply (@K_of_vle _ _ _ store_phase_inv a n Han).
    rewrite (sp_mo_old Ha), sp_mo_n. apply (sp_seen_le Ha Hs).
  Qed.
End StorePhase.

(* ================================================================== *)
(* 8. every step of the c0421c4 machine preserves the invariant         *)

Section StepFacts.
  Variable own : nat -> nat.
  Variable s : atomic_state.
  Variable cs : list vv.
  Variable t : nat.
  Hypothesis HI : InvO own s cs.
  Hypothesis Ht : t < length cs.
  Let c := vv_inc (clk cs t) t.

  Lemma sf_tlen : t < length (clk cs t).
  Proof. apply (i_clen HI Ht). Qed.
  Lemma sf_le : vle (clk cs t) c.
  Proof. apply vle_inc. Qed.
  Lemma sf_fr : vv_get (clk cs t) t < vv_get c t.
  Proof. unfold c. rewrite vv_get_inc_same by apply sf_tlen. lia. Qed.
  Lemma sf_len : t < length c.
  Proof. unfold c. rewrite vv_inc_length. apply sf_tlen. Qed.
  Lemma sf_oth : forall u, u < length cs -> u <> t -> vv_get c u <= vv_get (clk cs u) u.
  Proof.
    intros u Hu Hne. unfold c. rewrite vv_get_inc_other by lia. apply (i_bclk HI Ht Hu).
  Qed.
End StepFacts.

Lemma acq_clock : forall own s cs t idx o,
  InvO own s cs -> t < length cs -> idx < at_cnt s ->
  let c := vv_inc (clk cs t) t in
  let c' := sync_load c (st_sync (get_store s idx)) o in
  vle (clk cs t) c' /\ vv_get (clk cs t) t < vv_get c' t /\ t < length c' /\
  (forall u, u < length cs -> u <> t -> vv_get c' u <= vv_get (clk cs u) u).
Proof.
  intros own s cs t idx o HI Ht Hidx c c'.
  pose proof (sync_load_ge c (st_sync (get_store s idx)) o) as Hge. fold c' in Hge.
  split; [eapply vle_trans; [apply (sf_le cs t) | exact Hge]|].
  split; [pose proof (sf_fr HI Ht); pose proof (Hge t); fold c in H; lia|].
  split; [apply sync_load_len; apply (sf_len HI Ht)|].
  intros u Hu Hne. unfold c', sync_load. pose proof (sf_oth HI Ht Hu Hne) as Hc. fold c in Hc.
  destruct (ord_acq o); [|exact Hc].
  rewrite vv_get_join. pose proof (i_bsync HI Hidx Hu). lia.
Qed.

Lemma existsb_eqb_In : forall idx l, existsb (Nat.eqb idx) l = true -> In idx l.
Proof.
  intros idx l H. apply existsb_exists in H. destruct H as [x [Hx He]].
  apply Nat.eqb_eq in He. subst x. exact Hx.
Qed.

(* what a step does to the old slots *)
Definition ext (own : nat -> nat) (s : atomic_state) (own' : nat -> nat) (s' : atomic_state) : Prop :=
  at_cnt s <= at_cnt s' /\
  forall a, a < at_cnt s ->
    own' a = own a /\ hbk own' s' a = hbk own s a /\ vle (mo s a) (mo s' a) /\
    forall c, is_seen_by_current (st_seen (get_store s a)) c = true ->
              is_seen_by_current (st_seen (get_store s' a)) c = true.

Lemma ext_trans : forall o1 s1 o2 s2 o3 s3, ext o1 s1 o2 s2 -> ext o2 s2 o3 s3 -> ext o1 s1 o3 s3.
Proof.
  intros o1 s1 o2 s2 o3 s3 [Hc1 H1] [Hc2 H2]. split; [lia|].
  intros a Ha. destruct (H1 a Ha) as [A1 [B1 [C1 D1]]].
  assert (Ha2 : a < at_cnt s2) by lia.
  destruct (H2 a Ha2) as [A2 [B2 [C2 D2]]].
  split; [congruence|]. split; [congruence|]. split; [eapply vle_trans; eassumption|].
  intros c Hs. apply D2. apply D1. exact Hs.
Qed.

Lemma ext_refl : forall own s, ext own s own s.
Proof.
  intros own s. split; [apply le_n|]. intros a Ha.
  split; [reflexivity|]. split; [reflexivity|]. split; [apply vle_refl|]. intros c H. exact H.
Qed.

Lemma ext_stable : forall own s cs own' s' cs' a b,
  InvO own s cs -> InvO own' s' cs' -> ext own s own' s' ->
  a < at_cnt s -> b < at_cnt s -> vv_lt (mo s a) (mo s b) = true ->
  a < at_cnt s' /\ b < at_cnt s' /\ vv_lt (mo s' a) (mo s' b) = true.
Proof.
  intros own s cs own' s' cs' a b HI HI' [Hc Hx] Ha Hb Hlt.
  assert (Ha' : a < at_cnt s') by lia. assert (Hb' : b < at_cnt s') by lia.
  split; [exact Ha'|]. split; [exact Hb'|].
  apply (lt_iff_K HI Ha Hb) in Hlt. destruct Hlt as [Hne HK].
  apply (lt_iff_K HI' Ha' Hb'). split; [exact Hne|].
  destruct (Hx a Ha) as [Ho [Hh _]]. destruct (Hx b Hb) as [_ [_ [Hg _]]].
  unfold K in *. rewrite Ho, Hh. specialize (Hg (own a)). lia.
Qed.

Lemma ext_knows : forall own s cs own' s' cs' u i,
  ext own s own' s' -> (forall w, vle (clk cs w) (clk cs' w)) -> i < at_cnt s ->
  is_seen_by_current (st_seen (get_store s i)) (clk cs u) = true ->
  i < at_cnt s' /\ is_seen_by_current (st_seen (get_store s' i)) (clk cs' u) = true.
Proof.
  intros own s cs own' s' cs' u i [Hc Hx] Hg Hi Hk. split; [lia|].
  destruct (Hx i Hi) as [_ [_ [_ Hs]]]. apply (seen_clock_mono _ _ _ (Hg u)). apply Hs. exact Hk.
Qed.

Lemma load_phase_ext : forall own s cs t c idx,
  InvO own s cs -> idx < at_cnt s ->
  ext own s own (loadpart_g RC0421 s t c idx).
Proof.
  intros own s cs t c idx HI Hidx. split; [apply le_n|].
  intros a Ha. assert (H7 : a < MAX_ATOMIC_HISTORY) by (pose proof (i_cnt7 HI); lia).
  split; [reflexivity|].
  split; [apply (@lp_hbk own s cs t c idx HI Hidx a H7)|].
  split; [apply (@lp_grow own s cs t c idx HI Hidx a H7)|].
  intros c0 Hs. rewrite (@lp_seen own s cs t c idx HI Hidx a H7).
  destruct (Nat.eqb_spec a idx) as [Heq|_]; [|exact Hs].
  subst a. apply seen_touch_mono. exact Hs.
Qed.

Lemma store_phase_ext : forall own s cs t c rel sync0 v o src,
  InvO own s cs -> at_cnt s < MAX_ATOMIC_HISTORY ->
  ext own s (fun k => if Nat.eqb k (at_cnt s) then t else own k)
      (atomic_store_from s t c rel sync0 v o src).
Proof.
  intros own s cs t c rel sync0 v o src HI Hroom.
  split; [change (at_cnt s <= S (at_cnt s)); lia|].
  intros a Ha.
  assert (Hold : get_store (atomic_store_from s t c rel sync0 v o src) a = get_store s a).
  { unfold atomic_store_from. cbv zeta. rewrite (aindex_small Hroom).
    rewrite get_store_set by (rewrite (i_len HI); exact Hroom).
    destruct (Nat.eqb_spec a (at_cnt s)); [lia|reflexivity]. }
  split; [destruct (Nat.eqb_spec a (at_cnt s)); [lia|reflexivity]|].
  split.
  { unfold hbk. rewrite Hold. destruct (Nat.eqb_spec a (at_cnt s)); [lia|reflexivity]. }
  split; [unfold mo; rewrite Hold; apply vle_refl|].
  intros c0 Hs. rewrite Hold. exact Hs.
Qed.

Lemma clk_set_grow : forall cs t v, t < length cs -> vle (clk cs t) v ->
  forall u, vle (clk cs u) (clk (list_set cs t v) u).
Proof.
  intros cs t v Ht Hle u. rewrite (clk_set cs t v u Ht).
  destruct (Nat.eqb_spec u t) as [Heq|_]; [subst u; exact Hle | apply vle_refl].
Qed.

(* ---- the first-seen stamps: st_seen[u] <= clock_u[u] ---- *)
Record StampO (s : atomic_state) (cs : list vv) : Prop := mkStampO {
  sb_le : forall a u w, a < at_cnt s ->
     nth_error (st_seen (get_store s a)) u = Some (Some w) -> w <= vv_get (clk cs u) u;
  sb_len : forall a, a < at_cnt s -> length (st_seen (get_store s a)) = MAX_THREADS
}.

Lemma list_set_nth_error_other : forall (A : Type) (l : list A) n j x,
  n <> j -> nth_error (list_set l n x) j = nth_error l j.
Proof.
  intros A. induction l as [|h r IH]; intros n j x Hne; [reflexivity|].
  destruct n as [|n]; destruct j as [|j]; cbn [list_set nth_error]; try lia; try reflexivity.
  apply IH. lia.
Qed.

Lemma seen_touch_length : forall seen me w, length (seen_touch seen me w) = length seen.
Proof.
  intros seen me w. unfold seen_touch.
  destruct (nth_error seen me) as [[x|]|]; try reflexivity. apply list_set_length.
Qed.

Lemma seen_touch_inv : forall seen me w u x,
  nth_error (seen_touch seen me w) u = Some (Some x) ->
  nth_error seen u = Some (Some x) \/ (u = me /\ x = w).
Proof.
  intros seen me w u x H. unfold seen_touch in H.
  destruct (nth_error seen me) as [[y|]|] eqn:Hme; try (left; exact H).
  destruct (Nat.eq_dec me u) as [Heq|Hne].
  - subst u. right. split; [reflexivity|].
    assert (Hlt : me < length seen) by (apply nth_error_Some; rewrite Hme; discriminate).
    rewrite (list_set_nth_error_same seen (Some w) Hlt) in H. inversion H. reflexivity.
  - left. rewrite list_set_nth_error_other in H by exact Hne. exact H.
Qed.

Lemma seen_touch_hit : forall seen me w, me < length seen ->
  exists x, nth_error (seen_touch seen me w) me = Some (Some x) /\
            (x = w \/ nth_error seen me = Some (Some x)).
Proof.
  intros seen me w Hlt. unfold seen_touch.
  destruct (nth_error seen me) as [[y|]|] eqn:Hme.
  - exists y. split; [exact Hme | right; reflexivity].
  - exists w. split; [apply list_set_nth_error_same; exact Hlt | left; reflexivity].
  - exfalso. apply nth_error_None in Hme. lia.
Qed.

Lemma stamp_clock : forall s cs cs',
  StampO s cs -> (forall u, vle (clk cs u) (clk cs' u)) -> StampO s cs'.
Proof.
  intros s cs cs' [Hb Hl] Hg. constructor; [|exact Hl].
  intros a u w Ha Hn. pose proof (Hb a u w Ha Hn). pose proof (Hg u u). lia.
Qed.

Lemma stamp_touch : forall s sM cs cs' t c idx,
  StampO s cs -> at_cnt sM = at_cnt s ->
  (forall k, k < at_cnt s -> st_seen (get_store sM k) =
     if Nat.eqb k idx then seen_touch (st_seen (get_store s idx)) t (vv_get c t)
     else st_seen (get_store s k)) ->
  (forall u, vle (clk cs u) (clk cs' u)) -> vv_get c t <= vv_get (clk cs' t) t ->
  StampO sM cs'.
Proof.
  intros s sM cs cs' t c idx HS Hcnt F1 Hg Hc.
  pose proof (@stamp_clock s cs cs' HS Hg) as [Hb Hl].
  constructor.
  - intros a u w Ha Hn. rewrite Hcnt in Ha. rewrite (F1 a Ha) in Hn.
    destruct (Nat.eqb_spec a idx) as [Heq|_]; [|apply (Hb a u w Ha Hn)].
    subst a. apply seen_touch_inv in Hn. destruct Hn as [Hn|[Hu Hw]]; [apply (Hb idx u w Ha Hn)|].
    subst u w. exact Hc.
  - intros a Ha. rewrite Hcnt in Ha. rewrite (F1 a Ha).
    destruct (Nat.eqb_spec a idx) as [Heq|_]; [|apply (Hl a Ha)].
    subst a. rewrite seen_touch_length. apply (Hl idx Ha).
Qed.

Lemma seen_new_nth : forall u, nth_error seen_new u <> Some (Some 0) /\
  forall x, nth_error seen_new u = Some (Some x) -> False.
Proof.
  intros u. assert (H : forall x, nth_error seen_new u = Some (Some x) -> False).
  { intros x Hn. apply nth_error_In in Hn. unfold seen_new in Hn. apply repeat_spec in Hn. discriminate. }
  split; [intros Hn; apply (H 0 Hn) | exact H].
Qed.

Lemma stamp_store : forall own s cs0 cs cs' t c rel sync0 v o src,
  InvO own s cs0 -> at_cnt s < MAX_ATOMIC_HISTORY -> StampO s cs ->
  (forall u, vle (clk cs u) (clk cs' u)) -> vv_get c t <= vv_get (clk cs' t) t ->
  StampO (atomic_store_from s t c rel sync0 v o src) cs'.
Proof.
  intros own s cs0 cs cs' t c rel sync0 v o src HI Hroom HS Hg Hc.
  pose proof (@stamp_clock s cs cs' HS Hg) as [Hb Hl].
  assert (Hget : forall a, get_store (atomic_store_from s t c rel sync0 v o src) a =
            if Nat.eqb a (at_cnt s)
            then mkStore v c (store_from_mo s c src) (sync_store sync0 c rel o)
                         (seen_touch seen_new t (vv_get c t)) (is_seq_cst o) (at_cnt s) src
            else get_store s a).
  { intros a. unfold atomic_store_from. cbv zeta. rewrite (aindex_small Hroom).
    apply (get_store_set s _ (S (at_cnt s)) a). rewrite (i_len HI). exact Hroom. }
  constructor.
  - intros a u w Ha Hn. change (a < S (at_cnt s)) in Ha. rewrite Hget in Hn.
    destruct (Nat.eqb_spec a (at_cnt s)) as [Heq|Hne].
    + cbn [st_seen] in Hn. apply seen_touch_inv in Hn. destruct Hn as [Hn|[Hu Hw]].
      * exfalso. apply (proj2 (seen_new_nth u) w Hn).
      * subst u w. exact Hc.
    + apply (Hb a u w); [lia | exact Hn].
  - intros a Ha. change (a < S (at_cnt s)) in Ha. rewrite Hget.
    destruct (Nat.eqb_spec a (at_cnt s)) as [Heq|Hne].
    + cbn [st_seen]. rewrite seen_touch_length. unfold seen_new. apply repeat_length.
    + apply Hl. lia.
Qed.

Lemma stamp_ts : forall s cs c, StampO s cs -> StampO (ts_state s c) cs.
Proof. intros s cs c [Hb Hl]. constructor; [exact Hb | exact Hl]. Qed.

Lemma mstep_load_inv : forall tr s cs t idx o st',
  at_cnt s <= MAX_ATOMIC_HISTORY ->
  mstep tr (s, cs) t (XLoad idx o) = Some st' ->
  let c := vv_inc (clk cs t) t in
  let s3 := loadpart_g tr (tl_state s c) t c idx in
  t < length cs /\ idx < at_cnt s /\
  (forall x, x < at_cnt (tl_state s c) -> x <> idx ->
     is_seen_by_current (st_seen (get_store (tl_state s c) x)) c = true ->
     vv_lt (mo (tl_state s c) idx) (mo (tl_state s c) x) = false) /\
  st' = (s3, list_set cs t (sync_load c (st_sync (get_store s3 idx)) o)).
Proof.
  intros tr s cs t idx o st' H7 Hstep. cbv zeta. unfold mstep in Hstep.
  destruct (Nat.ltb_spec t (length cs)) as [Ht|Ht]; cbn [negb] in Hstep; [|discriminate].
  set (c := vv_inc (clk cs t) t) in *.
  destruct (match_load_to_stores s t c None o) as [l|] eqn:Hm; [|discriminate].
  destruct (existsb (Nat.eqb idx) l) eqn:He; [|discriminate].
  apply existsb_eqb_In in He. apply (load_candidates_spec _ _ _ _ _ _ Hm idx) in He.
  destruct He as [_ [Hidx Hall]].
  unfold atomic_load_g in Hstep.
  destruct (track_load s c) as [s1x|px] eqn:Htlx; [|discriminate]. apply track_load_inl in Htlx. subst s1x.
  cbv zeta in Hstep. injection Hstep as Hst.
  split; [exact Ht|]. split; [exact Hidx|]. split; [|symmetry; exact Hst].
  intros x Hx Hne Hs.
  destruct (vv_lt (mo (tl_state s c) idx) (mo (tl_state s c) x)) eqn:Hlt; [|reflexivity].
  change (at_cnt (tl_state s c)) with (at_cnt s) in Hx.
  destruct (Hall x ltac:(lia) Hx Hne Hlt) as [Hns _].
  change (get_store (tl_state s c) x) with (get_store s x) in Hs. rewrite Hs in Hns. discriminate.
Qed.
Arguments mstep_load_inv [tr s cs t idx o st'] _ _.

Lemma touch_knows : forall own s cs t idx c',
  InvO own s cs -> StampO s cs -> t < length cs -> idx < at_cnt s ->
  vv_get (vv_inc (clk cs t) t) t <= vv_get c' t ->
  is_seen_by_current (seen_touch (st_seen (get_store s idx)) t (vv_get (vv_inc (clk cs t) t) t)) c' = true.
Proof.
  intros own s cs t idx c' HI [Hb Hl] Ht Hidx Hc'.
  assert (Htl : t < length (st_seen (get_store s idx))).
  { rewrite (Hl idx Hidx). pose proof (i_nthr HI). lia. }
  destruct (@seen_touch_hit (st_seen (get_store s idx)) t (vv_get (vv_inc (clk cs t) t) t) Htl) as [x [Hn Hx]].
  eapply (@is_seen_by_current_hit _ t); [exact Hn|].
  eapply Nat.le_trans; [|exact Hc'].
  destruct Hx as [Hx|Hx]; [subst x; apply le_n|].
  pose proof (Hb idx t x Hidx Hx) as Hw. pose proof (sf_fr HI Ht) as Hf. lia.
Qed.

(* ---- what one step of the machine yields, for any rule: the four ways a
   step ends (only the clock of t moves; after the load part; after a plain
   store; after the store of an RMW) ---- *)
Definition Out0 (own : nat -> nat) (s : atomic_state) (cs : list vv)
    (own' : nat -> nat) (s' : atomic_state) (cs' : list vv) : Prop :=
  InvO own' s' cs' /\ ext own s own' s' /\
  length cs' = length cs /\ (forall u, vle (clk cs u) (clk cs' u)) /\
  (StampO s cs -> StampO s' cs').

Lemma clock_out0 : forall own s s' cs t v,
  InvO own s' cs -> ext own s own s' -> t < length cs ->
  vle (clk cs t) v -> t < length v ->
  (forall u, u < length cs -> u <> t -> vv_get v u <= vv_get (clk cs u) u) ->
  (StampO s cs -> StampO s' (list_set cs t v)) ->
  Out0 own s cs own s' (list_set cs t v).
Proof.
  intros own s s' cs t v HI Hext Ht Hle Hlen Hoth HS.
  split; [apply (InvO_clock HI Ht Hle Hlen Hoth)|]. split; [exact Hext|].
  split; [apply list_set_length|]. split; [apply (@clk_set_grow cs t v Ht Hle) | exact HS].
Qed.

Lemma sync_out0 : forall own s cs t u,
  InvO own s cs -> t < length cs -> u < length cs ->
  Out0 own s cs own s (list_set cs t (vv_join (clk cs t) (clk cs u))).
Proof.
  intros own s cs t u HI Ht Hu. apply (clock_out0 HI (ext_refl own s) Ht (vle_join_l _ _)).
  - rewrite vv_join_length. pose proof (i_clen HI Ht). lia.
  - intros w Hw Hne. rewrite vv_get_join.
    pose proof (i_bclk HI Ht Hw). pose proof (i_bclk HI Hu Hw). lia.
  - intros HS. apply (@stamp_clock s cs _ HS (@clk_set_grow cs t _ Ht (vle_join_l _ _))).
Qed.

Section LoadOut.
  Variable own : nat -> nat.
  Variables s s3 : atomic_state.
  Variable cs : list vv.
  Variables t idx : nat.
  Let c := vv_inc (clk cs t) t.
  Hypothesis HI3 : InvO own s3 cs.
  Hypothesis Hext : ext own s own s3.
  Hypothesis Ht : t < length cs.
  Hypothesis Hidx : idx < at_cnt s3.
  Hypothesis Hcnt : at_cnt s3 = at_cnt s.
  Hypothesis Hseen : forall k, k < at_cnt s -> st_seen (get_store s3 k) =
    if Nat.eqb k idx then seen_touch (st_seen (get_store s idx)) t (vv_get c t)
    else st_seen (get_store s k).

  Lemma load_stamp : forall o, StampO s cs ->
    StampO s3 (list_set cs t (sync_load c (st_sync (get_store s3 idx)) o)).
  Proof.
    intros o HS. destruct (acq_clock o HI3 Ht Hidx) as [H1 _].
    apply (@stamp_touch s s3 cs _ t c idx HS Hcnt Hseen (@clk_set_grow cs t _ Ht H1)).
    rewrite (clk_set cs t _ t Ht), Nat.eqb_refl. apply (sync_load_ge c _ o t).
  Qed.

  Lemma load_out0 : forall o,
    Out0 own s cs own s3 (list_set cs t (sync_load c (st_sync (get_store s3 idx)) o)).
  Proof.
    intros o. destruct (acq_clock o HI3 Ht Hidx) as [H1 [_ [H3 H4]]].
    apply (clock_out0 HI3 Hext Ht H1 H3 H4 (load_stamp o)).
  Qed.

  Lemma rmw_store_out0 : forall rel next so,
    let c' := sync_load c (st_sync (get_store s3 idx)) so in
    at_cnt s3 < MAX_ATOMIC_HISTORY -> vle rel c' ->
    Out0 own s cs (fun k => if Nat.eqb k (at_cnt s3) then t else own k)
      (atomic_store_from (ts_state s3 c) t c' rel (st_sync (get_store s3 idx)) next so
         (Some (idx, st_id (get_store s3 idx))))
      (list_set cs t c').
  Proof.
    intros rel next so c' Hroom Hrel.
    destruct (acq_clock so HI3 Ht Hidx) as [H1 [H2 [H3 H4]]]. fold c c' in H1, H2, H3, H4.
    split.
    { apply (@store_phase_inv own (ts_state s3 c) cs t _ _ next so _ rel (InvO_ts c HI3) Ht Hroom H1 H2 H3 H4); [|exact Hrel].
      intros u Hu. pose proof (i_bsync HI3 Hidx Hu) as Hb.
      rewrite (clk_set cs t _ u Ht). destruct (Nat.eqb_spec u t) as [Heq|_]; [|exact Hb].
      subst u. eapply Nat.le_trans; [exact Hb|]. apply Nat.lt_le_incl. exact H2. }
    split.
    { eapply ext_trans; [exact Hext|].
      apply (@store_phase_ext own (ts_state s3 c) cs t _ rel _ next so _ (InvO_ts c HI3) Hroom). }
    split; [apply list_set_length|]. split; [apply (@clk_set_grow cs t _ Ht H1)|].
    intros HS.
    apply (@stamp_store own (ts_state s3 c) cs _ _ t _ rel _ next so _ (InvO_ts c HI3) Hroom
             (stamp_ts c (load_stamp so HS)) (fun u0 => vle_refl _)).
    rewrite (clk_set cs t _ t Ht), Nat.eqb_refl. apply le_n.
  Qed.
End LoadOut.

Lemma store_out0 : forall own s cs t rel v o,
  let c := vv_inc (clk cs t) t in
  InvO own s cs -> t < length cs -> at_cnt s < MAX_ATOMIC_HISTORY -> vle rel c ->
  Out0 own s cs (fun k => if Nat.eqb k (at_cnt s) then t else own k)
    (atomic_store_from (ts_state s c) t c rel vv_new v o None) (list_set cs t c).
Proof.
  intros own s cs t rel v o c HI Ht Hroom Hrel.
  split.
  { apply (@store_phase_inv own (ts_state s c) cs t c vv_new v o None rel (InvO_ts c HI) Ht Hroom
             (sf_le cs t) (sf_fr HI Ht) (sf_len HI Ht) (sf_oth HI Ht)); [|exact Hrel].
    intros u Hu. rewrite vv_new_get. lia. }
  split; [apply (@store_phase_ext own (ts_state s c) cs t c rel vv_new v o None (InvO_ts c HI) Hroom)|].
  split; [apply list_set_length|]. split; [apply (@clk_set_grow cs t _ Ht (sf_le cs t))|].
  intros HS. apply (@stamp_store own (ts_state s c) cs cs _ t c rel vv_new v o None (InvO_ts c HI) Hroom
                      (stamp_ts c HS) (@clk_set_grow cs t _ Ht (sf_le cs t))).
  rewrite (clk_set cs t _ t Ht), Nat.eqb_refl. apply le_n.
Qed.

Theorem mstep_ext_c0421c4 : forall own s cs t op s' cs',
  InvO own s cs -> mstep RC0421 (s, cs) t op = Some (s', cs') ->
  exists own', InvO own' s' cs' /\ ext own s own' s' /\
               length cs' = length cs /\ (forall u, vle (clk cs u) (clk cs' u)) /\
               (StampO s cs -> StampO s' cs').
Proof.
  intros own s cs t op s' cs' HI Hstep. pose proof (i_cnt7 HI) as H7.
  change (exists own', Out0 own s cs own' s' cs').
  destruct op as [idx o|v o|idx f so fo|u].
  1:{ (* load *)
    destruct (mstep_load_inv H7 Hstep) as [Ht [Hidx [Hcand Hst]]].
    set (c := vv_inc (clk cs t) t) in *. inversion Hst as [[Hs' Hcs']]. clear Hst Hstep. subst s' cs'.
    exists own.
    apply (load_out0 (s:=s) (@load_phase_inv own (tl_state s c) cs t c idx (InvO_tl c HI) Hidx Hcand)
             (@load_phase_ext own (tl_state s c) cs t c idx (InvO_tl c HI) Hidx) Ht Hidx eq_refl).
    intros k Hk. apply (@lp_seen own (tl_state s c) cs t c idx (InvO_tl c HI) Hidx k).
    change (at_cnt (tl_state s c)) with (at_cnt s) in Hk. lia. }
  all: unfold mstep in Hstep.
  all: destruct (Nat.ltb_spec t (length cs)) as [Ht|Ht]; cbn [negb] in Hstep; [|discriminate].
  - (* store *)
    destruct (Nat.leb_spec MAX_ATOMIC_HISTORY (at_cnt s)) as [Hfull|Hroom]; [discriminate|].
    set (c := vv_inc (clk cs t) t) in *.
    destruct (track_store s c) as [s1y|py] eqn:Htsy; [|discriminate]. apply track_store_inl in Htsy. subst s1y.
    inversion Hstep as [[Hs' Hcs']]. clear Hstep. subst s' cs'.
    eexists. apply (store_out0 v o HI Ht Hroom (vle_new c)).
  - (* rmw *)
    destruct (Nat.leb_spec MAX_ATOMIC_HISTORY (at_cnt s)) as [Hfull|Hroom]; [discriminate|].
    set (c := vv_inc (clk cs t) t) in *.
    destruct (match_rmw_to_stores s) as [l|] eqn:Hm; [|discriminate].
    destruct (existsb (Nat.eqb idx) l) eqn:He; [|discriminate].
    apply existsb_eqb_In in He. apply (rmw_candidates_spec _ _ Hm idx) in He.
    destruct He as [_ [Hidx Hall]].
    unfold atomic_rmw_g in Hstep.
    destruct (track_load s c) as [s1x|px] eqn:Htlx; [|discriminate]. apply track_load_inl in Htlx. subst s1x. cbv zeta in Hstep.
    assert (HI3 : InvO own (loadpart_g RC0421 (tl_state s c) t c idx) cs).
    { apply (@load_phase_inv own (tl_state s c) cs t c idx (InvO_tl c HI) Hidx).
      intros x Hx Hne _. change (at_cnt (tl_state s c)) with (at_cnt s) in Hx.
      apply (Hall x ltac:(lia) Hx Hne). }
    pose proof (@load_phase_ext own (tl_state s c) cs t c idx (InvO_tl c HI) Hidx) as Hext3.
    assert (Hseen3 : forall k, k < at_cnt s ->
              st_seen (get_store (loadpart_g RC0421 (tl_state s c) t c idx) k) =
              if Nat.eqb k idx then seen_touch (st_seen (get_store s idx)) t (vv_get c t)
              else st_seen (get_store s k)).
    { intros k Hk. apply (@lp_seen own (tl_state s c) cs t c idx (InvO_tl c HI) Hidx k). lia. }
    set (s3 := loadpart_g RC0421 (tl_state s c) t c idx) in *.
    destruct (f (st_value (get_store s3 idx))) as [next|].
    + destruct (track_store s3 c) as [s1y|py] eqn:Htsy; [|discriminate]. apply track_store_inl in Htsy. subst s1y.
      inversion Hstep as [[Hs' Hcs']]. clear Hstep. subst s' cs'.
      eexists. apply (rmw_store_out0 (s:=s) HI3 Hext3 Ht Hidx eq_refl Hseen3 next so Hroom (vle_new _)).
    + inversion Hstep as [[Hs' Hcs']]. clear Hstep. subst s' cs'.
      exists own. apply (load_out0 (s:=s) HI3 Hext3 Ht Hidx eq_refl Hseen3 fo).
  - (* sync *)
    destruct (Nat.ltb_spec u (length cs)) as [Hu|Hu]; [|discriminate].
    inversion Hstep as [[Hs' Hcs']]. clear Hstep. subst s' cs'.
    exists own. apply (sync_out0 HI Ht Hu).
Qed.

Theorem mstep_inv_c0421c4 : forall st t op st',
  Inv st -> mstep RC0421 st t op = Some st' -> Inv st'.
Proof.
  intros [s cs] t op [s' cs'] [own HI] Hstep. cbn [fst snd] in HI.
  destruct (mstep_ext_c0421c4 _ _ HI Hstep) as [own' [HI' _]]. exists own'. exact HI'.
Qed.

(* the loop [run] over [step] is a parameter: AtomicBridge.v runs the same
   loop over a larger step *)
Section Runs.
  Variables (B : Type) (step : mstate -> nat -> B -> option mstate)
            (run : mstate -> list (nat * B) -> option mstate).
  Hypothesis run_nil : forall st, run st [] = Some st.
  Hypothesis run_cons : forall st t b r,
    run st ((t, b) :: r) = match step st t b with Some st' => run st' r | None => None end.

  Lemma run_keeps : forall P : mstate -> Prop,
    (forall st t b st', P st -> step st t b = Some st' -> P st') ->
    forall evs st st', P st -> run st evs = Some st' -> P st'.
  Proof.
    intros P Hstep. induction evs as [|[t b] evs IH]; intros st st' HP Hrun.
    - rewrite run_nil in Hrun. inversion Hrun. subst st'. exact HP.
    - rewrite run_cons in Hrun. destruct (step st t b) as [st1|] eqn:Hs; [|discriminate].
      apply (IH st1 st' (Hstep st t b st1 HP Hs) Hrun).
  Qed.

  Variable P : mstate -> Prop.
  Hypothesis P_step : forall st t b st', P st -> step st t b = Some st' -> P st'.

  Lemma run_stable_g :
    (forall st t b st' x y, P st -> step st t b = Some st' ->
       lives st x -> lives st y -> mo_lt st x y = true ->
       lives st' x /\ lives st' y /\ mo_lt st' x y = true) ->
    forall evs st st' x y, P st -> run st evs = Some st' ->
      lives st x -> lives st y -> mo_lt st x y = true ->
      lives st' x /\ lives st' y /\ mo_lt st' x y = true.
  Proof.
    intros Hst evs st st' x y HP Hrun Hx Hy Hlt.
    apply (@run_keeps (fun st => P st /\ lives st x /\ lives st y /\ mo_lt st x y = true)) with (evs := evs) (st := st);
      [|split; [exact HP | split; [exact Hx | split; [exact Hy | exact Hlt]]] | exact Hrun].
    intros st0 t b st1 [HP0 [Hx0 [Hy0 Hlt0]]] Hs.
    split; [apply (P_step HP0 Hs) | apply (Hst st0 t b st1 x y HP0 Hs Hx0 Hy0 Hlt0)].
  Qed.

  Lemma run_knows_g :
    (forall st t b st' u i, P st -> step st t b = Some st' ->
       lives st i -> knows st u i -> lives st' i /\ knows st' u i) ->
    forall evs st st' u i, P st -> run st evs = Some st' ->
      lives st i -> knows st u i -> lives st' i /\ knows st' u i.
  Proof.
    intros Hkn evs st st' u i HP Hrun Hi Hk.
    apply (@run_keeps (fun st => P st /\ lives st i /\ knows st u i)) with (evs := evs) (st := st);
      [|split; [exact HP | split; [exact Hi | exact Hk]] | exact Hrun].
    intros st0 t b st1 [HP0 [Hi0 Hk0]] Hs.
    split; [apply (P_step HP0 Hs) | apply (Hkn st0 t b st1 u i HP0 Hs Hi0 Hk0)].
  Qed.
End Runs.

Definition mrun_keeps tr := @run_keeps aop (mstep tr) (mrun tr) (fun _ => eq_refl) (fun _ _ _ _ => eq_refl).
Definition mrun_stable tr := @run_stable_g aop (mstep tr) (mrun tr) (fun _ => eq_refl) (fun _ _ _ _ => eq_refl).
Definition mrun_knows tr := @run_knows_g aop (mstep tr) (mrun tr) (fun _ => eq_refl) (fun _ _ _ _ => eq_refl).

Theorem mrun_inv_c0421c4 : forall evs st st',
  Inv st -> mrun RC0421 st evs = Some st' -> Inv st'.
Proof. exact (@mrun_keeps RC0421 Inv mstep_inv_c0421c4). Qed.

(* ================================================================== *)
(* 9. the start state                                                   *)

Lemma clk_repeat : forall v n t, t < n -> clk (repeat v n) t = v.
Proof.
  intros v n t Ht. unfold clk. rewrite (nth_indep _ vv_new v) by (rewrite repeat_length; exact Ht).
  apply nth_repeat.
Qed.

(* the cell as atomic_new makes it, for ANY creating thread me with clock c0 *)
Definition s_newc (me : nat) (c0 : vv) (v0 : N) : atomic_state :=
  mkAtomic vv_new vv_new vv_new (vv_join vv_new c0) false (repeat None MAX_THREADS) None
    (mkStore v0 c0 c0 (sync_store vv_new c0 vv_new Release)
             (seen_touch seen_new me (vv_get c0 me)) false 0 None
     :: repeat store_default 6) 1.

Lemma minit_eq : forall n v0, minit n v0 = Some (s_newc 0 c_init v0, repeat c_init n).
Proof. intros n v0. reflexivity. Qed.

Lemma new_live0 : forall me c0 v0 a, a < at_cnt (s_newc me c0 v0) -> a = 0.
Proof. intros me c0 v0 a Ha. cbn in Ha. lia. Qed.

Section NewCell.
  Variables (me : nat) (c0 : vv) (v0 : N) (cs : list vv).
  Hypothesis Hme : me < length cs.
  Hypothesis Hn : length cs <= MAX_THREADS.
  Hypothesis Hc0 : clk cs me = c0.
  Hypothesis Hk1 : 1 <= vv_get c0 me \/ forall q, vv_get c0 q = 0.
  Hypothesis Hclen : forall t, t < length cs -> t < length (clk cs t).
  Hypothesis Hbclk : forall u t, u < length cs -> t < length cs ->
    vv_get (clk cs u) t <= vv_get (clk cs t) t.

  Let s := s_newc me c0 v0.
  Let H0 := @new_live0 me c0 v0.

  Lemma new_inv : InvO (fun _ => me) s cs.
  Proof.
    assert (HmeT : me < MAX_THREADS) by lia.
    constructor.
    - reflexivity.
    - cbn. lia.
    - cbn. unfold MAX_ATOMIC_HISTORY. lia.
    - reflexivity.
    - exact Hn.
    - exact Hclen.
    - intros a Ha. cbn in Ha.
      destruct a as [|[|[|[|[|[|[|a]]]]]]]; try lia; try reflexivity.
      unfold get_store. cbn. destruct a; reflexivity.
    - intros a _. exact Hme.
    - intros a Ha. rewrite (H0 Ha). destruct Hk1 as [H|H]; [left; exact H | right; exact H].
    - intros a Ha. rewrite (H0 Ha). cbn. apply seen_touch_new. exact HmeT.
    - intros a Ha. rewrite (H0 Ha). unfold K, hbk, mo. cbn. apply le_n.
    - intros a t Ha Ht. rewrite (H0 Ha). unfold mo. cbn [s s_newc get_store at_stores nth st_mo].
      pose proof (Hbclk Hme Ht) as Hb. rewrite Hc0 in Hb. exact Hb.
    - intros a t Ha Ht. rewrite (H0 Ha). cbn [s s_newc get_store at_stores nth st_sync].
      unfold sync_store. cbn [ord_rel]. rewrite !vv_get_join, vv_new_get.
      pose proof (Hbclk Hme Ht) as Hb. rewrite Hc0 in Hb. lia.
    - exact Hbclk.
    - intros a b Ha Hb _. rewrite (H0 Ha), (H0 Hb). apply vle_refl.
    - intros a b Ha Hb Hne. rewrite (H0 Ha), (H0 Hb) in Hne. lia.
  Qed.

  Lemma new_stamp : StampO s cs.
  Proof.
    constructor.
    - intros a u w Ha Hn'. rewrite (H0 Ha) in Hn'. cbn [s s_newc get_store at_stores nth st_seen] in Hn'.
      apply seen_touch_inv in Hn'. destruct Hn' as [Hx|[Hu Hw]].
      + exfalso. apply (proj2 (seen_new_nth u) w Hx).
      + subst u w. rewrite Hc0. apply le_n.
    - intros a Ha. rewrite (H0 Ha). cbn [s s_newc get_store at_stores nth st_seen].
      rewrite seen_touch_length. unfold seen_new. apply repeat_length.
  Qed.
End NewCell.

Lemma minit_clocks : forall n, 1 <= n -> n <= MAX_THREADS ->
  0 < length (repeat c_init n) /\ length (repeat c_init n) <= MAX_THREADS /\
  clk (repeat c_init n) 0 = c_init /\
  (1 <= vv_get c_init 0 \/ forall q, vv_get c_init q = 0) /\
  (forall t, t < length (repeat c_init n) -> t < length (clk (repeat c_init n) t)) /\
  (forall u t, u < length (repeat c_init n) -> t < length (repeat c_init n) ->
     vv_get (clk (repeat c_init n) u) t <= vv_get (clk (repeat c_init n) t) t).
Proof.
  intros n H1 H5. rewrite repeat_length.
  split; [lia|]. split; [exact H5|]. split; [apply clk_repeat; lia|]. split; [left; cbn; lia|]. split.
  - intros t Ht. rewrite (clk_repeat _ Ht). unfold MAX_THREADS in H5. cbn. lia.
  - intros u t Hu Ht. rewrite (clk_repeat _ Hu), (clk_repeat _ Ht). apply le_n.
Qed.

Theorem minit_inv : forall n v0 st,
  1 <= n -> n <= MAX_THREADS -> minit n v0 = Some st -> Inv st.
Proof.
  intros n v0 st Hn1 Hn5 Hm. rewrite minit_eq in Hm. inversion Hm as [Hst]. clear Hm Hst.
  destruct (minit_clocks Hn1 Hn5) as [A [B [C [D [E F]]]]].
  exists (fun _ => 0). apply (@new_inv 0 c_init v0 _ A B C D E F).
Qed.

(* reachable states of the c0421c4 machine *)
Definition reach_c0421c4 (st : mstate) : Prop :=
  exists n v0 st0 evs, 1 <= n /\ n <= MAX_THREADS /\ minit n v0 = Some st0 /\
                       mrun RC0421 st0 evs = Some st.

Theorem reach_inv_c0421c4 : forall st, reach_c0421c4 st -> Inv st.
Proof.
  intros st [n [v0 [st0 [evs [H1 [H5 [Hi Hr]]]]]]].
  apply (@mrun_inv_c0421c4 evs st0 st (@minit_inv n v0 st0 H1 H5 Hi) Hr).
Qed.

(* ================================================================== *)
(* 10. theorems on the runs of the c0421c4 machine (tr = RC0421)         *)

(* ---- the assertion `mo_i != mo_j` never fires ---- *)
Theorem mlts_never_none_inv_c0421c4 : forall st t c ly o,
  Inv st -> match_load_to_stores (fst st) t c ly o <> None.
Proof.
  intros [s cs] t c ly o [own HI] Hn. cbn [fst snd] in *.
  apply load_candidates_none in Hn. destruct Hn as [i [j [_ [Hi [_ [Hj [Hne He]]]]]]].
  pose proof (live_mo_distinct HI Hi Hj Hne) as Hd. unfold mo in Hd. rewrite Hd in He. discriminate.
Qed.

Theorem mrts_never_none_inv_c0421c4 : forall st, Inv st -> match_rmw_to_stores (fst st) <> None.
Proof.
  intros [s cs] [own HI] Hn. cbn [fst snd] in *.
  apply rmw_candidates_none in Hn. destruct Hn as [i [j [_ [Hi [_ [Hj [Hne He]]]]]]].
  pose proof (live_mo_distinct HI Hi Hj Hne) as Hd. unfold mo in Hd. rewrite Hd in He. discriminate.
Qed.

Theorem mlts_never_none_c0421c4 : forall st, reach_c0421c4 st ->
  (forall t c ly o, match_load_to_stores (fst st) t c ly o <> None) /\
  match_rmw_to_stores (fst st) <> None.
Proof.
  intros st Hr. pose proof (reach_inv_c0421c4 Hr) as HI. split.
  - intros t c ly o. apply mlts_never_none_inv_c0421c4. exact HI.
  - apply mrts_never_none_inv_c0421c4. exact HI.
Qed.

(* ---- the strict order on live stores only grows; knowledge only grows ---- *)
Theorem step_stable_c0421c4 : forall st t op st' a b,
  Inv st -> mstep RC0421 st t op = Some st' ->
  lives st a -> lives st b -> mo_lt st a b = true ->
  lives st' a /\ lives st' b /\ mo_lt st' a b = true.
Proof.
  intros [s cs] t op [s' cs'] a b [own HI] Hstep Ha Hb Hlt.
  destruct (mstep_ext_c0421c4 _ _ HI Hstep) as [own' [HI' [Hext _]]].
  apply (ext_stable HI HI' Hext Ha Hb Hlt).
Qed.

Theorem step_knows_c0421c4 : forall st t op st' u i,
  Inv st -> mstep RC0421 st t op = Some st' ->
  lives st i -> knows st u i -> lives st' i /\ knows st' u i.
Proof.
  intros [s cs] t op [s' cs'] u i [own HI] Hstep Hi Hk.
  destruct (mstep_ext_c0421c4 _ _ HI Hstep) as [own' [_ [Hext [_ [Hg _]]]]].
  apply (@ext_knows own s cs own' s' cs' u i Hext Hg Hi Hk).
Qed.

Theorem run_stable_c0421c4 : forall evs st st' a b,
  Inv st -> mrun RC0421 st evs = Some st' ->
  lives st a -> lives st b -> mo_lt st a b = true ->
  lives st' a /\ lives st' b /\ mo_lt st' a b = true.
Proof. exact (@mrun_stable RC0421 Inv mstep_inv_c0421c4 step_stable_c0421c4). Qed.

Theorem run_knows_c0421c4 : forall evs st st' u i,
  Inv st -> mrun RC0421 st evs = Some st' ->
  lives st i -> knows st u i -> lives st' i /\ knows st' u i.
Proof. exact (@mrun_knows RC0421 Inv mstep_inv_c0421c4 step_knows_c0421c4). Qed.

Lemma load_refused : forall tr own s cs t i j o,
  InvO own s cs -> j < at_cnt s -> vv_lt (mo s i) (mo s j) = true ->
  is_seen_by_current (st_seen (get_store s j)) (clk cs t) = true ->
  mstep tr (s, cs) t (XLoad i o) = None.
Proof.
  intros tr own s cs t i j o HI Hj Hlt Hk.
  unfold mstep. destruct (negb (Nat.ltb t (length cs))); [reflexivity|].
  destruct (match_load_to_stores s t (vv_inc (clk cs t) t) None o) as [l|] eqn:Hm; [|reflexivity].
  destruct (existsb (Nat.eqb i) l) eqn:He; [|reflexivity].
  exfalso. apply existsb_eqb_In in He.
  assert (Hj7 : j < MAX_ATOMIC_HISTORY) by (pose proof (i_cnt7 HI); lia).
  apply (coherence_write_read _ _ _ _ _ _ _ _ Hm Hj7 Hj Hlt); [|exact He].
  apply (seen_clock_mono _ _ _ (vle_inc (clk cs t) t) Hk).
Qed.

Lemma rmw_refused : forall tr own s cs t i j f so fo,
  InvO own s cs -> j < at_cnt s -> vv_lt (mo s i) (mo s j) = true ->
  mstep tr (s, cs) t (XRmw i f so fo) = None.
Proof.
  intros tr own s cs t i j f so fo HI Hj Hlt.
  unfold mstep. destruct (negb (Nat.ltb t (length cs))); [reflexivity|].
  destruct (Nat.leb MAX_ATOMIC_HISTORY (at_cnt s)); [reflexivity|].
  destruct (match_rmw_to_stores s) as [l|] eqn:Hm; [|reflexivity].
  destruct (existsb (Nat.eqb i) l) eqn:He; [|reflexivity].
  exfalso. apply existsb_eqb_In in He. apply (rmw_candidates_spec _ _ Hm i) in He.
  destruct He as [_ [_ Hall]].
  assert (Hj7 : j < MAX_ATOMIC_HISTORY) by (pose proof (i_cnt7 HI); lia).
  assert (Hne : j <> i) by (intros Heq; subst j; rewrite vv_lt_irrefl in Hlt; discriminate).
  unfold mo in Hlt. rewrite (Hall j Hj7 Hj Hne) in Hlt. discriminate.
Qed.

(* ---- CoRR / CoWR, happens-before version ----
   If at some point thread t knows store j (it read it, wrote it, or an access
   of it happens-before t) and i is mo-before j at that point, then after ANY
   further steps of any threads t can neither load nor RMW store i. *)
Theorem CoRR_CoWR_c0421c4 : forall st1 evs st2 t i j o,
  Inv st1 -> lives st1 i -> lives st1 j -> knows st1 t j -> mo_lt st1 i j = true ->
  mrun RC0421 st1 evs = Some st2 ->
  mstep RC0421 st2 t (XLoad i o) = None.
Proof.
  intros st1 evs st2 t i j o HI Hi Hj Hk Hlt Hrun.
  destruct (@run_stable_c0421c4 evs st1 st2 i j HI Hrun Hi Hj Hlt) as [_ [Hj2 Hlt2]].
  destruct (@run_knows_c0421c4 evs st1 st2 t j HI Hrun Hj Hk) as [_ Hk2].
  destruct (@mrun_inv_c0421c4 evs st1 st2 HI Hrun) as [own HI2]. destruct st2 as [s cs].
  apply (@load_refused RC0421 own s cs t i j o HI2 Hj2 Hlt2 Hk2).
Qed.

Theorem CoRR_CoWR_rmw_c0421c4 : forall st1 evs st2 t i j f so fo,
  Inv st1 -> lives st1 i -> lives st1 j -> mo_lt st1 i j = true ->
  mrun RC0421 st1 evs = Some st2 ->
  mstep RC0421 st2 t (XRmw i f so fo) = None.
Proof.
  intros st1 evs st2 t i j f so fo HI Hi Hj Hlt Hrun.
  destruct (@run_stable_c0421c4 evs st1 st2 i j HI Hrun Hi Hj Hlt) as [_ [Hj2 Hlt2]].
  destruct (@mrun_inv_c0421c4 evs st1 st2 HI Hrun) as [own HI2]. destruct st2 as [s cs].
  apply (@rmw_refused RC0421 own s cs t i j f so fo HI2 Hj2 Hlt2).
Qed.

(* ---- CoWW / CoRW ----
   A new store is strictly mo-after every store its thread knows (has read,
   has written, or that happens-before it); by [run_stable_c0421c4] it stays so. *)
Theorem CoWW_CoRW_c0421c4 : forall st t v o st' i,
  Inv st -> lives st i -> knows st t i ->
  mstep RC0421 st t (XStore v o) = Some st' ->
  lives st' (at_cnt (fst st)) /\ mo_lt st' i (at_cnt (fst st)) = true.
Proof.
  intros [s cs] t v o st' i [own HI] Hi Hk Hstep.
  unfold lives, knows in *. cbn [fst snd] in *.
  unfold mstep in Hstep.
  destruct (Nat.ltb_spec t (length cs)) as [Ht|Ht]; cbn [negb] in Hstep; [|discriminate].
  destruct (Nat.leb_spec MAX_ATOMIC_HISTORY (at_cnt s)) as [Hfull|Hroom]; [discriminate|].
  set (c := vv_inc (clk cs t) t) in *.
  destruct (track_store s c) as [s1y|py] eqn:Htsy; [|discriminate]. apply track_store_inl in Htsy. subst s1y.
  inversion Hstep as [Hst]. clear Hstep Hst. cbn [fst]. unfold atomic_store.
  split; [change (at_cnt s < S (at_cnt s)); lia|].
  assert (Hsync0 : forall u, u < length cs -> vv_get vv_new u <= vv_get (clk (list_set cs t c) u) u).
  { intros u Hu. rewrite vv_new_get. lia. }
  apply (@store_phase_after_seen own (ts_state s c) cs t c vv_new v o None vv_new (InvO_ts c HI) Ht Hroom
           (sf_le cs t) (sf_fr HI Ht) (sf_len HI Ht) (sf_oth HI Ht) Hsync0 (vle_new _) i Hi).
  apply (seen_clock_mono _ _ _ (vle_inc (clk cs t) t) Hk).
Qed.

(* how a thread comes to know a store: its own store ... *)
Theorem store_knows_c0421c4 : forall st t v o st',
  Inv st -> mstep RC0421 st t (XStore v o) = Some st' ->
  lives st' (at_cnt (fst st)) /\ knows st' t (at_cnt (fst st)).
Proof.
  intros [s cs] t v o st' [own HI] Hstep. unfold lives, knows. cbn [fst snd] in *.
  unfold mstep in Hstep.
  destruct (Nat.ltb_spec t (length cs)) as [Ht|Ht]; cbn [negb] in Hstep; [|discriminate].
  destruct (Nat.leb_spec MAX_ATOMIC_HISTORY (at_cnt s)) as [Hfull|Hroom]; [discriminate|].
  set (c := vv_inc (clk cs t) t) in *.
  destruct (track_store s c) as [s1y|py] eqn:Htsy; [|discriminate]. apply track_store_inl in Htsy. subst s1y.
  inversion Hstep as [Hst]. clear Hstep Hst. cbn [fst snd].
  split; [change (at_cnt s < S (at_cnt s)); lia|].
  unfold atomic_store, atomic_store_from.
  cbv zeta. rewrite (aindex_small (Hroom : at_cnt (ts_state s c) < MAX_ATOMIC_HISTORY)).
  rewrite get_store_set by (change (at_stores (ts_state s c)) with (at_stores s); rewrite (i_len HI); exact Hroom).
  change (at_cnt (ts_state s c)) with (at_cnt s). rewrite Nat.eqb_refl. cbn [st_seen].
  eapply (@is_seen_by_current_hit _ t).
  - apply seen_touch_new. pose proof (i_nthr HI). lia.
  - rewrite (clk_set cs t c t Ht), Nat.eqb_refl. apply le_n.
Qed.

(* ... and any synchronisation edge u -> t *)
Theorem sync_knows_c0421c4 : forall st t u st' i,
  mstep RC0421 st t (XSync u) = Some st' -> knows st u i -> knows st' t i.
Proof.
  intros [s cs] t u st' i Hstep Hk. unfold knows in *. cbn [fst snd] in *.
  unfold mstep in Hstep.
  destruct (Nat.ltb_spec t (length cs)) as [Ht|Ht]; cbn [negb] in Hstep; [|discriminate].
  destruct (Nat.ltb u (length cs)); [|discriminate].
  inversion Hstep as [Hst]. clear Hstep Hst. cbn [fst snd].
  rewrite (clk_set cs t _ t Ht), Nat.eqb_refl.
  apply (seen_clock_mono _ _ _ (vle_join_r (clk cs t) (clk cs u)) Hk).
Qed.

(* ---- with the stamp bound st_seen[u] <= clock_u[u]: a load makes the loaded
   store known, so the same-thread versions need no [knows] hypothesis ---- *)
Definition Inv2 (st : mstate) : Prop := Inv st /\ StampO (fst st) (snd st).

Theorem mstep_inv2_c0421c4 : forall st t op st',
  Inv2 st -> mstep RC0421 st t op = Some st' -> Inv2 st'.
Proof.
  intros [s cs] t op [s' cs'] [[own HI] HS] Hstep. cbn [fst snd] in *.
  destruct (mstep_ext_c0421c4 _ _ HI Hstep) as [own' [HI' [_ [_ [_ HS']]]]].
  split; [exists own'; exact HI' | exact (HS' HS)].
Qed.

Theorem mrun_inv2_c0421c4 : forall evs st st',
  Inv2 st -> mrun RC0421 st evs = Some st' -> Inv2 st'.
Proof. exact (@mrun_keeps RC0421 Inv2 mstep_inv2_c0421c4). Qed.

Theorem minit_inv2 : forall n v0 st,
  1 <= n -> n <= MAX_THREADS -> minit n v0 = Some st -> Inv2 st.
Proof.
  intros n v0 st Hn1 Hn5 Hm. split; [apply (@minit_inv n v0 st Hn1 Hn5 Hm)|].
  rewrite minit_eq in Hm. inversion Hm as [Hst]. clear Hm Hst.
  destruct (minit_clocks Hn1 Hn5) as [_ [_ [C _]]]. apply (@new_stamp 0 c_init v0 _ C).
Qed.

Theorem reach_inv2_c0421c4 : forall st, reach_c0421c4 st -> Inv2 st.
Proof.
  intros st [n [v0 [st0 [evs [H1 [H5 [Hi Hr]]]]]]].
  apply (@mrun_inv2_c0421c4 evs st0 st (@minit_inv2 n v0 st0 H1 H5 Hi) Hr).
Qed.

Theorem load_knows_c0421c4 : forall st t i o st',
  Inv2 st -> mstep RC0421 st t (XLoad i o) = Some st' -> lives st' i /\ knows st' t i.
Proof.
  intros [s cs] t i o st' [[own HI] HS] Hstep. unfold lives, knows. cbn [fst snd] in *.
  destruct (mstep_load_inv (i_cnt7 HI) Hstep) as [Ht [Hidx [_ Hst]]]. subst st'. cbn [fst snd].
  split; [exact Hidx|].
  assert (H7 : i < MAX_ATOMIC_HISTORY) by (pose proof (i_cnt7 HI); lia).
  rewrite (@lp_seen own (tl_state s _) cs t _ i (InvO_tl _ HI) Hidx i H7), Nat.eqb_refl.
  rewrite (clk_set cs t _ t Ht), Nat.eqb_refl.
  apply (touch_knows _ HI HS Ht Hidx). apply sync_load_ge.
Qed.

(* CoRR, one thread's own two reads, any steps of any threads in between *)
Theorem CoRR_same_thread_c0421c4 : forall st0 t j o st1 evs st2 i o',
  Inv2 st0 -> mstep RC0421 st0 t (XLoad j o) = Some st1 ->
  lives st1 i -> mo_lt st1 i j = true ->
  mrun RC0421 st1 evs = Some st2 ->
  mstep RC0421 st2 t (XLoad i o') = None.
Proof.
  intros st0 t j o st1 evs st2 i o' HI Hs Hi Hlt Hrun.
  destruct (@load_knows_c0421c4 st0 t j o st1 HI Hs) as [Hj Hk].
  destruct (@mstep_inv2_c0421c4 st0 t (XLoad j o) st1 HI Hs) as [HI1 _].
  apply (@CoRR_CoWR_c0421c4 st1 evs st2 t i j o' HI1 Hi Hj Hk Hlt Hrun).
Qed.

(* CoWR: a thread never reads a store that was mo-before its own earlier store *)
Theorem CoWR_same_thread_c0421c4 : forall st0 t v o st1 evs st2 i o',
  Inv st0 -> mstep RC0421 st0 t (XStore v o) = Some st1 ->
  lives st1 i -> mo_lt st1 i (at_cnt (fst st0)) = true ->
  mrun RC0421 st1 evs = Some st2 ->
  mstep RC0421 st2 t (XLoad i o') = None.
Proof.
  intros st0 t v o st1 evs st2 i o' HI Hs Hi Hlt Hrun.
  destruct (@store_knows_c0421c4 st0 t v o st1 HI Hs) as [Hj Hk].
  pose proof (@mstep_inv_c0421c4 st0 t (XStore v o) st1 HI Hs) as HI1.
  apply (@CoRR_CoWR_c0421c4 st1 evs st2 t i (at_cnt (fst st0)) o' HI1 Hi Hj Hk Hlt Hrun).
Qed.

(* CoRW: a thread's store is mo-after every store it has read before *)
Theorem CoRW_same_thread_c0421c4 : forall st0 t j o st1 evs st2 v o' st3,
  Inv2 st0 -> mstep RC0421 st0 t (XLoad j o) = Some st1 ->
  mrun RC0421 st1 evs = Some st2 ->
  mstep RC0421 st2 t (XStore v o') = Some st3 ->
  mo_lt st3 j (at_cnt (fst st2)) = true.
Proof.
  intros st0 t j o st1 evs st2 v o' st3 HI Hs Hrun Hs3.
  destruct (@load_knows_c0421c4 st0 t j o st1 HI Hs) as [Hj Hk].
  destruct (@mstep_inv2_c0421c4 st0 t (XLoad j o) st1 HI Hs) as [HI1 _].
  destruct (@run_knows_c0421c4 evs st1 st2 t j HI1 Hrun Hj Hk) as [Hj2 Hk2].
  pose proof (@mrun_inv_c0421c4 evs st1 st2 HI1 Hrun) as HI2.
  apply (@CoWW_CoRW_c0421c4 st2 t v o' st3 j HI2 Hj2 Hk2 Hs3).
Qed.

(* CoWW: a thread's later store is mo-after its earlier store *)
Theorem CoWW_same_thread_c0421c4 : forall st0 t v o st1 evs st2 v' o' st3,
  Inv st0 -> mstep RC0421 st0 t (XStore v o) = Some st1 ->
  mrun RC0421 st1 evs = Some st2 ->
  mstep RC0421 st2 t (XStore v' o') = Some st3 ->
  mo_lt st3 (at_cnt (fst st0)) (at_cnt (fst st2)) = true.
Proof.
  intros st0 t v o st1 evs st2 v' o' st3 HI Hs Hrun Hs3.
  destruct (@store_knows_c0421c4 st0 t v o st1 HI Hs) as [Hj Hk].
  pose proof (@mstep_inv_c0421c4 st0 t (XStore v o) st1 HI Hs) as HI1.
  destruct (@run_knows_c0421c4 evs st1 st2 t (at_cnt (fst st0)) HI1 Hrun Hj Hk) as [Hj2 Hk2].
  pose proof (@mrun_inv_c0421c4 evs st1 st2 HI1 Hrun) as HI2.
  apply (@CoWW_CoRW_c0421c4 st2 t v' o' st3 (at_cnt (fst st0)) HI2 Hj2 Hk2 Hs3).
Qed.


(* ================================================================== *)
(* 11. the HISTORICAL rule (tr = RBefore, apply_load_coherence before fix
       c0421c4): coherence was false                                    *)

Definition ok_step (tr : rule) (st : option mstate) (t : nat) (op : aop) : bool :=
  match st with Some s => is_some (mstep tr s t op) | None => false end.
Definition lt_in (st : option mstate) (i j : nat) : bool :=
  match st with Some s => mo_lt s i j | None => false end.
Definition knows_b (st : option mstate) (t i : nat) : bool :=
  match st with
  | Some (s, cs) => is_seen_by_current (st_seen (get_store s i)) (clk cs t)
  | None => false
  end.

(* Two threads.  T1: store 20 (slot 1); store 30 (slot 2).  T0: store 40
   (slot 3); load -> 20 (slot 1: allowed, T0 has not seen 30).  The load joins
   mo(40) into mo(20) in place: 20 <mo 30 is LOST, and T1, which wrote 30 after
   20, may now load its own older store 20 (CoWR violated; observed on the real
   loom as well). *)
Definition cex_pre : list (nat * aop) :=
  [(1, XStore 20 Relaxed); (1, XStore 30 Relaxed); (0, XStore 40 Relaxed)].
Definition cex : list (nat * aop) := cex_pre ++ [(0, XLoad 1 Relaxed)].

Lemma coherence_counterexample_before_fix :
  lt_in (mrun0 RBefore 2 cex_pre) 1 2 = true /\          (* 20 <mo 30 *)
  knows_b (mrun0 RBefore 2 cex_pre) 1 2 = true /\        (* T1 knows 30 *)
  ok_step RBefore (mrun0 RBefore 2 cex_pre) 1 (XLoad 1 Relaxed) = false /\ (* T1 may not read 20 *)
  lt_in (mrun0 RBefore 2 cex) 1 2 = false /\             (* after T0's load the edge is gone *)
  ok_step RBefore (mrun0 RBefore 2 cex) 1 (XLoad 1 Relaxed) = true /\     (* T1 reads 20 *)
  cands RBefore (mrun0 RBefore 2 cex) 1 Relaxed = Some [1; 2].
Proof. vm_compute. repeat split; reflexivity. Qed.

(* the c0421c4 rule keeps the edge and T1 can only read 30 *)
Lemma coherence_counterexample_repaired :
  lt_in (mrun0 RC0421 2 cex) 1 2 = true /\
  ok_step RC0421 (mrun0 RC0421 2 cex) 1 (XLoad 1 Relaxed) = false /\
  cands RC0421 (mrun0 RC0421 2 cex) 1 Relaxed = Some [2].
Proof. vm_compute. repeat split; reflexivity. Qed.

(* CoRR: T2 READS 30 (slot 2) and later reads 20 (slot 1) *)
Lemma corr_counterexample_before_fix :
  let pre := [(1, XStore 20 Relaxed); (1, XStore 30 Relaxed); (2, XLoad 2 Relaxed); (0, XStore 40 Relaxed)] in
  ok_step RBefore (mrun0 RBefore 3 pre) 2 (XLoad 1 Relaxed) = false /\
  ok_step RBefore (mrun0 RBefore 3 (pre ++ [(0, XLoad 1 Relaxed)])) 2 (XLoad 1 Relaxed) = true /\
  ok_step RC0421 (mrun0 RC0421 3 (pre ++ [(0, XLoad 1 Relaxed)])) 2 (XLoad 1 Relaxed) = false.
Proof. vm_compute. repeat split; reflexivity. Qed.

(* loom's `assert_ne!(mo_i, mo_j)` ("TODO: this sometimes fails") does fire:
   slots 1 (10, T1), 2 (20, T2), 3 (30, T2); T3 reads 10, 20; T0 reads 30, 10;
   T2 reads 20: now mo(10) = mo(20) and every later load panics *)
Definition cex_ne : list (nat * aop) :=
  [(1, XStore 10 Relaxed); (2, XStore 20 Relaxed); (2, XStore 30 Relaxed);
   (3, XLoad 1 Relaxed); (3, XLoad 2 Relaxed);
   (0, XLoad 3 Relaxed); (0, XLoad 1 Relaxed); (2, XLoad 2 Relaxed)].

Lemma assert_ne_counterexample_before_fix :
  is_some (mrun0 RBefore 4 cex_ne) = true /\
  cands RBefore (mrun0 RBefore 4 cex_ne) 0 Relaxed = None /\
  rcands (mrun0 RBefore 4 cex_ne) = None /\
  mrun0 RC0421 4 cex_ne = None.            (* the c0421c4 machine refuses the run *)
Proof. vm_compute. repeat split; reflexivity. Qed.

(* two RMWs read the same store (lost update, observed on the real loom):
   T1: store 10.  T2: store 20; fetch_add (reads 20, writes 21).
   T3: load 10; load 20; fetch_add -> reads 20 again *)
Definition cex_rmw : list (nat * aop) :=
  [(1, XStore 10 Relaxed); (2, XStore 20 Relaxed); (2, XRmw 2 inc1 Relaxed Relaxed);
   (3, XLoad 1 Relaxed); (3, XLoad 2 Relaxed)].

Lemma rmw_counterexample_before_fix :
  rcands (mrun0 RBefore 4 (firstn 3 cex_rmw)) = Some [1; 3] /\
  rcands (mrun0 RBefore 4 cex_rmw) = Some [2; 3] /\
  ok_step RBefore (mrun0 RBefore 4 cex_rmw) 3 (XRmw 2 inc1 Relaxed Relaxed) = true /\
  rcands (mrun0 RC0421 4 cex_rmw) = Some [3].
Proof. vm_compute. repeat split; reflexivity. Qed.

(* ---- sanity search: all sequences of stores, loads and RMWs of 4 threads,
   2 steps after the prefix; the historical rule loses an edge, the
   c0421c4 rule keeps all edges and never has two equal live clocks ---- *)
Example search_before_fix : search0 RBefore 4 pre3 2 = Some [(0, 0, 0); (0, 1, 2)].
Proof. vm_compute. reflexivity. Qed.

Lemma live_pairs_In : forall s i j, In (i, j) (live_pairs s) -> i < at_cnt s /\ j < at_cnt s.
Proof.
  intros s i j Hin. unfold live_pairs in Hin. apply in_flat_map in Hin.
  destruct Hin as [i' [Hi Hin]]. apply in_map_iff in Hin. destruct Hin as [j' [He Hj]].
  inversion He. subst i' j'. apply in_seq in Hi. apply in_seq in Hj. lia.
Qed.

Lemma first_some_none : forall (A B : Type) (f : A -> option B) l,
  (forall a, In a l -> f a = None) -> first_some f l = None.
Proof.
  intros A B f l. induction l as [|a l IH]; intros H; [reflexivity|].
  cbn [first_some]. rewrite (H a (or_introl eq_refl)). apply IH. intros b Hb. apply H. right. exact Hb.
Qed.

Lemma step_ok_good : forall st st',
  (forall i j, lives st i -> lives st j -> mo_lt st i j = true -> mo_lt st' i j = true) ->
  Inv st' -> step_ok st st' = true.
Proof.
  intros st st' Hstable [own HI]. unfold step_ok. apply andb_true_iff. split.
  - apply forallb_forall. intros [i j] Hin. apply live_pairs_In in Hin. destruct Hin as [Hi Hj].
    destruct (mo_lt st i j) eqn:Hlt; [|reflexivity]. rewrite (Hstable i j Hi Hj Hlt). reflexivity.
  - apply forallb_forall. intros [i j] Hin. apply live_pairs_In in Hin. destruct Hin as [Hi Hj].
    destruct (Nat.eqb_spec i j) as [He|Hne]; [reflexivity|].
    unfold mo_of. fold (mo (fst st') i) (mo (fst st') j).
    rewrite (live_mo_distinct HI Hi Hj Hne). reflexivity.
Qed.

Theorem search_clean_c0421c4 : forall n fuel st tr, Inv st -> search RC0421 n fuel st tr = None.
Proof.
  intros n fuel. induction fuel as [|f IH]; intros st tr HI; [reflexivity|].
  cbn [search]. apply first_some_none. intros [t op] _.
  destruct (mstep RC0421 st t op) as [st'|] eqn:Hs; [|reflexivity].
  pose proof (@mstep_inv_c0421c4 st t op st' HI Hs) as HI'.
  rewrite step_ok_good; [apply IH; exact HI' | | exact HI'].
  intros i j Hi Hj Hlt. apply (@step_stable_c0421c4 st t op st' i j HI Hs Hi Hj Hlt).
Qed.

Example search_repaired : search0 RC0421 4 pre3 2 = None.
Proof.
  unfold search0, mrun0. rewrite minit_eq.
  destruct (mrun RC0421 (s_newc 0 c_init 0, repeat c_init 4) pre3) as [st|] eqn:Hr;
    [|vm_compute in Hr; discriminate].
  apply search_clean_c0421c4.
  apply (@mrun_inv_c0421c4 pre3 _ st (@minit_inv 4 0%N _ ltac:(lia) ltac:(unfold MAX_THREADS; lia) (minit_eq 4 0)) Hr).
Qed.

(* ---- non-vacuity (c0421c4 machine, 3 threads): T1 stores 20 (slot 1) and
   synchronises with T2; a stale read of the initial store is forbidden for
   T2 and still allowed for T0 ---- *)
Example stale_read_example :
  let evs := [(1, XStore 20 Relaxed); (2, XSync 1)] in
  cands RC0421 (mrun0 RC0421 3 evs) 2 Relaxed = Some [1] /\
  cands RC0421 (mrun0 RC0421 3 evs) 0 Relaxed = Some [0; 1] /\
  knows_b (mrun0 RC0421 3 evs) 2 1 = true /\ knows_b (mrun0 RC0421 3 evs) 0 1 = false.
Proof. vm_compute. repeat split; reflexivity. Qed.

(* the gap of the c0421c4 rule (D19; also of the historical rule): loads can place a store mo-between an RMW's
   source and the RMW's write.  Slots: 1 = 10 (T1), 2 = 20 (T2), 3 = 21 (T2's
   fetch_add of 20).  T3 reads 20 then 10 (20 <mo 10); T0 reads 10 then 21
   (10 <mo 21). *)
Example rmw_gap_before_fix :
  let evs := [(1, XStore 10 Relaxed); (2, XStore 20 Relaxed); (2, XRmw 2 inc1 Relaxed Relaxed);
              (3, XLoad 2 Relaxed); (3, XLoad 1 Relaxed);
              (0, XLoad 1 Relaxed); (0, XLoad 3 Relaxed)] in
  lt_in (mrun0 RC0421 4 evs) 2 1 = true /\ lt_in (mrun0 RC0421 4 evs) 1 3 = true.
Proof. vm_compute. repeat split; reflexivity. Qed.

(* ================================================================== *)
(* 12. the MODEL's current functions (tr = RModel: c0421c4 rule followed by
       close_rmw_atomicity, the D19 fix)                                *)

(* ---- computed facts ---- *)
Definition gp : list (nat * aop) :=
  [(1, XStore 10 Relaxed); (2, XStore 20 Relaxed); (2, XRmw 2 inc1 Relaxed Relaxed)].
(* order A: T3 reads 20 then 10, T0 reads 10 and then wants 21 *)
Definition gapA := gp ++ [(3, XLoad 2 Relaxed); (3, XLoad 1 Relaxed); (0, XLoad 1 Relaxed)].
(* order B: T0 reads 10 then 21, T3 reads 20 and then wants 10 *)
Definition gapB := gp ++ [(0, XLoad 1 Relaxed); (0, XLoad 3 Relaxed); (3, XLoad 2 Relaxed)].

Lemma rmw_gap_refused :
  is_some (mrun0 RModel 4 gapA) = true /\
  ok_step RModel (mrun0 RModel 4 gapA) 0 (XLoad 3 Relaxed) = false /\
  lt_in (mrun0 RModel 4 gapA) 3 1 = true /\         (* I1 put 10 after 21 *)
  is_some (mrun0 RModel 4 gapB) = true /\
  ok_step RModel (mrun0 RModel 4 gapB) 3 (XLoad 1 Relaxed) = false /\
  lt_in (mrun0 RModel 4 gapB) 1 2 = true /\         (* I2 put 10 before 20 *)
  (* the c0421c4 rule accepts both *)
  ok_step RC0421 (mrun0 RC0421 4 gapA) 0 (XLoad 3 Relaxed) = true /\
  ok_step RC0421 (mrun0 RC0421 4 gapB) 3 (XLoad 1 Relaxed) = true.
Proof. vm_compute. repeat split; reflexivity. Qed.

(* the older counterexamples are refused by the model as well *)
Lemma model_refuses_old_counterexamples :
  ok_step RModel (mrun0 RModel 2 cex) 1 (XLoad 1 Relaxed) = false /\
  mrun0 RModel 4 cex_ne = None /\
  rcands (mrun0 RModel 4 cex_rmw) = Some [3].
Proof. vm_compute. repeat split; reflexivity. Qed.

(* ---- search with the full checker: 1 = a vv_lt edge between live stores is
   lost, 2 = two live stores have equal clocks, 3 = RMW atomicity is violated
   (an RMW store not after its live source, or a live store strictly
   mo-between them), 4 = the state is not closed under close_step ---- *)
Definition src_of (s : atomic_state) (r : nat) : option nat :=
  match st_rmw_src (get_store s r) with
  | Some (slot, sid) =>
      if Nat.ltb slot (at_cnt s) && negb (Nat.eqb slot r) && Nat.eqb (st_id (get_store s slot)) sid
      then Some slot else None
  | None => None
  end.

Definition atom_viol (s : atomic_state) : bool :=
  existsb (fun r => match src_of s r with
                    | None => false
                    | Some sr =>
                        negb (vv_lt (mo s sr) (mo s r)) ||
                        existsb (fun x => vv_lt (mo s sr) (mo s x) && vv_lt (mo s x) (mo s r))
                                (seq 0 (at_cnt s))
                    end) (seq 0 (at_cnt s)).

Definition closed_b (s : atomic_state) : bool :=
  let live := Nat.min (at_cnt s) MAX_ATOMIC_HISTORY in
  negb (snd (fold_left close_step (list_prod (seq 0 live) (seq 0 live)) (at_stores s, false))).

Definition step_chk (st st' : mstate) : nat :=
  if negb (forallb (fun p => let '(i, j) := p in
             implb (mo_lt st i j) (mo_lt st' i j)) (live_pairs (fst st))) then 1
  else if negb (forallb (fun p => let '(i, j) := p in
             Nat.eqb i j || negb (vv_eqb (mo_of st' i) (mo_of st' j))) (live_pairs (fst st'))) then 2
  else if atom_viol (fst st') then 3
  else if negb (closed_b (fst st')) then 4 else 0.

Fixpoint search_m (tr : rule) (n : nat) (fuel : nat) (st : mstate) (trace : list (nat * nat * nat))
  : option (nat * list (nat * nat * nat)) :=
  match fuel with
  | 0 => None
  | S f =>
      first_some
        (fun m => let '(t, op) := m in
           let code := match op with XStore _ _ => (t, 0, 0) | XLoad k _ => (t, 1, k)
                                | XRmw k _ _ _ => (t, 2, k) | XSync u => (t, 3, u) end in
           match mstep tr st t op with
           | None => None
           | Some st' => match step_chk st st' with
                         | 0 => search_m tr n f st' (code :: trace)
                         | e => Some (e, rev (code :: trace))
                         end
           end)
        (moves n)
  end.
Definition search_m0 tr n pre fuel :=
  match mrun0 tr n pre with Some st => search_m tr n fuel st [] | None => Some (99, []) end.

(* all stores, loads and RMWs of 4 threads, 4 steps after the prefix: under
   the c0421c4 rule the search first meets a state that is not closed
   (atomicity itself is violated in [rmw_gap_before_fix]); for the model it
   finds nothing, with any fuel ([search_m_clean], section 14) *)
Example search_closure_c0421c4 :
  search_m0 RC0421 4 gp 4 = Some (4, [(0, 0, 0); (0, 0, 0); (0, 0, 0); (0, 1, 3)]).
Proof. vm_compute. reflexivity. Qed.

(* ---- proved for the model's functions: on RMW-free runs the closure is the
   identity, the model's machine IS the c0421c4 machine, and every theorem of
   sections 8-10 holds for Atomic.atomic_load / atomic_store ---- *)
Definition no_src (stores : list astore) : Prop :=
  forall x, In x stores -> st_rmw_src x = None.

Lemma no_src_nth : forall stores r, no_src stores ->
  st_rmw_src (nth r stores store_default) = None.
Proof.
  intros stores r Hn. destruct (nth_in_or_default r stores store_default) as [Hin|Hd].
  - apply Hn. exact Hin.
  - rewrite Hd. reflexivity.
Qed.

Lemma close_step_no_src : forall stores ch ri, no_src stores ->
  close_step (stores, ch) ri = (stores, ch).
Proof.
  intros stores ch [r i] Hn. unfold close_step. rewrite (no_src_nth r Hn). reflexivity.
Qed.

Lemma close_fold_no_src : forall l stores ch, no_src stores ->
  fold_left close_step l (stores, ch) = (stores, ch).
Proof.
  induction l as [|ri l IH]; intros stores ch Hn; [reflexivity|].
  cbn [fold_left]. rewrite (close_step_no_src ch ri Hn). apply IH. exact Hn.
Qed.

Lemma close_no_src : forall fuel live stores, no_src stores ->
  close_rmw_atomicity fuel live stores = stores.
Proof.
  intros fuel live stores Hn. destruct fuel as [|f]; [reflexivity|].
  cbn [close_rmw_atomicity]. rewrite (close_fold_no_src _ false Hn). reflexivity.
Qed.

Lemma list_set_In : forall (A : Type) (l : list A) n y x,
  In x (list_set l n y) -> x = y \/ In x l.
Proof.
  intros A. induction l as [|h r IH]; intros n y x Hin; [contradiction|].
  destruct n as [|n]; cbn [list_set] in Hin.
  - destruct Hin as [H|H]; [left; symmetry; exact H | right; right; exact H].
  - destruct Hin as [H|H]; [right; left; exact H|].
    destruct (IH n y x H) as [H1|H1]; [left; exact H1 | right; right; exact H1].
Qed.

Lemma list_upd_In : forall (A : Type) (l : list A) n f x,
  In x (list_upd l n f) -> In x l \/ exists y, In y l /\ x = f y.
Proof.
  intros A l n f x Hin. unfold list_upd in Hin.
  destruct (nth_error l n) as [y|] eqn:Hn; [|left; exact Hin].
  apply list_set_In in Hin. destruct Hin as [H|H]; [|left; exact H].
  right. exists y. split; [apply (nth_error_In l n Hn) | exact H].
Qed.

Lemma mapi_from_In : forall (A B : Type) (g : nat -> A -> B) (l : list A) i x,
  In x (mapi_from i g l) -> exists k y, In y l /\ x = g k y.
Proof.
  intros A B g l. induction l as [|h r IH]; intros i x Hin; [contradiction|].
  cbn [mapi_from] in Hin. destruct Hin as [H|H].
  - exists i, h. split; [left; reflexivity | symmetry; exact H].
  - destruct (IH (S i) x H) as [k [y [Hy Hx]]]. exists k, y. split; [right; exact Hy | exact Hx].
Qed.

Lemma no_src_upd : forall stores n f,
  (forall y, st_rmw_src (f y) = st_rmw_src y) -> no_src stores -> no_src (list_upd stores n f).
Proof.
  intros stores n f Hf Hn x Hin. apply list_upd_In in Hin.
  destruct Hin as [H|[y [Hy Hx]]]; [apply Hn; exact H|].
  subst x. rewrite Hf. apply Hn. exact Hy.
Qed.

Lemma no_src_mapi : forall stores g,
  (forall k y, st_rmw_src (g k y) = st_rmw_src y) -> no_src stores -> no_src (mapi g stores).
Proof.
  intros stores g Hg Hn x Hin. unfold mapi in Hin. apply mapi_from_In in Hin.
  destruct Hin as [k [y [Hy Hx]]]. subst x. rewrite Hg. apply Hn. exact Hy.
Qed.

Lemma no_src_c0421c4 : forall s c idx,
  no_src (at_stores s) -> no_src (at_stores (alc_c0421c4 s c idx)).
Proof.
  intros s c idx Hn. rewrite alc_eq. cbn [at_stores at_set_stores].
  assert (H1 : no_src (list_upd (at_stores s) idx (fun x => st_set_mo x (alc_mo s c idx)))).
  { apply no_src_upd; [intros y; reflexivity | exact Hn]. }
  destruct (vv_eqb (alc_mo s c idx) (st_mo (get_store s idx))); [exact H1|].
  apply no_src_mapi; [|exact H1].
  intros k y. destruct (negb (Nat.eqb idx k) && vv_lt (st_mo (get_store s idx)) (st_mo y)); reflexivity.
Qed.

Lemma model_alc_no_src : forall s c idx,
  no_src (at_stores s) -> apply_load_coherence s c idx = alc_c0421c4 s c idx.
Proof.
  intros s c idx Hn. rewrite model_alc_eq.
  rewrite (close_no_src _ _ (@no_src_c0421c4 s c idx Hn)). reflexivity.
Qed.

Lemma track_load_stores : forall s c s1, track_load s c = inl s1 -> at_stores s1 = at_stores s.
Proof.
  intros s c s1 H. unfold track_load in H. destruct (at_mutating s); [discriminate|].
  destruct (vv_ahead c (at_unsync_mut s)); [discriminate|]. inversion H. reflexivity.
Qed.

Lemma track_store_stores : forall s c s1, track_store s c = inl s1 -> at_stores s1 = at_stores s.
Proof.
  intros s c s1 H. unfold track_store in H. destruct (at_mutating s); [discriminate|].
  destruct (vv_ahead c (at_unsync_mut s)); [discriminate|].
  destruct (vv_ahead c (at_unsync_loaded s)); [discriminate|]. inversion H. reflexivity.
Qed.

Definition rmw_free_op (op : aop) : Prop :=
  match op with XRmw _ _ _ _ => False | _ => True end.

Lemma mstep_model_eq : forall st t op,
  no_src (at_stores (fst st)) -> rmw_free_op op ->
  mstep RModel st t op = mstep RC0421 st t op /\
  forall st', mstep RC0421 st t op = Some st' -> no_src (at_stores (fst st')).
Proof.
  intros [s cs] t op Hn Hop. cbn [fst] in Hn.
  destruct op as [idx o|v o|idx f so fo|u]; [| | contradiction |].
  - (* load *)
    unfold mstep. destruct (negb (Nat.ltb t (length cs))); [split; [reflexivity | discriminate]|].
    destruct (match_load_to_stores s t (vv_inc (clk cs t) t) None o) as [l|];
      [|split; [reflexivity | discriminate]].
    destruct (existsb (Nat.eqb idx) l); [|split; [reflexivity | discriminate]].
    unfold atomic_load_g.
    destruct (track_load s (vv_inc (clk cs t) t)) as [s1|p] eqn:Htl; [|split; [reflexivity | discriminate]].
    assert (Hn1 : no_src (at_stores s1)) by (rewrite (track_load_stores _ _ Htl); exact Hn).
    assert (Heq : loadpart_g RModel s1 t (vv_inc (clk cs t) t) idx =
                  loadpart_g RC0421 s1 t (vv_inc (clk cs t) t) idx).
    { unfold loadpart_g, alc_g. rewrite (@model_alc_no_src s1 (vv_inc (clk cs t) t) idx Hn1). reflexivity. }
    cbv zeta. rewrite Heq. split; [reflexivity|].
    intros st' H. inversion H as [Hst]. cbn [fst].
    unfold loadpart_g, alc_g. cbn [at_stores at_set_stores].
    apply no_src_upd; [intros y; reflexivity|]. apply no_src_c0421c4. exact Hn1.
  - (* store *)
    split; [reflexivity|]. intros st' H. unfold mstep in H.
    destruct (negb (Nat.ltb t (length cs))); [discriminate|].
    destruct (Nat.leb MAX_ATOMIC_HISTORY (at_cnt s)); [discriminate|].
    destruct (track_store s (vv_inc (clk cs t) t)) as [s1|p] eqn:Hts; [|discriminate].
    inversion H as [Hst]. cbn [fst]. unfold atomic_store, atomic_store_from. cbv zeta.
    cbn [at_stores at_set_stores]. intros x Hin. apply list_set_In in Hin.
    destruct Hin as [Hx|Hx]; [subst x; reflexivity|].
    rewrite (track_store_stores _ _ Hts) in Hx. apply Hn. exact Hx.
  - (* sync *)
    split; [reflexivity|]. intros st' H. unfold mstep in H.
    destruct (negb (Nat.ltb t (length cs))); [discriminate|].
    destruct (Nat.ltb u (length cs)); [|discriminate]. inversion H. exact Hn.
Qed.

Definition rmw_free (evs : list (nat * aop)) : Prop :=
  forall e, In e evs -> rmw_free_op (snd e).

Theorem mrun_model_eq : forall evs st,
  no_src (at_stores (fst st)) -> rmw_free evs ->
  mrun RModel st evs = mrun RC0421 st evs.
Proof.
  induction evs as [|[t op] evs IH]; intros st Hn Hf; [reflexivity|].
  cbn [mrun].
  destruct (@mstep_model_eq st t op Hn (Hf (t, op) (or_introl eq_refl))) as [He Hp].
  rewrite He. destruct (mstep RC0421 st t op) as [st1|] eqn:Hs; [|reflexivity].
  apply IH; [apply (Hp st1 eq_refl) | intros e He'; apply Hf; right; exact He'].
Qed.

Lemma minit_no_src : forall n v0 st, minit n v0 = Some st -> no_src (at_stores (fst st)).
Proof.
  intros n v0 st Hm. rewrite minit_eq in Hm. inversion Hm as [Hst]. cbn [fst s_newc at_stores].
  intros x [Hx|Hx]; [subst x; reflexivity|]. apply repeat_spec in Hx. subst x. reflexivity.
Qed.

(* states the MODEL's machine reaches by RMW-free runs *)
Definition reach_model_rmw_free (st : mstate) : Prop :=
  exists n v0 st0 evs, 1 <= n /\ n <= MAX_THREADS /\ minit n v0 = Some st0 /\
                       rmw_free evs /\ mrun RModel st0 evs = Some st.

Theorem reach_model_rmw_free_c0421c4 : forall st,
  reach_model_rmw_free st -> reach_c0421c4 st.
Proof.
  intros st [n [v0 [st0 [evs [H1 [H5 [Hi [Hf Hr]]]]]]]].
  exists n, v0, st0, evs. repeat split; try assumption.
  rewrite <- (@mrun_model_eq evs st0 (@minit_no_src n v0 st0 Hi) Hf). exact Hr.
Qed.

(* e.g.: along RMW-free runs of the model's functions the invariants hold and
   assert_ne! never fires *)
Corollary model_rmw_free_inv : forall st, reach_model_rmw_free st ->
  Inv2 st /\
  (forall t c ly o, match_load_to_stores (fst st) t c ly o <> None) /\
  match_rmw_to_stores (fst st) <> None.
Proof.
  intros st Hr. apply reach_model_rmw_free_c0421c4 in Hr.
  split; [apply reach_inv2_c0421c4; exact Hr | apply mlts_never_none_c0421c4; exact Hr].
Qed.

(* ================================================================== *)
(* 13. the MODEL's machine on ALL runs: every step keeps the invariant GoodSc.
   The sweep [search_closure_clean] is a corollary (section 14), so the proof
   stands here; AtomicClosure.v, which can only come after this file, states
   the invariant again under the names the later files use (LinkO, Closed,
   GoodS, ...; here they carry the suffix c) and derives the theorems on runs. *)

(* ------------------------------------------------------------------ *)
(* 13.1 raise_mo on a state                                               *)

Definition with_storesc (s : atomic_state) (st : list astore) : atomic_state :=
  at_set_stores s st (at_cnt s).

Lemma mapi_nth7 : forall (g : nat -> astore -> astore) (l : list astore) k,
  k < length l -> nth k (mapi g l) store_default = g k (nth k l store_default).
Proof.
  intros g l k Hk. unfold mapi.
  rewrite (@mapi_from_nth astore astore g l 0 k store_default store_default Hk). reflexivity.
Qed.

Lemma raise_get : forall s a v k,
  k < length (at_stores s) ->
  get_store (with_storesc s (raise_mo (at_stores s) a v)) k =
    let M := vv_join (mo s a) v in
    if vv_eqb M (mo s a) then get_store s k
    else if Nat.eqb a k then st_set_mo (get_store s k) M
    else if vv_lt (mo s a) (mo s k) then st_set_mo (get_store s k) (vv_join (mo s k) M)
    else get_store s k.
Proof.
  intros s a v k Hk. cbv zeta. unfold with_storesc, get_store at 1. cbn [at_stores at_set_stores].
  unfold raise_mo. change (st_mo (nth a (at_stores s) store_default)) with (mo s a).
  destruct (vv_eqb (vv_join (mo s a) v) (mo s a)); [reflexivity|].
  rewrite (mapi_nth7 _ _ Hk). reflexivity.
Qed.

Lemma raise_length : forall st a v, length (raise_mo st a v) = length st.
Proof.
  intros st a v. unfold raise_mo.
  destruct (vv_eqb (vv_join (st_mo (nth a st store_default)) v) (st_mo (nth a st store_default)));
    [reflexivity | apply mapi_length].
Qed.

(* ------------------------------------------------------------------ *)
(* 13.2 "raise a above b" preserves InvO when a is not mo-before b          *)

Section Raise.
  Variable own : nat -> nat.
  Variable s : atomic_state.
  Variable cs : list vv.
  Variables a b : nat.
  Hypothesis HI : InvO own s cs.
  Hypothesis Ha : a < at_cnt s.
  Hypothesis Hb : b < at_cnt s.
  Hypothesis HnK : ~ K own s a b.

  Let s' := with_storesc s (raise_mo (at_stores s) a (mo s b)).
  Let C (k : nat) : Prop := K own s a k.

  Lemma rz7 : forall k, k < at_cnt s -> k < length (at_stores s).
  Proof. intros k Hk. rewrite (i_len HI). pose proof (i_cnt7 HI). lia. Qed.

  Lemma rz_get : forall k, k < length (at_stores s) ->
    get_store s' k =
      if vv_eqb (vv_join (mo s a) (mo s b)) (mo s a) then get_store s k
      else if Nat.eqb a k then st_set_mo (get_store s k) (vv_join (mo s a) (mo s b))
      else if vv_lt (mo s a) (mo s k)
           then st_set_mo (get_store s k) (vv_join (mo s k) (vv_join (mo s a) (mo s b)))
           else get_store s k.
  Proof. intros k Hk. apply (raise_get s a (mo s b) Hk). Qed.

  Lemma rz_over : forall k, length (at_stores s) <= k -> get_store s' k = get_store s k.
  Proof.
    intros k Hk. unfold get_store, s', with_storesc. cbn [at_stores at_set_stores].
    rewrite !nth_overflow; [reflexivity | exact Hk | rewrite raise_length; exact Hk].
  Qed.

  (* every field but st_mo is kept, in every slot *)
  Lemma rz_fields : forall k,
    st_hb (get_store s' k) = st_hb (get_store s k) /\
    st_seen (get_store s' k) = st_seen (get_store s k) /\
    st_sync (get_store s' k) = st_sync (get_store s k) /\
    st_value (get_store s' k) = st_value (get_store s k) /\
    st_id (get_store s' k) = st_id (get_store s k) /\
    st_rmw_src (get_store s' k) = st_rmw_src (get_store s k) /\
    st_seqcst (get_store s' k) = st_seqcst (get_store s k).
  Proof.
    intros k. destruct (Nat.lt_ge_cases k (length (at_stores s))) as [Hk|Hk].
    - rewrite (rz_get Hk).
      destruct (vv_eqb (vv_join (mo s a) (mo s b)) (mo s a)); [repeat split|].
      destruct (Nat.eqb a k); [repeat split|].
      destruct (vv_lt (mo s a) (mo s k)); repeat split.
    - rewrite (rz_over Hk). repeat split.
  Qed.

  Lemma rz_mo_notC : forall k, k < at_cnt s -> ~ C k -> mo s' k = mo s k.
  Proof.
    intros k Hk HC. unfold mo at 1. rewrite (rz_get (rz7 Hk)).
    destruct (vv_eqb (vv_join (mo s a) (mo s b)) (mo s a)); [reflexivity|].
    destruct (Nat.eqb_spec a k) as [Heq|Hne].
    - exfalso. apply HC. subst k. apply (i_hbmo HI Ha).
    - destruct (vv_lt (mo s a) (mo s k)) eqn:Hlt; [|reflexivity].
      exfalso. apply HC. apply (lt_iff_K_ne HI Ha Hk (fun e => Hne (eq_sym e))). exact Hlt.
  Qed.

  Lemma rz_mo_C : forall k, k < at_cnt s -> C k -> forall q,
    vv_get (mo s' k) q = Nat.max (vv_get (mo s k) q) (vv_get (mo s b) q).
  Proof.
    intros k Hk HC q. pose proof (i_star HI Ha Hk HC q) as Hak.
    unfold mo at 1. rewrite (rz_get (rz7 Hk)).
    destruct (vv_eqb (vv_join (mo s a) (mo s b)) (mo s a)) eqn:He.
    - rewrite vv_eqb_spec in He. specialize (He q). rewrite vv_get_join in He.
      fold (mo s k). lia.
    - destruct (Nat.eqb_spec a k) as [Heq|Hne].
      + subst k. cbn [st_mo st_set_mo]. rewrite vv_get_join. reflexivity.
      + destruct (vv_lt (mo s a) (mo s k)) eqn:Hlt.
        * cbn [st_mo st_set_mo]. rewrite !vv_get_join. lia.
        * exfalso. assert (Ht : vv_lt (mo s a) (mo s k) = true) by (apply (lt_iff_K_ne HI Ha Hk (fun e => Hne (eq_sym e))); exact HC).
          rewrite Ht in Hlt. discriminate.
  Qed.

  Lemma rz_dead : forall k, at_cnt s <= k -> get_store s' k = store_default.
  Proof.
    intros k Hk. assert (Hd : get_store s k = store_default) by (apply (i_dead HI); exact Hk).
    destruct (Nat.lt_ge_cases k (length (at_stores s))) as [H7|H7].
    - rewrite (rz_get H7).
      destruct (vv_eqb (vv_join (mo s a) (mo s b)) (mo s a)); [exact Hd|].
      destruct (Nat.eqb_spec a k) as [Heq|_]; [lia|].
      unfold mo at 2. rewrite Hd. cbn [st_mo store_default]. rewrite vv_lt_new_false. reflexivity.
    - rewrite (rz_over H7). exact Hd.
  Qed.

  Lemma rz_grow : forall k, vle (mo s k) (mo s' k).
  Proof.
    intros k. destruct (Nat.lt_ge_cases k (at_cnt s)) as [Hk|Hk].
    - apply (ra_grow s' (mo s b) Ha rz_mo_C rz_mo_notC Hk).
    - unfold mo. rewrite (rz_dead Hk), (i_dead HI Hk). apply vle_refl.
  Qed.

  Lemma rz_M : forall q,
    vv_get (mo s b) q = 0 \/ vv_get (mo s b) q = vv_get (mo s a) q \/
    exists z, z < at_cnt s /\ z = b /\ vle (mo s z) (mo s b) /\ vv_get (mo s b) q = vv_get (mo s z) q.
  Proof.
    intros q. right. right. exists b. split; [exact Hb|]. split; [reflexivity|].
    split; [apply vle_refl | reflexivity].
  Qed.

  (* the new order: the old one plus  x <= b  ->  x <= everything above a *)
  Lemma rz_K' : forall x y, x < at_cnt s -> y < at_cnt s ->
    (K own s' x y <-> K own s x y \/ (C y /\ K own s x b)).
  Proof.
    intros x y Hx Hy. pose proof (fun k (_ : k < at_cnt s) => proj1 (rz_fields k)) as Fhb. split.
    - intros HK.
      destruct (ra_K' (fun z => z = b) HI Ha Fhb rz_mo_C rz_mo_notC rz_M Hx Hy HK) as [H|[HC [z [_ [Hz [_ H]]]]]].
      + left. exact H.
      + subst z. right. split; [exact HC | exact H].
    - intros [H|[HC H]].
      + apply (ra_K_old s' (mo s b) Ha Fhb rz_mo_C rz_mo_notC Hx Hy H).
      + apply (ra_K_new s' Ha Fhb rz_mo_C Hx Hy HC (vle_refl (mo s b)) H).
  Qed.

  Lemma raise_inv : InvO own s' cs.
  Proof.
    apply (@ra_inv own s s' cs a (mo s b) (fun z => z = b) HI Ha
             (fun k _ => proj1 (rz_fields k)) rz_mo_C rz_mo_notC rz_M).
    - intros z _ Hz. subst z. exact HnK.
    - reflexivity.
    - reflexivity.
    - unfold s', with_storesc. cbn [at_stores at_set_stores]. apply raise_length.
    - exact rz_dead.
    - intros k _. destruct (rz_fields k) as [_ [_ [Hs _]]]. exact Hs.
    - intros k Hk. destruct (rz_fields k) as [_ [Hs _]]. rewrite Hs. apply (i_seen HI Hk).
  Qed.
End Raise.

(* ------------------------------------------------------------------ *)
(* 13.3 the semantic witness: a ranking of the live stores that extends the
      order and in which every RMW store immediately follows its source   *)

Record LinkOc (own : nat -> nat) (rk : nat -> nat) (s : atomic_state) : Prop := mkLinkOc {
  lk_idc : forall a, a < at_cnt s -> st_id (get_store s a) = a;
  lk_srcc : forall r sl sid, r < at_cnt s ->
     st_rmw_src (get_store s r) = Some (sl, sid) -> sl < r /\ sid = sl;
  lk_ordc : forall r sl sid, r < at_cnt s ->
     st_rmw_src (get_store s r) = Some (sl, sid) -> K own s sl r;
  ln_injc : forall a b, a < at_cnt s -> b < at_cnt s -> rk a = rk b -> a = b;
  ln_extc : forall a b, a < at_cnt s -> b < at_cnt s -> a <> b -> K own s a b -> rk a < rk b;
  ln_adjc : forall r sl sid x, r < at_cnt s ->
     st_rmw_src (get_store s r) = Some (sl, sid) -> x < at_cnt s ->
     ~ (rk sl < rk x /\ rk x < rk r)
}.

(* s' is s with some modification-order clocks enlarged *)
Definition Samec (s s' : atomic_state) : Prop :=
  at_cnt s' = at_cnt s /\
  forall k,
    st_hb (get_store s' k) = st_hb (get_store s k) /\
    st_seen (get_store s' k) = st_seen (get_store s k) /\
    st_sync (get_store s' k) = st_sync (get_store s k) /\
    st_value (get_store s' k) = st_value (get_store s k) /\
    st_id (get_store s' k) = st_id (get_store s k) /\
    st_rmw_src (get_store s' k) = st_rmw_src (get_store s k) /\
    st_seqcst (get_store s' k) = st_seqcst (get_store s k) /\
    vle (mo s k) (mo s' k).

Lemma Same_refl : forall s, Samec s s.
Proof. intros s. split; [reflexivity|]. intros k. repeat split. apply vle_refl. Qed.

Lemma Same_trans : forall s1 s2 s3, Samec s1 s2 -> Samec s2 s3 -> Samec s1 s3.
Proof.
  intros s1 s2 s3 [Hc1 H1] [Hc2 H2]. split; [congruence|]. intros k.
  destruct (H1 k) as [A1 [B1 [C1 [D1 [E1 [F1 [G1 I1]]]]]]].
  destruct (H2 k) as [A2 [B2 [C2 [D2 [E2 [F2 [G2 I2]]]]]]].
  repeat split; try congruence. eapply vle_trans; eassumption.
Qed.

(* atomicity is a consequence of the witness *)
Theorem witness_atomicity : forall own rk s cs r sl sid,
  InvO own s cs -> LinkOc own rk s -> r < at_cnt s ->
  st_rmw_src (get_store s r) = Some (sl, sid) ->
  sl < at_cnt s /\ vv_lt (mo s sl) (mo s r) = true /\
  forall x, x < at_cnt s ->
    vv_lt (mo s sl) (mo s x) && vv_lt (mo s x) (mo s r) = false.
Proof.
  intros own rk s cs r sl sid HI HL Hr Hsrc.
  destruct (lk_srcc HL Hr Hsrc) as [Hlt _]. assert (Hsl : sl < at_cnt s) by lia.
  split; [exact Hsl|]. split.
  - apply (lt_iff_K HI Hsl Hr). split; [lia | apply (lk_ordc HL Hr Hsrc)].
  - intros x Hx.
    destruct (vv_lt (mo s sl) (mo s x)) eqn:H1; [|reflexivity].
    destruct (vv_lt (mo s x) (mo s r)) eqn:H2; [|reflexivity].
    exfalso. apply (lt_iff_K HI Hsl Hx) in H1. apply (lt_iff_K HI Hx Hr) in H2.
    destruct H1 as [N1 K1]. destruct H2 as [N2 K2].
    apply (ln_adjc HL Hr Hsrc Hx). split; [apply (ln_extc HL Hsl Hx N1 K1) | apply (ln_extc HL Hx Hr N2 K2)].
Qed.

Lemma raise_link : forall own rk s cs a b,
  InvO own s cs -> LinkOc own rk s -> a < at_cnt s -> b < at_cnt s -> rk b < rk a ->
  let s' := with_storesc s (raise_mo (at_stores s) a (mo s b)) in
  InvO own s' cs /\ LinkOc own rk s' /\ Samec s s'.
Proof.
  intros own rk s cs a b HI HL Ha Hb Hrk s'.
  assert (HnK : ~ K own s a b).
  { intros HK. assert (Hne : a <> b) by (intros Heq; subst b; lia).
    pose proof (ln_extc HL Ha Hb Hne HK). lia. }
  pose proof (raise_inv HI Ha Hb HnK) as HI'. fold s' in HI'.
  assert (HF := fun k => rz_fields s a b k). fold s' in HF.
  split; [exact HI'|]. split.
  - constructor.
    + intros k Hk. destruct (HF k) as [_ [_ [_ [_ [Hid _]]]]]. rewrite Hid. apply (lk_idc HL Hk).
    + intros r sl sid Hr Hsrc. destruct (HF r) as [_ [_ [_ [_ [_ [Hs _]]]]]]. rewrite Hs in Hsrc.
      apply (lk_srcc HL Hr Hsrc).
    + intros r sl sid Hr Hsrc. destruct (HF r) as [_ [_ [_ [_ [_ [Hs _]]]]]]. rewrite Hs in Hsrc.
      destruct (lk_srcc HL Hr Hsrc) as [Hlt _]. change (r < at_cnt s) in Hr.
      assert (Hsl : sl < at_cnt s) by lia.
      apply (rz_K' HI Ha Hb Hsl Hr). left. apply (lk_ordc HL Hr Hsrc).
    + apply (ln_injc HL).
    + intros x y Hx Hy Hne HK. change (x < at_cnt s) in Hx. change (y < at_cnt s) in Hy.
      apply (rz_K' HI Ha Hb Hx Hy) in HK. cbv beta in HK. destruct HK as [HK|[HCy HKb]].
      * apply (ln_extc HL Hx Hy Hne HK).
      * assert (H1 : rk x <= rk b).
        { destruct (Nat.eq_dec x b) as [Heq|Hnb]; [subst x; lia|].
          pose proof (ln_extc HL Hx Hb Hnb HKb). lia. }
        assert (H2 : rk a <= rk y).
        { destruct (Nat.eq_dec a y) as [Heq|Hna]; [subst y; lia|].
          pose proof (ln_extc HL Ha Hy Hna HCy). lia. }
        lia.
    + intros r sl sid x Hr Hsrc Hx. destruct (HF r) as [_ [_ [_ [_ [_ [Hs _]]]]]]. rewrite Hs in Hsrc.
      apply (ln_adjc HL Hr Hsrc Hx).
  - split; [reflexivity|]. intros k. destruct (HF k) as [A [B [C [D [E [F G]]]]]].
    repeat split; try assumption. apply (rz_grow HI Ha Hb). 
Qed.

(* ------------------------------------------------------------------ *)
(* 13.4 what the closure's loop keeps: invariant, witness, and the state
      differs from the start only by larger st_mo                        *)

Definition PC (own rk : nat -> nat) (s : atomic_state) (cs : list vv) (st : list astore) : Prop :=
  InvO own (with_storesc s st) cs /\ LinkOc own rk (with_storesc s st) /\ Samec s (with_storesc s st).

Lemma vv_le_K : forall own s cs x y,
  InvO own s cs -> x < at_cnt s -> vv_le (mo s x) (mo s y) = true -> K own s x y.
Proof.
  intros own s cs x y HI Hx H. apply (@K_of_vle own s cs HI x y Hx). apply vv_le_spec. exact H.
Qed.

Lemma pairs_live : forall n r i, In (r, i) (list_prod (seq 0 n) (seq 0 n)) -> r < n /\ i < n.
Proof.
  intros n r i Hin. apply in_prod_iff in Hin. destruct Hin as [H1 H2].
  apply in_seq in H1. apply in_seq in H2. lia.
Qed.

Lemma with_stores_self : forall own rk s cs,
  InvO own s cs -> LinkOc own rk s -> PC own rk s cs (at_stores s).
Proof.
  intros own rk s cs HI HL.
  assert (He : with_storesc s (at_stores s) = s) by (destruct s; reflexivity).
  unfold PC. rewrite He. split; [exact HI|]. split; [exact HL | apply Same_refl].
Qed.

(* ------------------------------------------------------------------ *)
(* 13.5 closed states; the c0421c4 load step on a closed state has a witness *)

(* closed under the two rules of close_step *)
Definition Closedc (own : nat -> nat) (s : atomic_state) : Prop :=
  forall r sl sid x, r < at_cnt s -> st_rmw_src (get_store s r) = Some (sl, sid) ->
    x < at_cnt s -> x <> sl -> x <> r ->
    (K own s sl x -> K own s r x) /\ (K own s x r -> K own s x sl).

Definition pred_of (s : atomic_state) (a : nat) : nat :=
  match st_rmw_src (get_store s a) with Some (sl, _) => sl | None => a end.

Fixpoint hd (s : atomic_state) (k : nat) (a : nat) : nat :=
  match k with 0 => a | S k' => hd s k' (pred_of s a) end.

Fixpoint list_max' (l : list nat) : nat :=
  match l with [] => 0 | x :: r => Nat.max x (list_max' r) end.
Lemma list_max'_ge : forall l x, In x l -> x <= list_max' l.
Proof.
  induction l as [|y l IH]; intros x Hin; [contradiction|].
  cbn [list_max']. destruct Hin as [H|H]; [subst; lia | pose proof (IH x H); lia].
Qed.

Lemma list_max'_lt : forall rk n k, k < n -> rk k < S (list_max' (map rk (seq 0 n))).
Proof.
  intros rk n k Hk. apply Nat.lt_succ_r. apply list_max'_ge. apply in_map. apply in_seq. lia.
Qed.

Section LoadWitness.
  Variables own rk : nat -> nat.
  Variable s : atomic_state.
  Variable cs : list vv.
  Variables (t : nat) (c : vv) (idx : nat).
  Hypothesis HI : InvO own s cs.
  Hypothesis HL : LinkOc own rk s.
  Hypothesis HC : Closedc own s.
  Hypothesis Hidx : idx < at_cnt s.
  Hypothesis Hcand : forall x, x < at_cnt s -> x <> idx ->
    is_seen_by_current (st_seen (get_store s x)) c = true ->
    vv_lt (mo s idx) (mo s x) = false.

  Let sA := loadpart_g RC0421 s t c idx.
  Let h := hd s (at_cnt s) idx.
  Let N := S (list_max' (map rk (seq 0 (at_cnt s)))).
  Let upb (v : nat) : bool := Nat.leb (hbk own s h) (vv_get (mo s v) (own h)).
  Let rk' (v : nat) : nat := if upb v then N + rk v else rk v.

  Lemma lw_rk_lt : forall v, v < at_cnt s -> rk v < N.
  Proof. intros v Hv. apply list_max'_lt. exact Hv. Qed.

  Lemma lw_upb : forall v, upb v = true <-> K own s h v.
  Proof. intros v. unfold upb, K. apply Nat.leb_le. Qed.

  (* facts about the chain below idx *)
  Definition chainQ (a : nat) : Prop :=
    a < at_cnt s /\ K own s a idx /\
    forall z, z < at_cnt s -> ~ K own s z idx -> K own s a z -> K own s idx z.

  Lemma lw_pred : forall a, chainQ a -> chainQ (pred_of s a).
  Proof.
    intros a [Ha [Hai Hz]]. unfold pred_of.
    destruct (st_rmw_src (get_store s a)) as [[sl sid]|] eqn:Hsrc; [|split; [exact Ha | split; assumption]].
    destruct (lk_srcc HL Ha Hsrc) as [Hlt _]. assert (Hsl : sl < at_cnt s) by lia.
    pose proof (lk_ordc HL Ha Hsrc) as Hord.
    pose proof (K_trans HI Hsl Ha Hidx Hord Hai) as Hsi.
    split; [exact Hsl|]. split; [exact Hsi|].
    intros z Hzl Hnz Hslz. apply (Hz z Hzl Hnz).
    assert (Hne1 : z <> sl) by (intros e; subst z; contradiction).
    assert (Hne2 : z <> a) by (intros e; subst z; contradiction).
    destruct (HC Ha Hsrc Hzl Hne1 Hne2) as [H1 _]. apply H1. exact Hslz.
  Qed.

  Lemma lw_hd : forall k a, chainQ a -> chainQ (hd s k a).
  Proof.
    induction k as [|k IH]; intros a Hq; [exact Hq|]. cbn [hd]. apply IH. apply lw_pred. exact Hq.
  Qed.

  Lemma lw_hd_fix : forall k a, st_rmw_src (get_store s a) = None -> hd s k a = a.
  Proof.
    induction k as [|k IH]; intros a Hn; [reflexivity|]. cbn [hd]. unfold pred_of. rewrite Hn. apply IH. exact Hn.
  Qed.

  Lemma lw_hd_head : forall k a, a < at_cnt s -> a <= k -> st_rmw_src (get_store s (hd s k a)) = None.
  Proof.
    induction k as [|k IH]; intros a Ha Hk.
    - cbn [hd]. destruct (st_rmw_src (get_store s a)) as [[sl sid]|] eqn:Hsrc; [|reflexivity].
      destruct (lk_srcc HL Ha Hsrc). lia.
    - cbn [hd]. destruct (st_rmw_src (get_store s a)) as [[sl sid]|] eqn:Hsrc.
      + unfold pred_of. rewrite Hsrc. destruct (lk_srcc HL Ha Hsrc) as [Hlt _]. apply IH; lia.
      + unfold pred_of. rewrite Hsrc. rewrite (lw_hd_fix k a Hsrc). exact Hsrc.
  Qed.

  Lemma lw_h : chainQ h.
  Proof.
    apply lw_hd. split; [exact Hidx|]. split; [apply (i_hbmo HI Hidx)|]. intros z _ _ H. exact H.
  Qed.

  Lemma lw_h_head : st_rmw_src (get_store s h) = None.
  Proof. apply lw_hd_head; [exact Hidx | lia]. Qed.

  (* the up-set of h is a union of RMW blocks *)
  Lemma lw_block : forall r sl sid, r < at_cnt s -> st_rmw_src (get_store s r) = Some (sl, sid) ->
    (upb r = upb sl).
  Proof.
    intros r sl sid Hr Hsrc. destruct (lk_srcc HL Hr Hsrc) as [Hlt _].
    assert (Hsl : sl < at_cnt s) by lia. destruct lw_h as [Hh _].
    pose proof (lk_ordc HL Hr Hsrc) as Hord.
    destruct (upb sl) eqn:Hs.
    - apply lw_upb. apply lw_upb in Hs. apply (K_trans HI Hh Hsl Hr Hs Hord).
    - destruct (upb r) eqn:Hrr; [|reflexivity]. exfalso.
      apply lw_upb in Hrr.
      assert (Hne1 : h <> sl).
      { intros e. rewrite <- e in Hs. assert (upb h = true) by (apply lw_upb; apply (i_hbmo HI Hh)). congruence. }
      assert (Hne2 : h <> r) by (intros e; rewrite <- e in Hsrc; rewrite lw_h_head in Hsrc; discriminate).
      destruct (HC Hr Hsrc Hh Hne1 Hne2) as [_ H2]. apply H2 in Hrr.
      apply lw_upb in Hrr. congruence.
  Qed.

  Lemma lw_up_trans : forall x y, x < at_cnt s -> y < at_cnt s ->
    upb x = true -> K own s x y -> upb y = true.
  Proof.
    intros x y Hx Hy Hu HK. apply lw_upb. apply lw_upb in Hu. destruct lw_h as [Hh _].
    apply (K_trans HI Hh Hx Hy Hu HK).
  Qed.

  Lemma lw_K_old : forall x y, x < at_cnt s -> y < at_cnt s -> K own s x y -> K own sA x y.
  Proof.
    intros x y Hx Hy HK. pose proof (i_cnt7 HI) as H7. unfold K, sA.
    rewrite (@lp_hbk own s cs t c idx HI Hidx x ltac:(lia)).
    pose proof (@lp_grow own s cs t c idx HI Hidx y ltac:(lia) (own x)) as Hg.
    unfold K in HK. lia.
  Qed.

  Lemma lw_fields : forall k, k < at_cnt s ->
    st_id (get_store sA k) = st_id (get_store s k) /\
    st_rmw_src (get_store sA k) = st_rmw_src (get_store s k).
  Proof.
    intros k Hk. pose proof (i_cnt7 HI) as H7.
    apply (@lp_id_src own s cs t c idx HI Hidx k). lia.
  Qed.

  Lemma lw_ext : forall x y, x < at_cnt s -> y < at_cnt s -> x <> y ->
    K own sA x y -> rk' x < rk' y.
  Proof.
    intros x y Hx Hy Hne HK. unfold rk'.
    assert (Hold : K own s x y -> (if upb x then N + rk x else rk x) < (if upb y then N + rk y else rk y)).
    { intros HKo. pose proof (ln_extc HL Hx Hy Hne HKo) as Hlt.
      destruct (upb x) eqn:Hux.
      - rewrite (lw_up_trans Hx Hy Hux HKo). lia.
      - destruct (upb y); lia. }
    destruct (le_dec (hbk own s x) (vv_get (mo s y) (own x))) as [HKo|HnKo]; [apply Hold; exact HKo|].
    destruct (@lp_K' own s cs t c idx HI Hidx x y Hx Hy HK) as [HKo|[Hiy [z [Hz [[Hzi Hseen] [_ Hxz]]]]]];
      [apply Hold; exact HKo|].
    destruct lw_h as [Hh [Hhi Hchain]].
    assert (Huy : upb y = true) by (apply lw_upb; apply (K_trans HI Hh Hidx Hy Hhi Hiy)).
    rewrite Huy.
    destruct (upb x) eqn:Hux; [|pose proof (lw_rk_lt Hx); lia].
    exfalso. apply lw_upb in Hux.
    (* h <= x <= z, z seen, z not below idx (else x <= idx <= y) *)
    assert (Hnzi : ~ K own s z idx).
    { intros Hzidx. apply HnKo. apply (K_trans HI Hx Hidx Hy); [|exact Hiy].
      apply (K_trans HI Hx Hz Hidx Hxz Hzidx). }
    pose proof (K_trans HI Hh Hx Hz Hux Hxz) as Hhz.
    pose proof (Hchain z Hz Hnzi Hhz) as Hidz.
    apply (@lp_seen_notK own s cs c idx HI Hidx Hcand z Hz Hzi Hseen Hidz).
  Qed.

  Lemma load_witness : LinkOc own rk' sA.
  Proof.
    assert (Hcnt : at_cnt sA = at_cnt s) by reflexivity.
    constructor.
    - intros k Hk. rewrite Hcnt in Hk. destruct (lw_fields Hk) as [Hid _]. rewrite Hid. apply (lk_idc HL Hk).
    - intros r sl sid Hr Hsrc. rewrite Hcnt in Hr. destruct (lw_fields Hr) as [_ Hs]. rewrite Hs in Hsrc.
      apply (lk_srcc HL Hr Hsrc).
    - intros r sl sid Hr Hsrc. rewrite Hcnt in Hr. destruct (lw_fields Hr) as [_ Hs]. rewrite Hs in Hsrc.
      destruct (lk_srcc HL Hr Hsrc) as [Hlt _]. apply lw_K_old; [lia | exact Hr | apply (lk_ordc HL Hr Hsrc)].
    - intros x y Hx Hy He. rewrite Hcnt in Hx, Hy. unfold rk' in He.
      pose proof (lw_rk_lt Hx). pose proof (lw_rk_lt Hy).
      destruct (upb x); destruct (upb y); try lia; apply (ln_injc HL Hx Hy); lia.
    - intros x y Hx Hy. rewrite Hcnt in Hx, Hy. apply (lw_ext Hx Hy).
    - intros r sl sid x Hr Hsrc Hx. rewrite Hcnt in Hr, Hx. destruct (lw_fields Hr) as [_ Hs]. rewrite Hs in Hsrc.
      destruct (lk_srcc HL Hr Hsrc) as [Hlt _]. assert (Hsl : sl < at_cnt s) by lia.
      pose proof (ln_adjc HL Hr Hsrc Hx) as Hadj. pose proof (lw_block Hr Hsrc) as Hb.
      pose proof (lw_rk_lt Hx). pose proof (lw_rk_lt Hr). pose proof (lw_rk_lt Hsl).
      unfold rk'. rewrite Hb. destruct (upb sl); destruct (upb x); lia.
  Qed.
  (* if idx is mo-maximal, it is ranked last by the new witness *)
  Lemma lw_idx_last : (forall x, x < at_cnt s -> x <> idx -> ~ K own s idx x) ->
    forall v, v < at_cnt s -> rk' v <= rk' idx.
  Proof.
    intros Hmax v Hv. destruct lw_h as [Hh [Hhi Hchain]].
    assert (Hui : upb idx = true) by (apply lw_upb; exact Hhi).
    unfold rk'. rewrite Hui. destruct (upb v) eqn:Huv; [|pose proof (lw_rk_lt Hv); lia].
    apply lw_upb in Huv.
    assert (HKv : K own s v idx).
    { destruct (le_dec (hbk own s v) (vv_get (mo s idx) (own v))) as [H|H]; [exact H|].
      exfalso. pose proof (Hchain v Hv H Huv) as Hiv.
      destruct (Nat.eq_dec v idx) as [e|ne]; [subst v; apply H; apply (i_hbmo HI Hidx) | apply (Hmax v Hv ne Hiv)]. }
    destruct (Nat.eq_dec v idx) as [e|ne]; [subst v; lia|].
    pose proof (ln_extc HL Hv Hidx ne HKv). lia.
  Qed.
End LoadWitness.

(* ------------------------------------------------------------------ *)
(* 13.6 states with the same order ([Core]); states that differ only in the
      first-seen stamps of one slot ([SeenAt])                          *)

Definition Core (s1 s2 : atomic_state) : Prop :=
  at_cnt s2 = at_cnt s1 /\ at_mutating s2 = at_mutating s1 /\
  length (at_stores s2) = length (at_stores s1) /\
  forall k,
    st_hb (get_store s2 k) = st_hb (get_store s1 k) /\
    st_mo (get_store s2 k) = st_mo (get_store s1 k) /\
    st_sync (get_store s2 k) = st_sync (get_store s1 k) /\
    st_id (get_store s2 k) = st_id (get_store s1 k) /\
    st_rmw_src (get_store s2 k) = st_rmw_src (get_store s1 k).

Section CoreFacts.
  Variables s1 s2 : atomic_state.
  Hypothesis HC : Core s1 s2.

  Lemma sa_mo : forall k, mo s2 k = mo s1 k.
  Proof. intros k. destruct HC as [_ [_ [_ F]]]. apply (F k). Qed.
  Lemma sa_hb : forall k, st_hb (get_store s2 k) = st_hb (get_store s1 k).
  Proof. intros k. destruct HC as [_ [_ [_ F]]]. apply (F k). Qed.
  Lemma sa_sync : forall k, st_sync (get_store s2 k) = st_sync (get_store s1 k).
  Proof. intros k. destruct HC as [_ [_ [_ F]]]. apply (F k). Qed.
  Lemma sa_id : forall k, st_id (get_store s2 k) = st_id (get_store s1 k).
  Proof. intros k. destruct HC as [_ [_ [_ F]]]. apply (F k). Qed.
  Lemma sa_src : forall k, st_rmw_src (get_store s2 k) = st_rmw_src (get_store s1 k).
  Proof. intros k. destruct HC as [_ [_ [_ F]]]. apply (F k). Qed.
  Lemma sa_hbk : forall own k, hbk own s2 k = hbk own s1 k.
  Proof. intros own k. unfold hbk. rewrite sa_hb. reflexivity. Qed.
  Lemma sa_K : forall own x y, K own s2 x y <-> K own s1 x y.
  Proof. intros own x y. unfold K. rewrite sa_hbk, sa_mo. tauto. Qed.
  Lemma sa_cnt : at_cnt s2 = at_cnt s1.
  Proof. apply HC. Qed.

  Lemma Core_InvO : forall own cs,
    InvO own s1 cs ->
    (forall k, at_cnt s1 <= k -> get_store s2 k = get_store s1 k) ->
    (forall k, k < at_cnt s1 ->
       nth_error (st_seen (get_store s2 k)) (own k) = Some (Some (hbk own s1 k))) ->
    InvO own s2 cs.
  Proof.
    intros own cs HI Hdead Hseen.
    destruct HC as [A [B [E _]]].
    constructor.
    - rewrite E. apply (i_len HI).
    - rewrite A. apply (i_cnt1 HI).
    - rewrite A. apply (i_cnt7 HI).
    - rewrite B. apply (i_mut HI).
    - apply (i_nthr HI).
    - apply (i_clen HI).
    - intros k Hk. rewrite A in Hk. rewrite (Hdead k Hk). apply (i_dead HI Hk).
    - intros k Hk. rewrite A in Hk. apply (i_own HI Hk).
    - intros k Hk. rewrite A in Hk. rewrite sa_hbk, sa_mo. apply (i_key1 HI Hk).
    - intros k Hk. rewrite A in Hk. rewrite sa_hbk. apply (Hseen k Hk).
    - intros k Hk. rewrite A in Hk. apply sa_K. apply (i_hbmo HI Hk).
    - intros k u Hk Hu. rewrite A in Hk. rewrite sa_mo. apply (i_bmo HI Hk Hu).
    - intros k u Hk Hu. rewrite A in Hk. rewrite sa_sync. apply (i_bsync HI Hk Hu).
    - apply (i_bclk HI).
    - intros x y Hx Hy HK. rewrite A in Hx, Hy. rewrite !sa_mo. apply (i_star HI Hx Hy). apply sa_K. exact HK.
    - intros x y Hx Hy Hne H1 H2. rewrite A in Hx, Hy. apply (i_D HI Hx Hy Hne); apply sa_K; assumption.
  Qed.

  Lemma Core_LinkO : forall own rk, LinkOc own rk s1 -> LinkOc own rk s2.
  Proof.
    intros own rk HL. pose proof sa_cnt as A. constructor.
    - intros k Hk. rewrite A in Hk. rewrite sa_id. apply (lk_idc HL Hk).
    - intros r sl sid Hr Hsrc. rewrite A in Hr. rewrite sa_src in Hsrc. apply (lk_srcc HL Hr Hsrc).
    - intros r sl sid Hr Hsrc. rewrite A in Hr. rewrite sa_src in Hsrc. apply sa_K. apply (lk_ordc HL Hr Hsrc).
    - intros x y Hx Hy. rewrite A in Hx, Hy. apply (ln_injc HL Hx Hy).
    - intros x y Hx Hy Hne HK. rewrite A in Hx, Hy. apply (ln_extc HL Hx Hy Hne). apply sa_K. exact HK.
    - intros r sl sid x Hr Hsrc Hx. rewrite A in Hr, Hx. rewrite sa_src in Hsrc. apply (ln_adjc HL Hr Hsrc Hx).
  Qed.

  Lemma Core_Closed : forall own, Closedc own s1 -> Closedc own s2.
  Proof.
    intros own HCl r sl sid x Hr Hsrc Hx Hn1 Hn2. rewrite sa_cnt in Hr, Hx. rewrite sa_src in Hsrc.
    destruct (HCl r sl sid x Hr Hsrc Hx Hn1 Hn2) as [H1 H2].
    split; intros H; apply sa_K; [apply H1 | apply H2]; apply sa_K; exact H.
  Qed.
End CoreFacts.

Definition SeenAt (idx : nat) (s1 s2 : atomic_state) : Prop :=
  at_cnt s2 = at_cnt s1 /\ at_mutating s2 = at_mutating s1 /\
  at_unsync_mut s2 = at_unsync_mut s1 /\ at_unsync_loaded s2 = at_unsync_loaded s1 /\
  length (at_stores s2) = length (at_stores s1) /\
  (forall k, k <> idx -> get_store s2 k = get_store s1 k) /\
  st_hb (get_store s2 idx) = st_hb (get_store s1 idx) /\
  st_mo (get_store s2 idx) = st_mo (get_store s1 idx) /\
  st_sync (get_store s2 idx) = st_sync (get_store s1 idx) /\
  st_id (get_store s2 idx) = st_id (get_store s1 idx) /\
  st_rmw_src (get_store s2 idx) = st_rmw_src (get_store s1 idx).

Lemma SeenAt_sym : forall idx s1 s2, SeenAt idx s1 s2 -> SeenAt idx s2 s1.
Proof.
  intros idx s1 s2 [A [B [C [D [E [F [G [H [I [J L]]]]]]]]]].
  repeat split; try (symmetry; assumption). intros k Hk. symmetry. apply F. exact Hk.
Qed.

Lemma SeenAt_Core : forall idx s1 s2, SeenAt idx s1 s2 -> Core s1 s2.
Proof.
  intros idx s1 s2 [A [B [_ [_ [E [F [G [H [I [J L]]]]]]]]]].
  split; [exact A|]. split; [exact B|]. split; [exact E|]. intros k.
  destruct (Nat.eq_dec k idx) as [e|n]; [subst k; repeat split; assumption | rewrite (F k n); repeat split].
Qed.

Lemma SeenAt_InvO : forall idx s1 s2 own cs,
  SeenAt idx s1 s2 -> InvO own s1 cs -> idx < at_cnt s1 ->
  nth_error (st_seen (get_store s2 idx)) (own idx) = Some (Some (hbk own s1 idx)) ->
  InvO own s2 cs.
Proof.
  intros idx s1 s2 own cs HS HI Hidx Hseen. pose proof HS as [_ [_ [_ [_ [_ [F _]]]]]].
  apply (Core_InvO (SeenAt_Core HS) HI).
  - intros k Hk. apply F. lia.
  - intros k Hk. destruct (Nat.eq_dec k idx) as [e|n]; [subst k; exact Hseen | rewrite (F k n); apply (i_seen HI Hk)].
Qed.

(* the seen-touch of a load *)
Definition touch (s : atomic_state) (idx me w : nat) : atomic_state :=
  at_set_stores s
    (list_upd (at_stores s) idx (fun x => st_set_seen x (seen_touch (st_seen x) me w)))
    (at_cnt s).

Lemma touch_SeenAt : forall s idx me w, idx < length (at_stores s) -> SeenAt idx s (touch s idx me w).
Proof.
  intros s idx me w Hlen.
  assert (Hg : forall k, get_store (touch s idx me w) k =
            if Nat.eqb k idx then st_set_seen (get_store s idx) (seen_touch (st_seen (get_store s idx)) me w)
            else get_store s k).
  { intros k. unfold touch, get_store. cbn [at_stores at_set_stores].
    rewrite (@list_upd_nth astore (at_stores s) idx _ k store_default Hlen). reflexivity. }
  repeat split.
  - unfold touch. cbn [at_stores at_set_stores]. apply list_upd_length.
  - intros k Hk. rewrite Hg. destruct (Nat.eqb_spec k idx); [contradiction | reflexivity].
  - rewrite Hg, Nat.eqb_refl. reflexivity.
  - rewrite Hg, Nat.eqb_refl. reflexivity.
  - rewrite Hg, Nat.eqb_refl. reflexivity.
  - rewrite Hg, Nat.eqb_refl. reflexivity.
  - rewrite Hg, Nat.eqb_refl. reflexivity.
Qed.

Lemma touch_seen : forall s idx me w, idx < length (at_stores s) ->
  st_seen (get_store (touch s idx me w) idx) = seen_touch (st_seen (get_store s idx)) me w.
Proof.
  intros s idx me w Hlen. unfold touch, get_store. cbn [at_stores at_set_stores].
  rewrite (@list_upd_nth astore (at_stores s) idx _ idx store_default Hlen). rewrite Nat.eqb_refl. reflexivity.
Qed.

(* ------------------------------------------------------------------ *)
(* 13.7 the load part of the MODEL's atomic_load / atomic_rmw               *)

Lemma loadpart_model_touch : forall s t c idx,
  loadpart_g RModel s t c idx = touch (apply_load_coherence s c idx) idx t (vv_get c t).
Proof. reflexivity. Qed.
Lemma loadpart_c0421_touch : forall s t c idx,
  loadpart_g RC0421 s t c idx = touch (alc_c0421c4 s c idx) idx t (vv_get c t).
Proof. reflexivity. Qed.
Lemma model_alc_with : forall s c idx,
  apply_load_coherence s c idx =
  with_storesc (alc_c0421c4 s c idx)
    (close_rmw_atomicity (4 * MAX_ATOMIC_HISTORY)
       (Nat.min (at_cnt (alc_c0421c4 s c idx)) MAX_ATOMIC_HISTORY) (at_stores (alc_c0421c4 s c idx))).
Proof. reflexivity. Qed.

Lemma alcC_idx_fields : forall s c idx,
  length (at_stores s) = MAX_ATOMIC_HISTORY -> idx < MAX_ATOMIC_HISTORY ->
  st_seen (get_store (alc_c0421c4 s c idx) idx) = st_seen (get_store s idx) /\
  length (at_stores (alc_c0421c4 s c idx)) = MAX_ATOMIC_HISTORY.
Proof.
  intros s c idx Hlen Hidx. rewrite alc_eq. unfold get_store. cbn [at_stores at_set_stores].
  set (st1 := list_upd (at_stores s) idx (fun x => st_set_mo x (alc_mo s c idx))).
  assert (Hl1 : length st1 = MAX_ATOMIC_HISTORY) by (unfold st1; rewrite list_upd_length; exact Hlen).
  assert (Hg1 : nth idx st1 store_default = st_set_mo (nth idx (at_stores s) store_default) (alc_mo s c idx)).
  { unfold st1. rewrite (@list_upd_nth astore (at_stores s) idx _ idx store_default) by (rewrite Hlen; exact Hidx).
    rewrite Nat.eqb_refl. reflexivity. }
  destruct (vv_eqb (alc_mo s c idx) (st_mo (nth idx (at_stores s) store_default))).
  - split; [rewrite Hg1; reflexivity | exact Hl1].
  - split; [|rewrite mapi_length; exact Hl1].
    rewrite mapi_nth7 by (rewrite Hl1; exact Hidx). rewrite Nat.eqb_refl. cbn [negb andb].
    rewrite Hg1. reflexivity.
Qed.

(* ------------------------------------------------------------------ *)
(* 13.8 the fuel suffices: close_rmw_atomicity returns a CLOSED state       *)

Definition b2nc (b : bool) : nat := if b then 1 else 0.
Definition ltpairsc (n : nat) : list (nat * nat) :=
  filter (fun p => Nat.ltb (fst p) (snd p)) (list_prod (seq 0 n) (seq 0 n)).
Definition termc (s : atomic_state) (p : nat * nat) : nat :=
  b2nc (vv_le (mo s (fst p)) (mo s (snd p))) + b2nc (vv_le (mo s (snd p)) (mo s (fst p))).
Fixpoint sumfc (f : nat * nat -> nat) (l : list (nat * nat)) : nat :=
  match l with [] => 0 | p :: r => f p + sumfc f r end.
Definition muc (s : atomic_state) : nat := sumfc (termc s) (ltpairsc (at_cnt s)).

Lemma sumf_le : forall f g l, (forall p, In p l -> f p <= g p) -> sumfc f l <= sumfc g l.
Proof.
  intros f g l. induction l as [|p l IH]; intros H; [apply le_n|].
  cbn [sumfc]. pose proof (H p (or_introl eq_refl)). 
  assert (sumfc f l <= sumfc g l) by (apply IH; intros q Hq; apply H; right; exact Hq). lia.
Qed.

Lemma sumf_lt : forall f g l e, (forall p, In p l -> f p <= g p) -> In e l -> f e < g e ->
  sumfc f l < sumfc g l.
Proof.
  intros f g l e. induction l as [|p l IH]; intros H Hin Hlt; [contradiction|].
  cbn [sumfc]. pose proof (H p (or_introl eq_refl)) as Hp.
  assert (Hl : forall q, In q l -> f q <= g q) by (intros q Hq; apply H; right; exact Hq).
  destruct Hin as [He|Hin].
  - subst p. pose proof (sumf_le f g l Hl). lia.
  - pose proof (IH Hl Hin Hlt). lia.
Qed.

Lemma sumf_bound : forall f l, (forall p, In p l -> f p <= 1) -> sumfc f l <= length l.
Proof.
  intros f l. induction l as [|p l IH]; intros H; [apply le_n|].
  cbn [sumfc length]. pose proof (H p (or_introl eq_refl)).
  assert (sumfc f l <= length l) by (apply IH; intros q Hq; apply H; right; exact Hq). lia.
Qed.

Lemma ltpairs_In : forall n a b, In (a, b) (ltpairsc n) <-> (a < b /\ b < n).
Proof.
  intros n a b. unfold ltpairsc. rewrite filter_In, in_prod_iff, !in_seq. cbn [fst snd].
  rewrite Nat.ltb_lt. lia.
Qed.

Lemma ltpairs_len : forall n, n <= MAX_ATOMIC_HISTORY -> length (ltpairsc n) <= 21.
Proof.
  intros n Hn. unfold MAX_ATOMIC_HISTORY in Hn.
  do 8 (destruct n as [|n]; [vm_compute; lia|]). lia.
Qed.

Lemma vv_le_iff_K : forall own s cs x y, InvO own s cs -> x < at_cnt s -> y < at_cnt s ->
  (vv_le (mo s x) (mo s y) = true <-> K own s x y).
Proof.
  intros own s cs x y HI Hx Hy. split.
  - apply (@vv_le_K own s cs x y HI Hx).
  - intros HK. apply vv_le_spec. apply (i_star HI Hx Hy HK).
Qed.

Lemma mu_le : forall own s cs, InvO own s cs -> muc s <= 21.
Proof.
  intros own s cs HI. unfold muc.
  eapply Nat.le_trans; [|apply (ltpairs_len (i_cnt7 HI))].
  apply sumf_bound. intros [a b] Hin. apply ltpairs_In in Hin. destruct Hin as [Hab Hb].
  assert (Ha : a < at_cnt s) by lia. unfold termc. cbn [fst snd].
  destruct (vv_le (mo s a) (mo s b)) eqn:H1; destruct (vv_le (mo s b) (mo s a)) eqn:H2; cbn [b2nc]; try lia.
  exfalso. apply (vv_le_iff_K HI Ha Hb) in H1. apply (vv_le_iff_K HI Hb Ha) in H2.
  apply (i_D HI Ha Hb ltac:(lia) H1 H2).
Qed.

(* K only grows from s1 to s2 *)
Definition Kgrowc (own : nat -> nat) (s1 s2 : atomic_state) : Prop :=
  at_cnt s2 = at_cnt s1 /\
  forall x y, x < at_cnt s1 -> y < at_cnt s1 -> K own s1 x y -> K own s2 x y.

Lemma Same_Kgrow : forall own s1 s2, Samec s1 s2 -> Kgrowc own s1 s2.
Proof.
  intros own s1 s2 [Hc Hk]. split; [exact Hc|]. intros x y _ _ HK. unfold K, hbk in *.
  destruct (Hk x) as [Hhb _]. destruct (Hk y) as [_ [_ [_ [_ [_ [_ [_ Hg]]]]]]].
  rewrite Hhb. specialize (Hg (own x)). lia.
Qed.

Lemma le_mono : forall own s1 s2 cs x y,
  InvO own s1 cs -> InvO own s2 cs -> Kgrowc own s1 s2 -> x < at_cnt s1 -> y < at_cnt s1 ->
  b2nc (vv_le (mo s1 x) (mo s1 y)) <= b2nc (vv_le (mo s2 x) (mo s2 y)).
Proof.
  intros own s1 s2 cs x y H1 H2 [Hc HK] Hx Hy.
  destruct (vv_le (mo s1 x) (mo s1 y)) eqn:E; [|cbn [b2nc]; lia].
  apply (vv_le_iff_K H1 Hx Hy) in E. apply (HK x y Hx Hy) in E.
  assert (Hx2 : x < at_cnt s2) by (rewrite Hc; exact Hx). assert (Hy2 : y < at_cnt s2) by (rewrite Hc; exact Hy).
  apply (vv_le_iff_K H2 Hx2 Hy2) in E. rewrite E. apply le_n.
Qed.

Lemma term_mono : forall own s1 s2 cs p,
  InvO own s1 cs -> InvO own s2 cs -> Kgrowc own s1 s2 -> In p (ltpairsc (at_cnt s1)) ->
  termc s1 p <= termc s2 p.
Proof.
  intros own s1 s2 cs [a b] H1 H2 [Hc HK] Hin. apply ltpairs_In in Hin. destruct Hin as [Hab Hb].
  assert (Ha : a < at_cnt s1) by lia.
  unfold termc. cbn [fst snd].
  pose proof (@le_mono own s1 s2 cs a b H1 H2 (conj Hc HK) Ha Hb).
  pose proof (@le_mono own s1 s2 cs b a H1 H2 (conj Hc HK) Hb Ha). lia.
Qed.

Lemma mu_strict : forall own s1 s2 cs x y,
  InvO own s1 cs -> InvO own s2 cs -> Kgrowc own s1 s2 ->
  x < at_cnt s1 -> y < at_cnt s1 -> x <> y -> ~ K own s1 x y -> K own s2 x y ->
  muc s1 < muc s2.
Proof.
  intros own s1 s2 cs x y H1 H2 HG Hx Hy Hne Hn Hk. pose proof HG as [Hc HK].
  assert (Hx2 : x < at_cnt s2) by (rewrite Hc; exact Hx). assert (Hy2 : y < at_cnt s2) by (rewrite Hc; exact Hy).
  unfold muc. rewrite Hc.
  assert (Hf : vv_le (mo s1 x) (mo s1 y) = false).
  { destruct (vv_le (mo s1 x) (mo s1 y)) eqn:E; [|reflexivity]. exfalso. apply Hn. apply (vv_le_iff_K H1 Hx Hy). exact E. }
  assert (Ht : vv_le (mo s2 x) (mo s2 y) = true) by (apply (vv_le_iff_K H2 Hx2 Hy2); exact Hk).
  assert (Hmono : forall p, In p (ltpairsc (at_cnt s1)) -> termc s1 p <= termc s2 p)
    by (intros p Hp; apply (@term_mono own s1 s2 cs p H1 H2 HG Hp)).
  destruct (Nat.lt_ge_cases x y) as [Hlt|Hge].
  - apply (sumf_lt _ _ _ (x, y) Hmono); [apply ltpairs_In; lia|].
    unfold termc. cbn [fst snd]. rewrite Hf, Ht. cbn [b2nc].
    pose proof (@le_mono own s1 s2 cs y x H1 H2 HG Hy Hx). lia.
  - assert (Hlt : y < x) by lia.
    apply (sumf_lt _ _ _ (y, x) Hmono); [apply ltpairs_In; lia|].
    unfold termc. cbn [fst snd]. rewrite Hf, Ht. cbn [b2nc].
    pose proof (@le_mono own s1 s2 cs y x H1 H2 HG Hy Hx). lia.
Qed.

Definition NoFire (own : nat -> nat) (sX : atomic_state) (r i : nat) : Prop :=
  forall sl sid, st_rmw_src (get_store sX r) = Some (sl, sid) -> i <> sl -> i <> r ->
    (K own sX sl i -> K own sX r i) /\ (K own sX i r -> K own sX i sl).

Lemma close_step_cases : forall own rk s cs st ch r i,
  PC own rk s cs st -> r < at_cnt s -> i < at_cnt s ->
  (close_step (st, ch) (r, i) = (st, ch) /\ NoFire own (with_storesc s st) r i) \/
  (snd (close_step (st, ch) (r, i)) = true /\
   PC own rk s cs (fst (close_step (st, ch) (r, i))) /\
   muc (with_storesc s st) < muc (with_storesc s (fst (close_step (st, ch) (r, i))))).
Proof.
  intros own rk s cs st ch r i HP Hr Hi. destruct HP as [HI [HL HS]].
  set (sX := with_storesc s st) in *.
  assert (Hr' : r < at_cnt sX) by exact Hr. assert (Hi' : i < at_cnt sX) by exact Hi.
  unfold close_step.
  change (nth r st store_default) with (get_store sX r).
  destruct (st_rmw_src (get_store sX r)) as [[slot sid]|] eqn:Hsrc.
  2:{ left. split; [reflexivity|]. intros sl sid0 Hs. rewrite Hsrc in Hs. discriminate. }
  destruct (lk_srcc HL Hr' Hsrc) as [Hslt Hsid].
  assert (Hsl : slot < at_cnt sX) by (change (at_cnt sX) with (at_cnt s); lia).
  assert (Hguard : negb (Nat.eqb slot r) && Nat.eqb (st_id (nth slot st store_default)) sid = true).
  { change (nth slot st store_default) with (get_store sX slot). rewrite (lk_idc HL Hsl), Hsid.
    rewrite Nat.eqb_refl. destruct (Nat.eqb_spec slot r); [lia | reflexivity]. }
  rewrite Hguard.
  destruct (Nat.eqb_spec i r) as [Hir|Hir].
  { cbn [orb]. left. split; [reflexivity|]. intros sl sid0 _ _ Hn. contradiction. }
  destruct (Nat.eqb_spec i slot) as [His|His].
  { cbn [orb]. left. split; [reflexivity|]. intros sl sid0 Hs Hn _. rewrite Hsrc in Hs. inversion Hs. subst sl. contradiction. }
  cbn [orb].
  change (st_mo (nth slot st store_default)) with (mo sX slot).
  change (st_mo (get_store sX r)) with (mo sX r).
  change (st_mo (nth i st store_default)) with (mo sX i).
  destruct (vv_le (mo sX slot) (mo sX i) && negb (vv_le (mo sX r) (mo sX i))) eqn:H1.
  - (* I1 fires *)
    right. cbn [fst snd]. split; [reflexivity|].
    apply andb_true_iff in H1. destruct H1 as [Hle Hnle].
    pose proof (@vv_le_K own sX cs slot i HI Hsl Hle) as HK.
    assert (Hrk : rk r < rk i).
    { pose proof (ln_extc HL Hsl Hi' (fun e => His (eq_sym e)) HK) as H2.
      pose proof (ln_adjc HL Hr' Hsrc Hi') as H3.
      destruct (Nat.eq_dec (rk r) (rk i)) as [He|Hne]; [exfalso; apply Hir; symmetry; apply (ln_injc HL Hr' Hi' He)|].
      lia. }
    destruct (raise_link HI HL Hi' Hr' Hrk) as [A [B C]].
    split; [split; [exact A | split; [exact B | apply (Same_trans HS C)]]|].
    apply (@mu_strict own sX _ cs r i HI A (Same_Kgrow own C) Hr' Hi' (fun e => Hir (eq_sym e))).
    + intros HKri. apply (vv_le_iff_K HI Hr' Hi') in HKri. rewrite HKri in Hnle. discriminate.
    + apply (rz_K' HI Hi' Hr' Hr' Hi'). right. split; [apply (i_hbmo HI Hi') | apply (i_hbmo HI Hr')].
  - destruct (vv_le (mo sX i) (mo sX r) && negb (vv_le (mo sX i) (mo sX slot))) eqn:H2.
    + (* I2 fires *)
      right. cbn [fst snd]. split; [reflexivity|].
      apply andb_true_iff in H2. destruct H2 as [Hle Hnle].
      pose proof (@vv_le_K own sX cs i r HI Hi' Hle) as HK.
      assert (Hrk : rk i < rk slot).
      { pose proof (ln_extc HL Hi' Hr' Hir HK) as H3.
        pose proof (ln_adjc HL Hr' Hsrc Hi') as H4.
        destruct (Nat.eq_dec (rk i) (rk slot)) as [He|Hne]; [exfalso; apply His; apply (ln_injc HL Hi' Hsl He)|].
        lia. }
      destruct (raise_link HI HL Hsl Hi' Hrk) as [A [B C]].
      split; [split; [exact A | split; [exact B | apply (Same_trans HS C)]]|].
      apply (@mu_strict own sX _ cs i slot HI A (Same_Kgrow own C) Hi' Hsl His).
      * intros HKis. apply (vv_le_iff_K HI Hi' Hsl) in HKis. rewrite HKis in Hnle. discriminate.
      * apply (rz_K' HI Hsl Hi' Hi' Hsl). right. split; [apply (i_hbmo HI Hsl) | apply (i_hbmo HI Hi')].
    + left. split; [reflexivity|]. intros sl sid0 Hs _ _. rewrite Hsrc in Hs. inversion Hs. subst sl sid0.
      split.
      * intros HK. apply (vv_le_iff_K HI Hsl Hi') in HK. rewrite HK in H1. cbn [andb] in H1.
        destruct (vv_le (mo sX r) (mo sX i)) eqn:E; [|discriminate].
        apply (vv_le_iff_K HI Hr' Hi'). exact E.
      * intros HK. apply (vv_le_iff_K HI Hi' Hr') in HK. rewrite HK in H2. cbn [andb] in H2.
        destruct (vv_le (mo sX i) (mo sX slot)) eqn:E; [|discriminate].
        apply (vv_le_iff_K HI Hi' Hsl). exact E.
Qed.

Lemma close_fold_cases : forall own rk s cs l st ch,
  PC own rk s cs st -> (forall r i, In (r, i) l -> r < at_cnt s /\ i < at_cnt s) ->
  PC own rk s cs (fst (fold_left close_step l (st, ch))) /\
  muc (with_storesc s st) <= muc (with_storesc s (fst (fold_left close_step l (st, ch)))) /\
  ((fold_left close_step l (st, ch) = (st, ch) /\
    forall r i, In (r, i) l -> NoFire own (with_storesc s st) r i) \/
   (snd (fold_left close_step l (st, ch)) = true /\
    muc (with_storesc s st) < muc (with_storesc s (fst (fold_left close_step l (st, ch)))))).
Proof.
  intros own rk s cs l. induction l as [|[r i] l IH]; intros st ch HP Hl.
  - cbn [fold_left fst]. split; [exact HP|]. split; [apply le_n|]. left. split; [reflexivity|].
    intros r i Hin. contradiction.
  - cbn [fold_left]. destruct (Hl r i (or_introl eq_refl)) as [Hr Hi].
    assert (Hl' : forall r0 i0, In (r0, i0) l -> r0 < at_cnt s /\ i0 < at_cnt s)
      by (intros r0 i0 Hin; apply Hl; right; exact Hin).
    destruct (close_step_cases ch HP Hr Hi) as [[Heq Hnf]|[Hfl [HP1 Hmu1]]].
    + rewrite Heq. destruct (IH st ch HP Hl') as [A [B [[C D]|[C D]]]].
      * split; [exact A|]. split; [exact B|]. left. split; [exact C|].
        intros r0 i0 [Hin|Hin]; [inversion Hin; subst; exact Hnf | apply D; exact Hin].
      * split; [exact A|]. split; [exact B|]. right. split; assumption.
    + destruct (close_step (st, ch) (r, i)) as [st1 ch1]. cbn [fst snd] in *. subst ch1.
      destruct (IH st1 true HP1 Hl') as [A [B [[C D]|[C D]]]].
      * split; [exact A|]. split; [lia|]. right. rewrite C. cbn [fst snd]. split; [reflexivity|].
        rewrite C in B. cbn [fst] in B. lia.
      * split; [exact A|]. split; [lia|]. right. split; [exact C | lia].
Qed.

Theorem close_closed : forall own rk s cs fuel st,
  PC own rk s cs st -> 21 < muc (with_storesc s st) + fuel ->
  PC own rk s cs (close_rmw_atomicity fuel (at_cnt s) st) /\
  Closedc own (with_storesc s (close_rmw_atomicity fuel (at_cnt s) st)).
Proof.
  intros own rk s cs fuel. induction fuel as [|f IH]; intros st HP Hmu.
  - exfalso. destruct HP as [HI _]. pose proof (mu_le HI). lia.
  - cbn [close_rmw_atomicity].
    destruct (@close_fold_cases own rk s cs (list_prod (seq 0 (at_cnt s)) (seq 0 (at_cnt s))) st false HP
                (@pairs_live (at_cnt s))) as [A [B [[C D]|[C D]]]].
    + rewrite C. split; [exact HP|].
      intros r sl sid x Hr Hsrc Hx Hn1 Hn2.
      refine (D r x _ sl sid Hsrc Hn1 Hn2).
      apply in_prod_iff. split; apply in_seq; [change (at_cnt (with_storesc s st)) with (at_cnt s) in Hr; lia |
                                                change (at_cnt (with_storesc s st)) with (at_cnt s) in Hx; lia].
    + destruct (fold_left close_step (list_prod (seq 0 (at_cnt s)) (seq 0 (at_cnt s))) (st, false))
        as [st1 ch1]. cbn [fst snd] in *. subst ch1. apply IH; [exact A | lia].
Qed.

(* the closure as the model calls it: invariant, witness, CLOSED *)
Theorem close_model_closedc : forall own rk s cs,
  InvO own s cs -> LinkOc own rk s ->
  let s' := with_storesc s (close_rmw_atomicity (4 * MAX_ATOMIC_HISTORY)
                             (Nat.min (at_cnt s) MAX_ATOMIC_HISTORY) (at_stores s)) in
  InvO own s' cs /\ LinkOc own rk s' /\ Samec s s' /\ Closedc own s'.
Proof.
  intros own rk s cs HI HL. cbv zeta.
  rewrite (Nat.min_l _ _ (i_cnt7 HI)).
  destruct (@close_closed own rk s cs (4 * MAX_ATOMIC_HISTORY) (at_stores s) (with_stores_self HI HL))
    as [[A [B C]] D].
  - unfold MAX_ATOMIC_HISTORY. lia.
  - split; [exact A|]. split; [exact B|]. split; [exact C | exact D].
Qed.

(* ------------------------------------------------------------------ *)
(* 13.9 the load part of the MODEL's atomic_load / atomic_rmw on a closed
      state with a witness: invariant, new witness, closed again, and the
      order only grows                                                  *)

Lemma In_index_list_from : forall (A : Type) (l : list A) i k d,
  k < length l -> In (i + k, nth k l d) (index_list_from i l).
Proof.
  intros A l. induction l as [|h r IH]; intros i k d Hk; [simpl in Hk; lia|].
  destruct k as [|k]; cbn [index_list_from nth].
  - left. rewrite Nat.add_0_r. reflexivity.
  - right. replace (i + S k) with (S i + k) by lia. apply IH. simpl in Hk. lia.
Qed.

Lemma alc_mo_ge_seen : forall s c idx x,
  x < length (at_stores s) -> x <> idx ->
  is_seen_by_current (st_seen (get_store s x)) c = true ->
  vle (mo s x) (alc_mo s c idx).
Proof.
  intros s c idx x Hx Hne Hs. unfold alc_mo.
  change (mo s x) with ((fun ix : nat * astore => st_mo (snd ix)) (x, get_store s x)).
  apply (fold_in _ (fun ix : nat * astore => st_mo (snd ix))
           (fun ix : nat * astore => negb (Nat.eqb idx (fst ix)) && is_seen_by_current (st_seen (snd ix)) c)).
  - intros m [i x0]. destruct (Nat.eqb idx i); [apply vle_refl|].
    destruct (is_seen_by_current (st_seen x0) c); destruct (vv_lt (st_hb x0) c);
      intros q; rewrite ?vv_get_join; lia.
  - intros m [i x0] Hp. cbn [fst snd] in Hp. apply andb_true_iff in Hp. destruct Hp as [H1 H2].
    destruct (Nat.eqb idx i); [discriminate|]. rewrite H2.
    destruct (vv_lt (st_hb x0) c); intros q; rewrite ?vv_get_join; cbn [snd]; lia.
  - unfold index_list. apply (@In_index_list_from astore (at_stores s) 0 x store_default Hx).
  - cbn [fst snd]. fold (get_store s x). rewrite Hs.
    destruct (Nat.eqb_spec idx x); [lia | reflexivity].
Qed.


(* what the load part of the model does to the slots *)
Definition LoadFacts (own : nat -> nat) (s sM : atomic_state) (t : nat) (c : vv) (idx : nat) : Prop :=
  Kgrowc own s sM /\
  (forall k, k < MAX_ATOMIC_HISTORY ->
     st_seen (get_store sM k) =
       if Nat.eqb k idx then seen_touch (st_seen (get_store s idx)) t (vv_get c t)
       else st_seen (get_store s k)) /\
  (forall k, k < MAX_ATOMIC_HISTORY ->
     st_hb (get_store sM k) = st_hb (get_store s k) /\
     st_sync (get_store sM k) = st_sync (get_store s k) /\
     st_id (get_store sM k) = st_id (get_store s k) /\
     st_rmw_src (get_store sM k) = st_rmw_src (get_store s k)) /\
  (forall k, k < MAX_ATOMIC_HISTORY -> vle (mo s k) (mo sM k)) /\
  (forall x, x < at_cnt s -> x <> idx ->
     is_seen_by_current (st_seen (get_store s x)) c = true -> K own sM x idx).

Theorem model_loadpart_good : forall own rk s cs t c idx,
  InvO own s cs -> LinkOc own rk s -> Closedc own s -> idx < at_cnt s ->
  (forall x, x < at_cnt s -> x <> idx ->
     is_seen_by_current (st_seen (get_store s x)) c = true ->
     vv_lt (mo s idx) (mo s x) = false) ->
  let sM := loadpart_g RModel s t c idx in
  InvO own sM cs /\
  (exists rk', LinkOc own rk' sM /\
     ((forall x, x < at_cnt s -> x <> idx -> ~ K own s idx x) ->
      forall v, v < at_cnt s -> rk' v <= rk' idx)) /\
  Closedc own sM /\ LoadFacts own s sM t c idx.
Proof.
  intros own rk s cs t c idx HI HL HC Hidx Hcand. cbv zeta.
  pose proof (i_cnt7 HI) as H7. assert (Hidx7 : idx < MAX_ATOMIC_HISTORY) by lia.
  set (X := alc_c0421c4 s c idx).
  destruct (@alcC_idx_fields s c idx (i_len HI) Hidx7) as [HXseen HXlen]. fold X in HXseen, HXlen.
  set (w := vv_get c t).
  pose proof (@load_phase_inv own s cs t c idx HI Hidx Hcand) as HIA.
  pose proof (@load_witness own rk s cs t c idx HI HL HC Hidx Hcand) as HLA.
  pose proof (@lw_idx_last own rk s cs idx HI HL HC Hidx) as Hlast.
  match type of HLA with LinkOc _ ?r _ => set (rk' := r) in HLA, Hlast end.
  assert (HKA : forall x y, x < at_cnt s -> y < at_cnt s -> K own s x y ->
                K own (loadpart_g RC0421 s t c idx) x y)
    by (intros x y Hx Hy; apply (@lw_K_old own rk s cs t c idx HI Hidx x y Hx Hy)).
  pose proof (fun k Hk => @lp_seen own s cs t c idx HI Hidx k Hk) as HAseen.
  pose proof (fun k Hk => @lp_hb own s cs t c idx HI Hidx k Hk) as HAhb.
  pose proof (fun k Hk => @lp_sync own s cs t c idx HI Hidx k Hk) as HAsync.
  pose proof (fun k Hk => @lp_id_src own s cs t c idx HI Hidx k Hk) as HAis.
  pose proof (fun k Hk => @lp_grow own s cs t c idx HI Hidx k Hk) as HAgrow.
  pose proof (@lp_mo own s cs t c idx HI Hidx idx Hidx7) as HAmoidx. rewrite Nat.eqb_refl in HAmoidx.
  rewrite loadpart_c0421_touch in HIA, HLA, HKA, HAseen, HAhb, HAsync, HAis, HAgrow, HAmoidx.
  fold X w in HIA, HLA, HKA, HAseen, HAhb, HAsync, HAis, HAgrow, HAmoidx.
  assert (HXidx : idx < length (at_stores X)) by (rewrite HXlen; exact Hidx7).
  pose proof (SeenAt_sym (@touch_SeenAt X idx t w HXidx)) as HSA. pose proof (SeenAt_Core HSA) as HCA.
  assert (Hhbk : hbk own (touch X idx t w) idx = hbk own s idx).
  { unfold hbk. rewrite (HAhb idx Hidx7). reflexivity. }
  assert (HIX : InvO own X cs).
  { apply (SeenAt_InvO HSA HIA Hidx). rewrite HXseen, Hhbk. apply (i_seen HI Hidx). }
  pose proof (Core_LinkO HCA HLA) as HLX.
  destruct (close_model_closedc HIX HLX) as [HIC [HLC [HSame HCl]]].
  rewrite loadpart_model_touch, model_alc_with. fold X w.
  set (sC := with_storesc X (close_rmw_atomicity (4 * MAX_ATOMIC_HISTORY)
                (Nat.min (at_cnt X) MAX_ATOMIC_HISTORY) (at_stores X))) in *.
  assert (HCidx : idx < length (at_stores sC)) by (rewrite (i_len HIC); exact Hidx7).
  pose proof (@touch_SeenAt sC idx t w HCidx) as HST. pose proof (SeenAt_Core HST) as HCT.
  set (sM := touch sC idx t w) in *.
  destruct HSame as [HScnt HSk].
  (* field chains *)
  assert (Fhb : forall k, k < MAX_ATOMIC_HISTORY -> st_hb (get_store sM k) = st_hb (get_store s k)).
  { intros k Hk. rewrite (sa_hb HCT). destruct (HSk k) as [E _]. rewrite E. rewrite (sa_hb HCA). apply (HAhb k Hk). }
  assert (Fmo : forall k, k < MAX_ATOMIC_HISTORY -> vle (mo s k) (mo sM k)).
  { intros k Hk. rewrite (sa_mo HCT). destruct (HSk k) as [_ [_ [_ [_ [_ [_ [_ E]]]]]]].
    eapply vle_trans; [|exact E]. rewrite (sa_mo HCA). apply (HAgrow k Hk). }
  assert (Fhbk : forall k, k < MAX_ATOMIC_HISTORY -> hbk own sM k = hbk own s k).
  { intros k Hk. unfold hbk. rewrite (Fhb k Hk). reflexivity. }
  assert (HinvM : InvO own sM cs).
  { apply (SeenAt_InvO HST HIC Hidx). unfold sM.
    rewrite (@touch_seen sC idx t w HCidx).
    destruct (HSk idx) as [Hhb [Hsn _]].
    rewrite Hsn, HXseen. apply seen_touch_keeps.
    assert (He : hbk own sC idx = hbk own s idx).
    { transitivity (hbk own X idx); [unfold hbk; rewrite Hhb; reflexivity|].
      rewrite (sa_hbk HCA). exact Hhbk. }
    rewrite He. apply (i_seen HI Hidx). }
  split; [exact HinvM|]. split; [exists rk'; split; [apply (Core_LinkO HCT HLC) | exact Hlast]|].
  split; [apply (Core_Closed HCT HCl)|].
  split; [|split; [|split; [|split]]].
  - split; [reflexivity|]. intros x y Hx Hy HK.
    apply (sa_K HCT). destruct (Same_Kgrow own (conj HScnt HSk)) as [_ HG]. apply (HG x y Hx Hy).
    apply (sa_K HCA). apply (HKA x y Hx Hy HK).
  - intros k Hk. destruct (Nat.eqb_spec k idx) as [e|n].
    + subst k. unfold sM. rewrite (@touch_seen sC idx t w HCidx).
      destruct (HSk idx) as [_ [Hsn _]]. rewrite Hsn, HXseen. reflexivity.
    + destruct HST as [_ [_ [_ [_ [_ [F _]]]]]]. rewrite (F k n).
      destruct (HSk k) as [_ [Hsn _]]. rewrite Hsn.
      destruct HSA as [_ [_ [_ [_ [_ [F' _]]]]]]. rewrite (F' k n).
      rewrite (HAseen k Hk). destruct (Nat.eqb_spec k idx); [contradiction | reflexivity].
  - intros k Hk. split; [apply (Fhb k Hk)|].
    destruct (HSk k) as [_ [_ [E1 [_ [E2 [E3 _]]]]]].
    destruct (HAis k Hk) as [E4 E5].
    split; [rewrite (sa_sync HCT), E1, (sa_sync HCA); apply (HAsync k Hk)|].
    split; [rewrite (sa_id HCT), E2, (sa_id HCA); exact E4 | rewrite (sa_src HCT), E3, (sa_src HCA); exact E5].
  - exact Fmo.
  - intros x Hx Hne Hs. unfold K. rewrite (Fhbk x ltac:(lia)).
    assert (Hx7 : x < length (at_stores s)) by (rewrite (i_len HI); lia).
    pose proof (@alc_mo_ge_seen s c idx x Hx7 Hne Hs (own x)) as H1.
    pose proof (i_hbmo HI Hx) as H2. unfold K in H2.
    assert (H3 : vle (alc_mo s c idx) (mo sM idx)).
    { rewrite (sa_mo HCT). destruct (HSk idx) as [_ [_ [_ [_ [_ [_ [_ E]]]]]]].
      eapply vle_trans; [|exact E]. rewrite (sa_mo HCA). rewrite HAmoidx. apply vle_refl. }
    specialize (H3 (own x)). lia.
Qed.

(* ------------------------------------------------------------------ *)
(* 13.10 the store phase: witness, closedness and the st_sync invariant     *)

(* a store seen by the synchronisation clock of b is mo-below b *)
Definition Syc (own : nat -> nat) (s : atomic_state) : Prop :=
  forall a b, a < at_cnt s -> b < at_cnt s ->
    is_seen_by_current (st_seen (get_store s a)) (st_sync (get_store s b)) = true -> K own s a b.

Lemma seen_join_or : forall seen a b,
  is_seen_by_current seen (vv_join a b) = true ->
  is_seen_by_current seen a = true \/ is_seen_by_current seen b = true.
Proof.
  intros seen a b H. apply is_seen_by_current_spec in H. destruct H as [m [w [Hn Hw]]].
  rewrite vv_get_join in Hw.
  destruct (le_dec w (vv_get a m)) as [H1|H1].
  - left. apply is_seen_by_current_spec. exists m, w. split; assumption.
  - right. apply is_seen_by_current_spec. exists m, w. split; [exact Hn | lia].
Qed.

Lemma seen_sync_store : forall seen sync0 c rel o, vle rel c ->
  is_seen_by_current seen (sync_store sync0 c rel o) = true ->
  is_seen_by_current seen sync0 = true \/ is_seen_by_current seen c = true.
Proof.
  intros seen sync0 c rel o Hrel H. apply seen_join_or. revert H. apply seen_clock_mono.
  intros q. unfold sync_store. specialize (Hrel q).
  destruct (ord_rel o); rewrite ?vv_get_join; lia.
Qed.

Section StoreW.
  Variables own rk : nat -> nat.
  Variable s : atomic_state.
  Variable cs : list vv.
  Variables (t : nat) (c sync0 : vv) (v : N) (o : ord) (src : option (nat * nat)).
  Variable rel : vv.
  Hypothesis HI : InvO own s cs.
  Hypothesis HL : LinkOc own rk s.
  Hypothesis HC : Closedc own s.
  Hypothesis HSy : Syc own s.
  Hypothesis Ht : t < length cs.
  Hypothesis Hroom : at_cnt s < MAX_ATOMIC_HISTORY.
  Hypothesis Hfr : vv_get (clk cs t) t < vv_get c t.
  Hypothesis Hlen : t < length c.
  Hypothesis Hrel : vle rel c.

  Let n := at_cnt s.
  Let own' := fun k => if Nat.eqb k n then t else own k.
  Let s' := atomic_store_from s t c rel sync0 v o src.
  Let MN := store_from_mo s c src.
  Let Kn (a : nat) : Prop := hbk own s a <= vv_get MN (own a).

  Variable rk' : nat -> nat.
  Hypothesis R2 : forall a b, a < n -> b < n -> (rk' a < rk' b <-> rk a < rk b).
  Hypothesis R1n : forall a, a < n -> rk' a <> rk' n.
  Hypothesis R3 : forall a, a < n -> Kn a -> rk' a < rk' n.
  Hypothesis R4 : forall r sl sid, r < n -> st_rmw_src (get_store s r) = Some (sl, sid) ->
    ~ (rk' sl < rk' n /\ rk' n < rk' r).
  Hypothesis Hsrc : match src with
    | None => True
    | Some (idx, sid) =>
        idx < n /\ sid = idx /\ Kn idx /\
        (forall x, x < n -> ~ (rk' idx < rk' x /\ rk' x < rk' n)) /\
        (forall x, x < n -> x <> idx -> ~ K own s idx x) /\
        (forall x, x < n -> Kn x -> K own s x idx)
    end.
  Hypothesis Hneq : forall r sl sid, r < n -> st_rmw_src (get_store s r) = Some (sl, sid) ->
    src_eqb (Some (sl, sid)) src = false.
  Hypothesis Hsy0 : forall a, a < n ->
    is_seen_by_current (st_seen (get_store s a)) sync0 = true -> Kn a.

  Lemma sw_get : forall k, get_store s' k =
    if Nat.eqb k n
    then mkStore v c MN (sync_store sync0 c rel o) (seen_touch seen_new t (vv_get c t))
                 (is_seq_cst o) n src
    else get_store s k.
  Proof. intros k. apply (sp_get t c sync0 v o src rel HI Hroom k). Qed.

  Lemma sw_old : forall k, k < n -> get_store s' k = get_store s k.
  Proof. intros k Hk. rewrite sw_get. destruct (Nat.eqb_spec k n); [lia | reflexivity]. Qed.
  Lemma sw_new : get_store s' n =
    mkStore v c MN (sync_store sync0 c rel o) (seen_touch seen_new t (vv_get c t))
            (is_seq_cst o) n src.
  Proof. rewrite sw_get, Nat.eqb_refl. reflexivity. Qed.

  Lemma sw_K_old : forall a b, a < n -> b < n -> (K own' s' a b <-> K own s a b).
  Proof. intros a b Ha Hb. apply (sp_K_old c sync0 v o src rel HI Ht Hroom Hfr Hlen Ha Hb). Qed.
  Lemma sw_K_n_old : forall b, b < n -> ~ K own' s' n b.
  Proof. intros b Hb. apply (@sp_K_n_old own s cs t c sync0 v o src rel HI Ht Hroom Hfr Hlen b Hb). Qed.
  Lemma sw_K_old_n : forall a, a < n -> (K own' s' a n <-> Kn a).
  Proof.
    intros a Ha. unfold K, Kn, hbk, mo, own'. rewrite sw_new, (sw_old Ha).
    destruct (Nat.eqb_spec a n); [lia|]. cbn [st_mo]. tauto.
  Qed.
  Lemma sw_K_nn : K own' s' n n.
  Proof.
    unfold K, hbk, mo, own'. rewrite sw_new, Nat.eqb_refl. cbn [st_hb st_mo].
    apply (store_from_mo_ge_caus s c src t).
  Qed.

  Lemma sw_cases : forall a, a < at_cnt s' -> a < n \/ a = n.
  Proof. intros a Ha. change (a < S n) in Ha. lia. Qed.

  Lemma sw_inj_old : forall a b, a < n -> b < n -> rk' a = rk' b -> a = b.
  Proof.
    intros a b Ha Hb He. apply (ln_injc HL Ha Hb).
    destruct (Nat.lt_total (rk a) (rk b)) as [H|[H|H]]; [|exact H|].
    - apply (R2 Ha Hb) in H. lia.
    - apply (R2 Hb Ha) in H. lia.
  Qed.

  Lemma sw_seen_Kn : forall a, a < n ->
    is_seen_by_current (st_seen (get_store s a)) c = true -> Kn a.
  Proof.
    intros a Ha Hs.
    pose proof (@sp_seen_le own s cs t c src HI Ht Hroom Hfr Hlen a Ha Hs (own a)) as Hle.
    pose proof (i_hbmo HI Ha) as Hk. unfold K in Hk. unfold Kn, MN. lia.
  Qed.

  (* the store-time closure of atomic_store_from gives rule I1 for the new store *)
  Lemma sw_C1 : forall r sl sid, r < n -> st_rmw_src (get_store s r) = Some (sl, sid) ->
    Kn sl -> Kn r.
  Proof.
    intros r sl sid Hr Hs Hk.
    destruct (lk_srcc HL Hr Hs) as [Hlt Hsid]. assert (Hsl : sl < n) by (unfold n in *; lia).
    pose proof (@sp_KN own s cs t c src HI Ht Hroom Hfr Hlen sl Hsl Hk) as Hle.
    assert (Hlen7 : length (at_stores s) <= S MAX_ATOMIC_HISTORY) by (rewrite (i_len HI); lia).
    pose proof (store_from_mo_closed s c src Hlen7) as Hcl.
    assert (Hin : In (get_store s r) (at_stores s)).
    { unfold get_store. apply nth_In. rewrite (i_len HI). pose proof (i_cnt7 HI). unfold n in Hr. lia. }
    assert (Hlink : rmw_link (at_stores s) src (get_store s r) = Some (mo s sl)).
    { apply rmw_link_some. exists sl, sid. split; [exact Hs|]. split; [apply (Hneq Hr Hs)|].
      split; [|reflexivity]. change (nth sl (at_stores s) store_default) with (get_store s sl).
      rewrite (lk_idc HL Hsl). symmetry. exact Hsid. }
    assert (Hv : vv_le (mo s sl) (store_from_mo s c src) = true) by (apply vv_le_spec; exact Hle).
    pose proof (Hcl (get_store s r) (mo s sl) Hin Hlink Hv) as Hr'. apply vv_le_spec in Hr'.
    pose proof (i_hbmo HI Hr) as Hkr. unfold K in Hkr. specialize (Hr' (own r)). fold (mo s r) in Hr'.
    unfold Kn, MN. lia.
  Qed.

  Lemma store_witness : LinkOc own' rk' s'.
  Proof.
    constructor.
    - intros a Ha. destruct (sw_cases Ha) as [Hl|He].
      + rewrite (sw_old Hl). apply (lk_idc HL Hl).
      + subst a. rewrite sw_new. reflexivity.
    - intros r sl sid Hr Hs. destruct (sw_cases Hr) as [Hl|He].
      + rewrite (sw_old Hl) in Hs. apply (lk_srcc HL Hl Hs).
      + subst r. rewrite sw_new in Hs. cbn [st_rmw_src] in Hs. rewrite Hs in Hsrc.
        destruct Hsrc as [A [B _]]. split; [exact A | exact B].
    - intros r sl sid Hr Hs. destruct (sw_cases Hr) as [Hl|He].
      + rewrite (sw_old Hl) in Hs. destruct (lk_srcc HL Hl Hs) as [Hlt _].
        assert (Hsl : sl < n) by (unfold n in *; lia).
        apply (sw_K_old Hsl Hl). apply (lk_ordc HL Hl Hs).
      + subst r. rewrite sw_new in Hs. cbn [st_rmw_src] in Hs. rewrite Hs in Hsrc.
        destruct Hsrc as [A [_ [B _]]]. apply (sw_K_old_n A). exact B.
    - intros a b Ha Hb He. destruct (sw_cases Ha) as [Hla|Hea]; destruct (sw_cases Hb) as [Hlb|Heb].
      + apply (sw_inj_old Hla Hlb He).
      + subst b. exfalso. apply (R1n Hla He).
      + subst a. exfalso. apply (R1n Hlb). symmetry. exact He.
      + lia.
    - intros a b Ha Hb Hne HK. destruct (sw_cases Ha) as [Hla|Hea]; destruct (sw_cases Hb) as [Hlb|Heb].
      + apply (R2 Hla Hlb). apply (ln_extc HL Hla Hlb Hne). apply (sw_K_old Hla Hlb). exact HK.
      + subst b. apply (R3 Hla). apply (sw_K_old_n Hla). exact HK.
      + subst a. exfalso. apply (sw_K_n_old Hlb HK).
      + lia.
    - intros r sl sid x Hr Hs Hx. destruct (sw_cases Hr) as [Hl|He].
      + rewrite (sw_old Hl) in Hs. destruct (lk_srcc HL Hl Hs) as [Hlt _].
        assert (Hsl : sl < n) by (unfold n in *; lia).
        destruct (sw_cases Hx) as [Hlx|Hex].
        * intros [H1 H2]. apply (ln_adjc HL Hl Hs Hlx). split; [apply (R2 Hsl Hlx) | apply (R2 Hlx Hl)]; assumption.
        * subst x. apply (R4 Hl Hs).
      + subst r. rewrite sw_new in Hs. cbn [st_rmw_src] in Hs. rewrite Hs in Hsrc.
        destruct Hsrc as [A [_ [_ [B _]]]].
        destruct (sw_cases Hx) as [Hlx|Hex]; [apply (B x Hlx) | subst x; lia].
  Qed.

  Lemma store_closed : Closedc own' s'.
  Proof.
    intros r sl sid x Hr Hs Hx Hn1 Hn2.
    destruct (sw_cases Hr) as [Hl|He].
    - rewrite (sw_old Hl) in Hs. destruct (lk_srcc HL Hl Hs) as [Hlt _].
      assert (Hsl : sl < n) by (unfold n in *; lia).
      destruct (sw_cases Hx) as [Hlx|Hex].
      + destruct (HC Hl Hs Hlx Hn1 Hn2) as [H1 H2]. split; intros H.
        * apply (sw_K_old Hl Hlx). apply H1. apply (sw_K_old Hsl Hlx). exact H.
        * apply (sw_K_old Hlx Hsl). apply H2. apply (sw_K_old Hlx Hl). exact H.
      + subst x. split; intros H.
        * apply (sw_K_old_n Hl). apply (sw_C1 Hl Hs). apply (sw_K_old_n Hsl). exact H.
        * exfalso. apply (sw_K_n_old Hl H).
    - subst r. rewrite sw_new in Hs. cbn [st_rmw_src] in Hs. rewrite Hs in Hsrc.
      destruct Hsrc as [A [_ [_ [_ [B D]]]]].
      destruct (sw_cases Hx) as [Hlx|Hex]; [|lia].
      split; intros H.
      + exfalso. apply (B x Hlx Hn1). apply (sw_K_old A Hlx). exact H.
      + apply (sw_K_old Hlx A). apply (D x Hlx). apply (sw_K_old_n Hlx). exact H.
  Qed.

  Lemma store_sy : Syc own' s'.
  Proof.
    intros a b Ha Hb H.
    destruct (sw_cases Ha) as [Hla|Hea]; destruct (sw_cases Hb) as [Hlb|Heb].
    - apply (sw_K_old Hla Hlb). apply (HSy Hla Hlb).
      rewrite (sw_old Hla), (sw_old Hlb) in H. exact H.
    - subst b. apply (sw_K_old_n Hla).
      rewrite (sw_old Hla), sw_new in H. cbn [st_sync] in H.
      destruct (seen_sync_store _ _ _ Hrel H) as [H0|Hc]; [apply (Hsy0 Hla H0) | apply (sw_seen_Kn Hla Hc)].
    - subst a. exfalso. rewrite sw_new, (sw_old Hlb) in H. cbn [st_seen] in H.
      apply is_seen_by_current_spec in H. destruct H as [m [w [Hn Hw]]].
      apply seen_touch_inv in Hn. destruct Hn as [Hn|[Hm Hw']].
      + apply (proj2 (seen_new_nth m) w Hn).
      + subst m w. pose proof (i_bsync HI Hlb Ht). lia.
    - subst a b. apply sw_K_nn.
  Qed.

  Theorem store_good : (exists rk0, LinkOc own' rk0 s') /\ Closedc own' s' /\ Syc own' s'.
  Proof.
    split; [exists rk'; exact store_witness | split; [exact store_closed | exact store_sy]].
  Qed.
End StoreW.

(* ---- a plain store: the new store is ranked above all others ---- *)
Theorem plain_store_good : forall own rk s cs t c rel v o,
  InvO own s cs -> LinkOc own rk s -> Closedc own s -> Syc own s ->
  t < length cs -> at_cnt s < MAX_ATOMIC_HISTORY ->
  vv_get (clk cs t) t < vv_get c t -> t < length c -> vle rel c ->
  let own' := fun k => if Nat.eqb k (at_cnt s) then t else own k in
  let s' := atomic_store_from s t c rel vv_new v o None in
  (exists rk', LinkOc own' rk' s') /\ Closedc own' s' /\ Syc own' s'.
Proof.
  intros own rk s cs t c rel v o HI HL HC HSy Ht Hroom Hfr Hlen Hrel. cbv zeta.
  set (N := S (list_max' (map rk (seq 0 (at_cnt s))))).
  set (rk' := fun k => if Nat.eqb k (at_cnt s) then N else rk k).
  assert (Hold : forall a, a < at_cnt s -> rk' a = rk a).
  { intros a Ha. unfold rk'. destruct (Nat.eqb_spec a (at_cnt s)); [lia | reflexivity]. }
  assert (Hnew : rk' (at_cnt s) = N) by (unfold rk'; rewrite Nat.eqb_refl; reflexivity).
  assert (HltN : forall a, a < at_cnt s -> rk a < N) by (intros a Ha; apply list_max'_lt; exact Ha).
  apply (@store_good own rk s cs t c vv_new v o None rel HI HL HC HSy Ht Hroom Hfr Hlen Hrel rk').
  - intros a b Ha Hb. rewrite (Hold a Ha), (Hold b Hb). tauto.
  - intros a Ha. rewrite (Hold a Ha), Hnew. pose proof (HltN a Ha). lia.
  - intros a Ha _. rewrite (Hold a Ha), Hnew. apply (HltN a Ha).
  - intros r sl sid Hr _ [_ H]. rewrite (Hold r Hr), Hnew in H. pose proof (HltN r Hr). lia.
  - exact I.
  - intros r sl sid _ _. reflexivity.
  - intros a Ha H. apply (@sw_seen_Kn own s cs t c None HI Ht Hroom Hfr Hlen a Ha).
    apply (seen_clock_mono _ _ _ (vle_new c) H).
Qed.

(* ---- upper bounds for the clock folds ---- *)
Lemma fold_ub : forall (A : Type) (f : vv -> A -> vv) (U : vv) (l : list A),
  (forall m a, In a l -> vle m U -> vle (f m a) U) ->
  forall m, vle m U -> vle (fold_left f l m) U.
Proof.
  intros A f U l. induction l as [|a l IH]; intros Hf m Hm; [exact Hm|].
  cbn [fold_left]. apply IH.
  - intros m' a' Ha'. apply Hf. right. exact Ha'.
  - apply Hf; [left; reflexivity | exact Hm].
Qed.

Section RmwUb.
  Variable stores : list astore.
  Variable src : option (nat * nat).
  Variable U : vv.
  Hypothesis Hstep : forall x w m', In x stores -> rmw_link stores src x = Some w ->
    vle m' U -> vv_le w m' = true -> vle (st_mo x) U.

  Lemma rmw_atomicity_ub : forall fuel m, vle m U -> vle (rmw_atomicity fuel stores src m) U.
  Proof.
    intros fuel m.
    apply (rmw_atomicity_ind stores src (fun a b => vle a U -> vle b U) (fun _ H => H) (fun _ _ _ H1 H2 H => H2 (H1 H))).
    intros x w m' Hx Hl Hw Hm. apply vle_join_lub; [exact Hm|]. apply (@Hstep x w m' Hx Hl Hm Hw).
  Qed.
End RmwUb.

(* ---- the store half of an RMW ---- *)

Definition rk_after (rk : nat -> nat) (idx n k : nat) : nat :=
  if Nat.eqb k n then S (rk idx)
  else if Nat.ltb (rk idx) (rk k) then S (rk k) else rk k.

Section RkAfter.
  Variables (rk : nat -> nat) (idx n : nat).
  Let rk' := rk_after rk idx n.

  Lemma rk_after_lt : forall a b, a < n -> b < n -> (rk' a < rk' b <-> rk a < rk b).
  Proof.
    intros a b Ha Hb. unfold rk', rk_after.
    destruct (Nat.eqb_spec a n); [lia|]. destruct (Nat.eqb_spec b n); [lia|].
    destruct (Nat.ltb_spec (rk idx) (rk a)); destruct (Nat.ltb_spec (rk idx) (rk b)); lia.
  Qed.

  Lemma rk_after_below : forall a, a < n -> (rk' a < rk' n <-> rk a <= rk idx).
  Proof.
    intros a Ha. unfold rk', rk_after. rewrite Nat.eqb_refl.
    destruct (Nat.eqb_spec a n); [lia|]. destruct (Nat.ltb_spec (rk idx) (rk a)); lia.
  Qed.

  Lemma rk_after_above : forall a, a < n -> (rk' n < rk' a <-> rk idx < rk a).
  Proof.
    intros a Ha. unfold rk', rk_after. rewrite Nat.eqb_refl.
    destruct (Nat.eqb_spec a n); [lia|]. destruct (Nat.ltb_spec (rk idx) (rk a)); lia.
  Qed.
End RkAfter.

Section RmwStore.
  Variables own rk : nat -> nat.
  Variable s : atomic_state.
  Variable cs : list vv.
  Variables (c : vv) (idx : nat).
  Hypothesis HI : InvO own s cs.
  Hypothesis HL : LinkOc own rk s.
  Hypothesis HC : Closedc own s.
  Hypothesis Hidx : idx < at_cnt s.
  Hypothesis HseenB : forall x, x < at_cnt s ->
    is_seen_by_current (st_seen (get_store s x)) c = true -> K own s x idx.

  Let U := vv_join c (mo s idx).

  (* knowing a key through U means being below idx *)
  Lemma K_join_below : forall x, x < at_cnt s -> hbk own s x <= vv_get U (own x) -> K own s x idx.
  Proof.
    intros x Hx H. unfold U in H. rewrite vv_get_join in H.
    destruct (le_dec (hbk own s x) (vv_get c (own x))) as [H1|H1].
    - apply (HseenB Hx). apply (key_seen HI c Hx H1).
    - unfold K. lia.
  Qed.

  Lemma rmw_mo_ub : vle (store_from_mo s c (Some (idx, idx))) U.
  Proof.
    unfold store_from_mo. apply rmw_atomicity_ub.
    - intros x w m' Hin Hlink Hm' Hw.
      apply rmw_link_some in Hlink. destruct Hlink as [slot [sid [Hs [Hne [Hid Hwv]]]]].
      destruct (store_In_cases HI x Hin) as [Hd|[r [Hrl Hr]]]; subst x; [discriminate Hs|].
      destruct (lk_srcc HL Hrl Hs) as [Hlt Hsid]. assert (Hsl : slot < at_cnt s) by lia.
      assert (Hnidx : slot <> idx).
      { intros e. subst slot sid. unfold src_eqb in Hne. rewrite Nat.eqb_refl in Hne. discriminate. }
      assert (HKs : K own s slot idx).
      { apply (K_join_below Hsl). apply vv_le_spec in Hw. subst w.
        pose proof (i_hbmo HI Hsl) as Hk. unfold K in Hk.
        specialize (Hw (own slot)). specialize (Hm' (own slot)).
        change (st_mo (nth slot (at_stores s) store_default)) with (mo s slot) in Hw. lia. }
      fold (mo s r). destruct (Nat.eq_dec r idx) as [e|Hner].
      + subst r. apply vle_join_r.
      + destruct (HC Hrl Hs Hidx (fun e => Hnidx (eq_sym e)) (fun e => Hner (eq_sym e))) as [H1 _].
        eapply vle_trans; [apply (i_star HI Hrl Hidx (H1 HKs)) | apply vle_join_r].
    - unfold store_mo. apply fold_ub; [|apply vle_join_l].
      intros m x Hin Hm. destruct (is_seen_by_current (st_seen x) c) eqn:Hs; [|exact Hm].
      apply vle_join_lub; [exact Hm|].
      destruct (store_In_cases HI x Hin) as [Hd|[r [Hrl Hr]]]; subst x.
      + apply vle_new.
      + eapply vle_trans; [apply (i_star HI Hrl Hidx (HseenB Hrl Hs)) | apply vle_join_r].
  Qed.

  Lemma rmw_mo_below : forall x, x < at_cnt s ->
    hbk own s x <= vv_get (store_from_mo s c (Some (idx, idx))) (own x) -> K own s x idx.
  Proof.
    intros x Hx H. apply (K_join_below Hx). pose proof (rmw_mo_ub (own x)). lia.
  Qed.
End RmwStore.

Theorem rmw_store_good : forall own rk s cs t c rel v o idx,
  InvO own s cs -> LinkOc own rk s -> Closedc own s -> Syc own s ->
  t < length cs -> at_cnt s < MAX_ATOMIC_HISTORY ->
  vv_get (clk cs t) t < vv_get c t -> t < length c -> vle rel c ->
  idx < at_cnt s ->
  (forall x, x < at_cnt s -> x <> idx -> ~ K own s idx x) ->
  (forall x, x < at_cnt s -> is_seen_by_current (st_seen (get_store s x)) c = true -> K own s x idx) ->
  is_seen_by_current (st_seen (get_store s idx)) c = true ->
  let own' := fun k => if Nat.eqb k (at_cnt s) then t else own k in
  let s' := atomic_store_from s t c rel (st_sync (get_store s idx)) v o
              (Some (idx, st_id (get_store s idx))) in
  (exists rk', LinkOc own' rk' s') /\ Closedc own' s' /\ Syc own' s'.
Proof.
  intros own rk s cs t c rel v o idx HI HL HC HSy Ht Hroom Hfr Hlen Hrel Hidx Hmax HseenB Hidxseen. cbv zeta.
  rewrite (lk_idc HL Hidx).
  set (src := Some (idx, idx)).
  pose proof (@rmw_mo_below own rk s cs c idx HI HL HC Hidx HseenB) as HB.
  pose proof (@sw_seen_Kn own s cs t c src HI Ht Hroom Hfr Hlen) as HseenK.
  assert (Hbelow : forall a, a < at_cnt s -> K own s a idx -> rk a <= rk idx).
  { intros a Ha HK. destruct (Nat.eq_dec a idx) as [e|Hne]; [subst a; lia|].
    pose proof (ln_extc HL Ha Hidx Hne HK). lia. }
  assert (Hsucc : forall r sid, r < at_cnt s -> st_rmw_src (get_store s r) = Some (idx, sid) -> False).
  { intros r sid Hr Hs. destruct (lk_srcc HL Hr Hs) as [Hlt _].
    apply (Hmax r Hr ltac:(lia)). apply (lk_ordc HL Hr Hs). }
  apply (@store_good own rk s cs t c (st_sync (get_store s idx)) v o src rel
           HI HL HC HSy Ht Hroom Hfr Hlen Hrel (rk_after rk idx (at_cnt s))).
  - apply rk_after_lt.
  - intros a Ha He. pose proof (rk_after_below rk idx Ha). pose proof (rk_after_above rk idx Ha). lia.
  - intros a Ha H. apply (rk_after_below rk idx Ha). apply (Hbelow a Ha (HB a Ha H)).
  - intros r sl sid Hr Hs [H1 H2]. destruct (lk_srcc HL Hr Hs) as [Hlt _].
    assert (Hsl : sl < at_cnt s) by lia.
    apply (rk_after_below rk idx Hsl) in H1. apply (rk_after_above rk idx Hr) in H2.
    destruct (Nat.eq_dec sl idx) as [e|Hne].
    + subst sl. apply (Hsucc r sid Hr Hs).
    + apply (ln_adjc HL Hr Hs Hidx). split; [|exact H2].
      destruct (Nat.eq_dec (rk sl) (rk idx)) as [e|Hr']; [|lia].
      exfalso. apply Hne. apply (ln_injc HL Hsl Hidx e).
  - split; [exact Hidx|]. split; [reflexivity|]. split; [apply (HseenK idx Hidx Hidxseen)|].
    split; [|split; [exact Hmax | exact HB]].
    intros x Hx [H1 H2]. apply (rk_after_lt rk idx Hidx Hx) in H1. apply (rk_after_below rk idx Hx) in H2. lia.
  - intros r sl sid Hr Hs. unfold src, src_eqb. destruct (Nat.eqb_spec sl idx) as [e|_]; [|reflexivity].
    exfalso. subst sl. apply (Hsucc r sid Hr Hs).
  - intros a Ha H. pose proof (HSy a idx Ha Hidx H) as HKa.
    pose proof (i_star HI Ha Hidx HKa (own a)) as Hle1.
    pose proof (HseenK idx Hidx Hidxseen) as Hle2.
    pose proof (@sp_seen_le own s cs t c src HI Ht Hroom Hfr Hlen idx Hidx Hidxseen (own a)) as Hle3.
    pose proof (i_hbmo HI Ha) as Hk. unfold K in Hk. lia.
Qed.

(* ---- consequences of LoadFacts ---- *)
Lemma Sy_load : forall own s sM cs t c idx,
  InvO own s cs -> Syc own s -> t < length cs -> vv_get (clk cs t) t < vv_get c t ->
  LoadFacts own s sM t c idx -> Syc own sM.
Proof.
  intros own s sM cs t c idx HI HSy Ht Hfr [[Hc HG] [F1 [F2 _]]] a b Ha Hb H.
  rewrite Hc in Ha, Hb. pose proof (i_cnt7 HI) as H7.
  destruct (F2 b ltac:(lia)) as [_ [Hsy _]]. rewrite Hsy in H.
  rewrite (F1 a ltac:(lia)) in H. apply (HG a b Ha Hb).
  destruct (Nat.eqb_spec a idx) as [e|ne]; [|apply (HSy a b Ha Hb H)].
  subst a. apply (HSy idx b Ha Hb).
  apply is_seen_by_current_spec in H. destruct H as [m [w [Hn Hw]]].
  apply seen_touch_inv in Hn. destruct Hn as [Hn|[Hm Hw']].
  - apply is_seen_by_current_spec. exists m, w. split; assumption.
  - exfalso. subst m w. pose proof (i_bsync HI Hb Ht). lia.
Qed.

Lemma ext_load_model : forall own s sM cs t c idx,
  InvO own s cs -> LoadFacts own s sM t c idx -> ext own s own sM.
Proof.
  intros own s sM cs t c idx HI [[Hc _] [F1 [F2 [F3 _]]]]. pose proof (i_cnt7 HI) as H7.
  split; [rewrite Hc; apply le_n|]. intros a Ha.
  split; [reflexivity|]. split.
  { unfold hbk. destruct (F2 a ltac:(lia)) as [Hhb _]. rewrite Hhb. reflexivity. }
  split; [apply (F3 a ltac:(lia))|].
  intros c0 Hs. rewrite (F1 a ltac:(lia)).
  destruct (Nat.eqb_spec a idx) as [e|_]; [|exact Hs].
  subst a. apply seen_touch_mono. exact Hs.
Qed.

Lemma LinkO_ts : forall own rk s c, LinkOc own rk s -> LinkOc own rk (ts_state s c).
Proof. intros own rk s c HL. destruct HL. constructor; assumption. Qed.


Lemma LinkO_tl : forall own rk s c, LinkOc own rk s -> LinkOc own rk (tl_state s c).
Proof. intros own rk s c HL. destruct HL. constructor; assumption. Qed.

(* ------------------------------------------------------------------ *)
(* 13.11 EVERY step of the model's machine: the full invariant             *)

Definition GoodOc (own rk : nat -> nat) (s : atomic_state) (cs : list vv) : Prop :=
  InvO own s cs /\ LinkOc own rk s /\ Closedc own s /\ Syc own s.

Lemma seen_c'_below : forall own s sM cs t c idx o,
  InvO own sM cs -> Syc own sM -> idx < at_cnt sM ->
  LoadFacts own s sM t c idx -> at_cnt s <= MAX_ATOMIC_HISTORY ->
  forall x, x < at_cnt sM ->
    is_seen_by_current (st_seen (get_store sM x))
      (sync_load c (st_sync (get_store sM idx)) o) = true ->
    K own sM x idx.
Proof.
  intros own s sM cs t c idx o HIM HSyM Hidx [[Hc _] [F1 [_ [_ F4]]]] H7 x Hx H.
  assert (Hbyc : is_seen_by_current (st_seen (get_store sM x)) c = true -> K own sM x idx).
  { intros Hs. destruct (Nat.eq_dec x idx) as [e|ne]; [subst x; apply (i_hbmo HIM Hidx)|].
    rewrite Hc in Hx. apply (F4 x Hx ne). rewrite (F1 x ltac:(lia)) in Hs.
    destruct (Nat.eqb_spec x idx); [contradiction | exact Hs]. }
  unfold sync_load in H. destruct (ord_acq o); [|apply Hbyc; exact H].
  apply seen_join_or in H. destruct H as [H|H]; [apply Hbyc; exact H|].
  apply (HSyM x idx Hx Hidx H).
Qed.

(* ---- the store and RMW steps with an arbitrary released clock [rel]
   (Ops.v passes t_rel; mstep is the instance rel = vv_new) ---- *)
Definition store_stepRc (st : mstate) (t : nat) (rel : vv) (v : N) (o : ord) : option mstate :=
  let '(s, cs) := st in
  if negb (Nat.ltb t (length cs)) then None else
  if Nat.leb MAX_ATOMIC_HISTORY (at_cnt s) then None else
  let c := vv_inc (clk cs t) t in
  if negb (vv_le rel c) then None else
  match track_store s c with
  | inl s1 => Some (atomic_store s1 t c rel vv_new v o, list_set cs t c)
  | inr _ => None
  end.

Definition rmw_stepRc (st : mstate) (t : nat) (rel : vv) (idx : nat) (f : N -> option N)
           (so fo : ord) : option mstate :=
  let '(s, cs) := st in
  if negb (Nat.ltb t (length cs)) then None else
  if Nat.leb MAX_ATOMIC_HISTORY (at_cnt s) then None else
  let c := vv_inc (clk cs t) t in
  if negb (vv_le rel c) then None else
  match match_rmw_to_stores s with
  | Some l =>
      if existsb (Nat.eqb idx) l then
        match atomic_rmw s t c rel idx so fo f with
        | inl (s', c', _, _) => Some (s', list_set cs t c')
        | inr _ => None
        end
      else None
  | None => None
  end.

Lemma vv_le_new : forall c, vv_le vv_new c = true.
Proof. intros c. apply vv_le_spec. apply vle_new. Qed.

Lemma mstep_store_eq : forall st t v o,
  mstep RModel st t (XStore v o) = store_stepRc st t vv_new v o.
Proof.
  intros [s cs] t v o. unfold mstep, store_stepRc.
  destruct (negb (Nat.ltb t (length cs))); [reflexivity|].
  destruct (Nat.leb MAX_ATOMIC_HISTORY (at_cnt s)); [reflexivity|].
  cbv zeta. rewrite vv_le_new. reflexivity.
Qed.

Lemma mstep_rmw_eq : forall st t idx f so fo,
  mstep RModel st t (XRmw idx f so fo) = rmw_stepRc st t vv_new idx f so fo.
Proof.
  intros [s cs] t idx f so fo. unfold mstep, rmw_stepRc.
  destruct (negb (Nat.ltb t (length cs))); [reflexivity|].
  destruct (Nat.leb MAX_ATOMIC_HISTORY (at_cnt s)); [reflexivity|].
  cbv zeta. rewrite vv_le_new. rewrite atomic_rmw_g_model. reflexivity.
Qed.

Definition StepOutc (own : nat -> nat) (s : atomic_state) (cs : list vv) (s' : atomic_state) (cs' : list vv) : Prop :=
  exists own' rk', GoodOc own' rk' s' cs' /\ StampO s' cs' /\ ext own s own' s' /\
                   length cs' = length cs /\ forall u, vle (clk cs u) (clk cs' u).

Lemma Out0_goodOc : forall own s cs own' rk' s' cs',
  Out0 own s cs own' s' cs' -> StampO s cs ->
  LinkOc own' rk' s' -> Closedc own' s' -> Syc own' s' -> StepOutc own s cs s' cs'.
Proof.
  intros own s cs own' rk' s' cs' [HI [Hext [Hlen [Hg HSt]]]] HS HL HC HSy. exists own', rk'.
  split; [split; [exact HI | split; [exact HL | split; [exact HC | exact HSy]]]|].
  split; [apply (HSt HS)|]. split; [exact Hext|]. split; [exact Hlen | exact Hg].
Qed.

Lemma LoadFacts_seen : forall own s sM cs t c idx,
  InvO own s cs -> LoadFacts own s sM t c idx ->
  at_cnt sM = at_cnt s /\
  forall k, k < at_cnt s -> st_seen (get_store sM k) =
    if Nat.eqb k idx then seen_touch (st_seen (get_store s idx)) t (vv_get c t)
    else st_seen (get_store s k).
Proof.
  intros own s sM cs t c idx HI [[Hc _] [F1 _]]. split; [exact Hc|].
  intros k Hk. apply F1. pose proof (i_cnt7 HI). lia.
Qed.

Lemma loadpart_goodOc : forall own rk s cs t idx,
  let c := vv_inc (clk cs t) t in
  let sM := loadpart_g RModel (tl_state s c) t c idx in
  GoodOc own rk s cs -> t < length cs -> idx < at_cnt s ->
  (forall x, x < at_cnt s -> x <> idx ->
     is_seen_by_current (st_seen (get_store s x)) c = true ->
     vv_lt (mo s idx) (mo s x) = false) ->
  exists rk', GoodOc own rk' sM cs /\
    ((forall x, x < at_cnt s -> x <> idx -> ~ K own s idx x) ->
     forall v, v < at_cnt s -> rk' v <= rk' idx) /\
    LoadFacts own (tl_state s c) sM t c idx.
Proof.
  intros own rk s cs t idx c sM [HI [HL [HC HSy]]] Ht Hidx Hcand.
  destruct (@model_loadpart_good own rk (tl_state s c) cs t c idx (InvO_tl c HI) (LinkO_tl c HL) HC Hidx Hcand)
    as [HIM [[rk' [HLM Hlast]] [HCM HLF]]].
  pose proof (@Sy_load own (tl_state s c) sM cs t c idx (InvO_tl c HI) HSy Ht (sf_fr HI Ht) HLF) as HSyM.
  exists rk'. split; [split; [exact HIM | split; [exact HLM | split; [exact HCM | exact HSyM]]]|].
  split; [exact Hlast | exact HLF].
Qed.

Lemma load_outc : forall own rk' s cs t idx o,
  let c := vv_inc (clk cs t) t in
  let sM := loadpart_g RModel (tl_state s c) t c idx in
  InvO own s cs -> StampO s cs -> t < length cs -> idx < at_cnt s ->
  GoodOc own rk' sM cs -> LoadFacts own (tl_state s c) sM t c idx ->
  StepOutc own s cs sM (list_set cs t (sync_load c (st_sync (get_store sM idx)) o)).
Proof.
  intros own rk' s cs t idx o c sM HI HS Ht Hidx [HIM [HLM [HCM HSyM]]] HLF.
  destruct (LoadFacts_seen (InvO_tl c HI) HLF) as [Hc Hseen].
  apply (Out0_goodOc (load_out0 (s:=s) HIM (ext_load_model (InvO_tl c HI) HLF) Ht Hidx Hc Hseen o)
           HS HLM HCM HSyM).
Qed.

Theorem store_stepR_goodOc : forall own rk s cs t rel v o s' cs',
  GoodOc own rk s cs -> StampO s cs -> store_stepRc (s, cs) t rel v o = Some (s', cs') ->
  StepOutc own s cs s' cs'.
Proof.
  intros own rk s cs t rel v o s' cs' [HI [HL [HC HSy]]] HS Hstep. unfold StepOutc.
  unfold store_stepRc in Hstep.
  destruct (Nat.ltb_spec t (length cs)) as [Ht|Ht]; cbn [negb] in Hstep; [|discriminate].
  pose proof (i_cnt7 HI) as H7.
    destruct (Nat.leb_spec MAX_ATOMIC_HISTORY (at_cnt s)) as [Hfull|Hroom]; [discriminate|].
    set (c := vv_inc (clk cs t) t) in *.
    destruct (vv_le rel c) eqn:Hrelb; cbn [negb] in Hstep; [|discriminate].
    assert (Hrel : vle rel c) by (apply vv_le_spec; exact Hrelb).
    destruct (track_store s c) as [s1y|py] eqn:Htsy; [|discriminate]. apply track_store_inl in Htsy. subst s1y.
    inversion Hstep as [[Hs' Hcs']]. clear Hstep. subst s' cs'. unfold atomic_store.
    destruct (@plain_store_good own rk (ts_state s c) cs t c rel v o (InvO_ts c HI) (LinkO_ts c HL) HC HSy
                Ht Hroom (sf_fr HI Ht) (sf_len HI Ht) Hrel) as [[rk' HLn] [HCn HSyn]].
    apply (Out0_goodOc (store_out0 v o HI Ht Hroom Hrel) HS HLn HCn HSyn).
Qed.

Theorem rmw_stepR_goodOc : forall own rk s cs t rel idx f so fo s' cs',
  GoodOc own rk s cs -> StampO s cs -> rmw_stepRc (s, cs) t rel idx f so fo = Some (s', cs') ->
  StepOutc own s cs s' cs'.
Proof.
  intros own rk s cs t rel idx f so fo s' cs' [HI [HL [HC HSy]]] HS Hstep. unfold StepOutc.
  unfold rmw_stepRc in Hstep.
  destruct (Nat.ltb_spec t (length cs)) as [Ht|Ht]; cbn [negb] in Hstep; [|discriminate].
  pose proof (i_cnt7 HI) as H7.
    destruct (Nat.leb_spec MAX_ATOMIC_HISTORY (at_cnt s)) as [Hfull|Hroom]; [discriminate|].
    set (c := vv_inc (clk cs t) t) in *.
    destruct (vv_le rel c) eqn:Hrelb; cbn [negb] in Hstep; [|discriminate].
    assert (Hrel : vle rel c) by (apply vv_le_spec; exact Hrelb).
    destruct (match_rmw_to_stores s) as [l|] eqn:Hm; [|discriminate].
    destruct (existsb (Nat.eqb idx) l) eqn:He; [|discriminate].
    apply existsb_eqb_In in He. apply (rmw_candidates_spec _ _ Hm idx) in He.
    destruct He as [_ [Hidx Hall]].
    rewrite <- atomic_rmw_g_model in Hstep. unfold atomic_rmw_g in Hstep.
    destruct (track_load s c) as [s1x|px] eqn:Htlx; [|discriminate]. apply track_load_inl in Htlx. subst s1x. cbv zeta in Hstep.
    assert (Hcand : forall x, x < at_cnt (tl_state s c) -> x <> idx ->
              is_seen_by_current (st_seen (get_store (tl_state s c) x)) c = true ->
              vv_lt (mo (tl_state s c) idx) (mo (tl_state s c) x) = false).
    { intros x Hx Hne _.
      assert (Hx7 : x < MAX_ATOMIC_HISTORY) by (change (at_cnt (tl_state s c)) with (at_cnt s) in Hx; lia).
      apply (Hall x Hx7 Hx Hne). }
    assert (Hmax0 : forall x, x < at_cnt (tl_state s c) -> x <> idx -> ~ K own (tl_state s c) idx x).
    { intros x Hx Hne HK. change (at_cnt (tl_state s c)) with (at_cnt s) in Hx.
      assert (Hlt : vv_lt (mo s idx) (mo s x) = true) by (apply (lt_iff_K HI Hidx Hx); split; [lia | exact HK]).
      unfold mo in Hlt. rewrite (Hall x ltac:(lia) Hx Hne) in Hlt. discriminate. }
    destruct (loadpart_goodOc (conj HI (conj HL (conj HC HSy))) Ht Hidx Hcand) as [rk' [HGM [Hlast HLF]]].
    fold c in HGM, Hlast, HLF. specialize (Hlast Hmax0). pose proof HGM as [HIM [HLM [HCM HSyM]]].
    set (sM := loadpart_g RModel (tl_state s c) t c idx) in *.
    assert (HidxM : idx < at_cnt sM) by exact Hidx.
    pose proof (@ext_load_model own (tl_state s c) sM cs t c idx (InvO_tl c HI) HLF) as HextM.
    destruct (f (st_value (get_store sM idx))) as [next|].
    + destruct (track_store sM c) as [s1y|py] eqn:Htsy; [|discriminate]. apply track_store_inl in Htsy. subst s1y.
      inversion Hstep as [[Hs' Hcs']]. clear Hstep. subst s' cs'.
      destruct (acq_clock so HIM Ht HidxM) as [H1 [H2 [H3 H4]]].
      set (c' := sync_load c (st_sync (get_store sM idx)) so) in *.
      assert (HmaxM : forall x, x < at_cnt (ts_state sM c) -> x <> idx -> ~ K own (ts_state sM c) idx x).
      { intros x Hx Hne HK. change (at_cnt (ts_state sM c)) with (at_cnt s) in Hx.
        assert (HxM : x < at_cnt sM) by exact Hx.
        pose proof (ln_extc HLM HidxM HxM (fun e => Hne (eq_sym e)) HK) as Hlt.
        pose proof (Hlast x Hx). lia. }
      assert (HseenB : forall x, x < at_cnt (ts_state sM c) ->
                is_seen_by_current (st_seen (get_store (ts_state sM c) x)) c' = true ->
                K own (ts_state sM c) x idx).
      { intros x Hx Hs. apply (@seen_c'_below own (tl_state s c) sM cs t c idx so HIM HSyM HidxM HLF H7 x Hx Hs). }
      assert (Hidxseen : is_seen_by_current (st_seen (get_store (ts_state sM c) idx)) c' = true).
      { change (get_store (ts_state sM c) idx) with (get_store sM idx).
        destruct HLF as [_ [F1 _]]. rewrite (F1 idx ltac:(lia)), Nat.eqb_refl.
        apply (touch_knows _ HI HS Ht Hidx). apply sync_load_ge. }
      assert (Hrel' : vle rel c') by (eapply vle_trans; [exact Hrel | apply sync_load_ge]).
      destruct (@rmw_store_good own rk' (ts_state sM c) cs t c' rel next so idx (InvO_ts c HIM) (LinkO_ts c HLM) HCM HSyM
                  Ht Hroom H2 H3 Hrel' HidxM HmaxM HseenB Hidxseen) as [[rk'' HLn] [HCn HSyn]].
      destruct (LoadFacts_seen (InvO_tl c HI) HLF) as [Hc Hseen].
      apply (Out0_goodOc (rmw_store_out0 (s:=s) HIM HextM Ht HidxM Hc Hseen next so Hroom Hrel')
               HS HLn HCn HSyn).
    + inversion Hstep as [[Hs' Hcs']]. clear Hstep. subst s' cs'.
      apply (load_outc fo HI HS Ht Hidx HGM HLF).
Qed.

Theorem mstep_goodOc : forall own rk s cs t op s' cs',
  GoodOc own rk s cs -> StampO s cs -> mstep RModel (s, cs) t op = Some (s', cs') ->
  exists own' rk', GoodOc own' rk' s' cs' /\ StampO s' cs' /\ ext own s own' s' /\
                   length cs' = length cs /\ forall u, vle (clk cs u) (clk cs' u).
Proof.
  intros own rk s cs t op s' cs' HG HS Hstep. pose proof HG as [HI [HL [HC HSy]]].
  destruct op as [idx o|v o|idx f so fo|u].
  - (* load *)
    destruct (mstep_load_inv (i_cnt7 HI) Hstep) as [Ht [Hidx [Hcand Hst]]].
    set (c := vv_inc (clk cs t) t) in *. inversion Hst as [[Hs' Hcs']]. clear Hst Hstep. subst s' cs'.
    destruct (loadpart_goodOc HG Ht Hidx Hcand) as [rk' [HGM [_ HLF]]].
    apply (load_outc o HI HS Ht Hidx HGM HLF).
  - (* store *)
    rewrite mstep_store_eq in Hstep. apply (@store_stepR_goodOc own rk s cs t vv_new v o s' cs' HG HS Hstep).
  - (* rmw *)
    rewrite mstep_rmw_eq in Hstep. apply (@rmw_stepR_goodOc own rk s cs t vv_new idx f so fo s' cs' HG HS Hstep).
  - (* sync *)
    unfold mstep in Hstep.
    destruct (Nat.ltb_spec t (length cs)) as [Ht|Ht]; cbn [negb] in Hstep; [|discriminate].
    destruct (Nat.ltb_spec u (length cs)) as [Hu|Hu]; [|discriminate].
    inversion Hstep as [[Hs' Hcs']]. clear Hstep. subst s' cs'.
    apply (Out0_goodOc (sync_out0 HI Ht Hu) HS HL HC HSy).
Qed.

(* ------------------------------------------------------------------ *)
(* 13.12 the invariant on states of the machine                           *)

Definition GoodSc (st : mstate) : Prop :=
  (exists own rk, GoodOc own rk (fst st) (snd st)) /\ StampO (fst st) (snd st).

Theorem mstep_goodSc : forall st t op st', GoodSc st -> mstep RModel st t op = Some st' -> GoodSc st'.
Proof.
  intros [s cs] t op [s' cs'] [[own [rk HG]] HS] Hstep. cbn [fst snd] in *.
  destruct (@mstep_goodOc own rk s cs t op s' cs' HG HS Hstep) as [own' [rk' [HG' [HS' _]]]].
  split; [exists own', rk'; exact HG' | exact HS'].
Qed.

(* ---- the order and the knowledge only grow ---- *)
Theorem step_stable_model : forall st t op st' a b,
  GoodSc st -> mstep RModel st t op = Some st' ->
  lives st a -> lives st b -> mo_lt st a b = true ->
  lives st' a /\ lives st' b /\ mo_lt st' a b = true.
Proof.
  intros [s cs] t op [s' cs'] a b [[own [rk HG]] HS] Hstep Ha Hb Hlt.
  destruct (@mstep_goodOc own rk s cs t op s' cs' HG HS Hstep) as [own' [rk' [[HI' _] [_ [Hext _]]]]].
  destruct HG as [HI _]. apply (ext_stable HI HI' Hext Ha Hb Hlt).
Qed.

Theorem new_goodSc : forall me c0 v0 cs,
  me < length cs -> length cs <= MAX_THREADS -> clk cs me = c0 ->
  (1 <= vv_get c0 me \/ forall q, vv_get c0 q = 0) ->
  (forall t, t < length cs -> t < length (clk cs t)) ->
  (forall u t, u < length cs -> t < length cs -> vv_get (clk cs u) t <= vv_get (clk cs t) t) ->
  GoodSc (s_newc me c0 v0, cs).
Proof.
  intros me c0 v0 cs Hme Hn Hc0 Hk1 Hclen Hbclk.
  pose proof (@new_inv me c0 v0 cs Hme Hn Hc0 Hk1 Hclen Hbclk) as HI.
  pose proof (@new_live0 me c0 v0) as H0.
  assert (Hsrc : forall r sl sid, r < at_cnt (s_newc me c0 v0) ->
            st_rmw_src (get_store (s_newc me c0 v0) r) = Some (sl, sid) -> False).
  { intros r sl sid Hr Hs. rewrite (H0 r Hr) in Hs. discriminate. }
  split; [|apply (@new_stamp me c0 v0 cs Hc0)].
  exists (fun _ => me), (fun k => k). cbn [fst snd]. split; [exact HI|]. split; [|split].
  - constructor.
    + intros a Ha. rewrite (H0 a Ha). reflexivity.
    + intros r sl sid Hr Hs. exfalso. apply (Hsrc r sl sid Hr Hs).
    + intros r sl sid Hr Hs. exfalso. apply (Hsrc r sl sid Hr Hs).
    + intros a b _ _ H. exact H.
    + intros a b Ha Hb Hne. rewrite (H0 a Ha), (H0 b Hb) in Hne. lia.
    + intros r sl sid x Hr Hs. exfalso. apply (Hsrc r sl sid Hr Hs).
  - intros r sl sid x Hr Hs. exfalso. apply (Hsrc r sl sid Hr Hs).
  - intros a b Ha Hb _. rewrite (H0 a Ha), (H0 b Hb). apply (i_hbmo HI). cbn. lia.
Qed.

Theorem minit_goodSc : forall n v0 st,
  1 <= n -> n <= MAX_THREADS -> minit n v0 = Some st -> GoodSc st.
Proof.
  intros n v0 st H1 H5 Hm. rewrite minit_eq in Hm. inversion Hm as [Hst].
  destruct (minit_clocks H1 H5) as [A [B [C [D [E F]]]]]. apply (@new_goodSc 0 c_init v0 _ A B C D E F).
Qed.

(* ------------------------------------------------------------------ *)
(* 14. the sweep of section 12 finds nothing: what [step_chk] tests after
       a step is what the invariant says                                  *)

Lemma atom_viol_good : forall own rk s cs,
  InvO own s cs -> LinkOc own rk s -> atom_viol s = false.
Proof.
  intros own rk s cs HI HL. unfold atom_viol.
  destruct (existsb _ (seq 0 (at_cnt s))) eqn:E; [|reflexivity].
  exfalso. apply existsb_exists in E. destruct E as [r [Hr E]]. apply in_seq in Hr.
  unfold src_of in E. destruct (st_rmw_src (get_store s r)) as [[sl sid]|] eqn:Hsrc; [|discriminate].
  destruct (Nat.ltb sl (at_cnt s) && negb (Nat.eqb sl r) && Nat.eqb (st_id (get_store s sl)) sid);
    [|discriminate].
  destruct (@witness_atomicity own rk s cs r sl sid HI HL ltac:(lia) Hsrc) as [_ [Hlt Hbetween]].
  rewrite Hlt in E. cbn [negb orb] in E.
  apply existsb_exists in E. destruct E as [x [Hx E]]. apply in_seq in Hx.
  rewrite (Hbetween x ltac:(lia)) in E. discriminate.
Qed.

Lemma close_step_closed : forall own rk s cs ch r i,
  InvO own s cs -> LinkOc own rk s -> Closedc own s -> r < at_cnt s -> i < at_cnt s ->
  close_step (at_stores s, ch) (r, i) = (at_stores s, ch).
Proof.
  intros own rk s cs ch r i HI HL HC Hr Hi. unfold close_step.
  change (nth r (at_stores s) store_default) with (get_store s r).
  destruct (st_rmw_src (get_store s r)) as [[sl sid]|] eqn:Hsrc; [|reflexivity].
  destruct (negb (Nat.eqb sl r) && Nat.eqb (st_id (nth sl (at_stores s) store_default)) sid);
    [|reflexivity].
  destruct (Nat.eqb_spec i r) as [Hir|Hir]; [reflexivity|].
  destruct (Nat.eqb_spec i sl) as [His|His]; [reflexivity|]. cbn [orb].
  destruct (lk_srcc HL Hr Hsrc) as [Hslr _]. assert (Hsl : sl < at_cnt s) by lia.
  destruct (HC r sl sid i Hr Hsrc Hi His Hir) as [H1 H2].
  change (st_mo (nth sl (at_stores s) store_default)) with (mo s sl).
  change (st_mo (get_store s r)) with (mo s r).
  change (st_mo (nth i (at_stores s) store_default)) with (mo s i).
  destruct (vv_le (mo s sl) (mo s i)) eqn:E1.
  - apply (vv_le_iff_K HI Hsl Hi), H1, (vv_le_iff_K HI Hr Hi) in E1. rewrite E1. cbn [negb andb].
    destruct (vv_le (mo s i) (mo s r)) eqn:E2; [|reflexivity].
    apply (vv_le_iff_K HI Hi Hr), H2, (vv_le_iff_K HI Hi Hsl) in E2. rewrite E2. reflexivity.
  - cbn [andb]. destruct (vv_le (mo s i) (mo s r)) eqn:E2; [|reflexivity].
    apply (vv_le_iff_K HI Hi Hr), H2, (vv_le_iff_K HI Hi Hsl) in E2. rewrite E2. reflexivity.
Qed.

Lemma closed_b_good : forall own rk s cs,
  InvO own s cs -> LinkOc own rk s -> Closedc own s -> closed_b s = true.
Proof.
  intros own rk s cs HI HL HC. unfold closed_b. rewrite (Nat.min_l _ _ (i_cnt7 HI)).
  assert (H : forall l ch, (forall r i, In (r, i) l -> r < at_cnt s /\ i < at_cnt s) ->
            fold_left close_step l (at_stores s, ch) = (at_stores s, ch)).
  { induction l as [|[r i] l IH]; intros ch Hl; [reflexivity|]. cbn [fold_left].
    destruct (Hl r i (or_introl eq_refl)) as [Hr Hi].
    rewrite (close_step_closed ch HI HL HC Hr Hi). apply IH.
    intros r0 i0 Hin. apply Hl. right. exact Hin. }
  rewrite (H _ false (@pairs_live (at_cnt s))). reflexivity.
Qed.

Lemma step_chk_good : forall st t op st',
  GoodSc st -> mstep RModel st t op = Some st' -> step_chk st st' = 0.
Proof.
  intros st t op st' HG Hs.
  destruct (@mstep_goodSc st t op st' HG Hs) as [[own [rk [HI [HL [HC _]]]]] _].
  assert (Hok : step_ok st st' = true).
  { apply step_ok_good; [|exists own; exact HI].
    intros i j Hi Hj Hlt. apply (@step_stable_model st t op st' i j HG Hs Hi Hj Hlt). }
  unfold step_ok in Hok. apply andb_true_iff in Hok. destruct Hok as [H1 H2].
  unfold step_chk. rewrite H1, H2, (atom_viol_good HI HL), (closed_b_good HI HL HC). reflexivity.
Qed.

Theorem search_m_clean : forall n fuel st tr, GoodSc st -> search_m RModel n fuel st tr = None.
Proof.
  intros n fuel. induction fuel as [|f IH]; intros st tr HG; [reflexivity|].
  cbn [search_m]. apply first_some_none. intros [t op] _.
  destruct (mstep RModel st t op) as [st'|] eqn:Hs; [|reflexivity].
  rewrite (@step_chk_good st t op st' HG Hs). apply IH. apply (@mstep_goodSc st t op st' HG Hs).
Qed.

Corollary search_m0_clean : forall n pre fuel,
  1 <= n -> n <= MAX_THREADS -> mrun0 RModel n pre <> None -> search_m0 RModel n pre fuel = None.
Proof.
  intros n pre fuel H1 H5 Hrun. unfold search_m0. unfold mrun0 in *.
  destruct (minit n 0%N) as [st0|] eqn:Hi; [|contradiction].
  destruct (mrun RModel st0 pre) as [st|] eqn:Hr; [|contradiction].
  apply search_m_clean. apply (@mrun_keeps RModel GoodSc mstep_goodSc pre st0 st (minit_goodSc H1 H5 Hi) Hr).
Qed.

(* all stores, loads and RMWs of 4 threads, 3 steps after the prefix (and of
   3 threads, 4 steps): the model keeps every edge, never has equal clocks,
   keeps RMW atomicity and is closed after every step *)
Example search_closure_clean :
  search_m0 RModel 4 gp 3 = None /\ search_m0 RModel 3 gp 4 = None.
Proof.
  assert (H : forall n, n = 4 \/ n = 3 -> mrun0 RModel n gp <> None)
    by (intros n [Hn|Hn]; subst n; vm_compute; discriminate).
  split.
  - apply search_m0_clean; [lia | unfold MAX_THREADS; lia | apply H; left; reflexivity].
  - apply search_m0_clean; [lia | unfold MAX_THREADS; lia | apply H; right; reflexivity].
Qed.

Print Assumptions mstep_ext_c0421c4.
Print Assumptions mstep_inv_c0421c4.
Print Assumptions minit_inv.
Print Assumptions reach_inv_c0421c4.
Print Assumptions mlts_never_none_c0421c4.
Print Assumptions step_stable_c0421c4.
Print Assumptions run_stable_c0421c4.
Print Assumptions run_knows_c0421c4.
Print Assumptions CoRR_CoWR_c0421c4.
Print Assumptions CoRR_CoWR_rmw_c0421c4.
Print Assumptions CoWW_CoRW_c0421c4.
Print Assumptions store_knows_c0421c4.
Print Assumptions load_knows_c0421c4.
Print Assumptions reach_inv2_c0421c4.
Print Assumptions CoRR_same_thread_c0421c4.
Print Assumptions CoWR_same_thread_c0421c4.
Print Assumptions CoRW_same_thread_c0421c4.
Print Assumptions CoWW_same_thread_c0421c4.
Print Assumptions sync_knows_c0421c4.
Print Assumptions coherence_counterexample_before_fix.
Print Assumptions coherence_counterexample_repaired.
Print Assumptions corr_counterexample_before_fix.
Print Assumptions assert_ne_counterexample_before_fix.
Print Assumptions rmw_counterexample_before_fix.
Print Assumptions stale_read_example.
Print Assumptions rmw_gap_before_fix.
Print Assumptions rmw_gap_refused.
Print Assumptions model_alc_no_src.
Print Assumptions mrun_model_eq.
Print Assumptions reach_model_rmw_free_c0421c4.
Print Assumptions model_rmw_free_inv.
Print Assumptions model_refuses_old_counterexamples.
Print Assumptions search_closure_clean.
Print Assumptions search_closure_c0421c4.
Print Assumptions mrun_inv_c0421c4.
Print Assumptions atomic_load_g_model.
Print Assumptions atomic_rmw_g_model.
