(* SyncMono: the GLOBAL causality facts of the model.  Thread clocks and the
   synchronisation views of objects only grow along an execution; hence a
   release happens-before every LATER acquire of the same object, however many
   steps lie in between.  (SyncFacts.v has the local, one-step lemmas.)

   Contents
     0. view_le (requested), obj_le (= view_le, refined on channels by the
        FIFO of per-message views: chan_tail / chan_le), reflexivity,
        transitivity
     1. mono e e': the order on states.  Four components: the thread table
        does not shrink; every thread clock grows (for EVERY thread id: beyond
        the table caus_of is vv_new); e_h keeps its length and the harness
        track flags only go from true to false; every object keeps its index
        and either grows for obj_le or was a tracked slot and is now an OAlloc.
        mono_refl, mono_trans, the basic shapes (mono_same, mono_set_threads,
        mono_upd_thread, mono_set_caus, mono_upd_object, mono_append_*,
        mono_upd_hobj, mono_track_drop)
     2. framing lemmas in continuation style (mono e0 e -> mono e0 (F e)) for
        every helper of Ops.v; schedule_shape (what schedule changes,
        component by component) and schedule_mono; release_lock,
        post_acquire*, release_read/write, choose_store, load_post,
        fence_acq_keeps, atomic_rmw_monotone
     3. walk_step, the step of the walk over the micro-operations that all
        run-level invariants share (with under_*_setter, obj_at_slot);
        exec_micro_mono: [destruct m; mono_tac] (mstep = walk_step with the
        framing lemmas of mono, mclose peels the state constructors).
        It is proved for the state carried by MFail as well.  Corollaries:
        exec_micro_caus_mono, exec_micro_caus_mono_all,
        exec_micro_threads_length, exec_micro_view_mono (+ _weak),
        exec_micro_track_ok
     4. steps, steps_mono, steps_caus_mono, steps_threads_length,
        steps_view_mono, steps_track_ok, run_steps, run_mono
     5. the global hand-over theorems, each as X_handover_mono (hypothesis
        [mono e1 e2], usable on the popped state on which the runtime really
        executes the next micro-op, see mono_pre) and X_handover_global
        (hypothesis [steps e1 e2]):
          mutex_handover_global (+ _ok: the acquisition also succeeds),
          rwlock_write_handover_global, rwlock_read_handover_global,
          notify_handover_global, arc_drop_handover_global,
          channel_handover_global, channel_fifo_handover_global (+ _len)
     6. schedule_caus, init_exec_track_ok, run_view_mono,
        view_mono_counterexample

   DEVIATIONS from the requested statements

   D1  exec_micro_view_mono (and steps_view_mono) as requested are FALSE:
       objects do not always keep their kind.  MTrackDrop k overwrites slot k
       of the object store by OAlloc true whenever the HARNESS flag
       ho_track (get_h e k) is set; it never looks at the runtime object.  In a
       state whose e_h and e_objects are not aligned a mutex becomes an
       OAlloc.  Counterexample, proved below as view_mono_counterexample:
       e_objects = [a mutex], e_h = [hobj with ho_track = true],
       exec_micro e 0 (MTrackDrop 0) = MOk e' with e_objects e' = [OAlloc true],
       and view_le (OMutex _) (OAlloc true) = False.
       Proved instead, under the same names, with the extra hypothesis
         track_ok e :=  length (e_h e) <= length (e_objects e) /\
                        every slot whose track flag is set holds an OAlloc
       which holds initially (init_exec_track_ok) and is preserved
       (exec_micro_track_ok, steps_track_ok); run_view_mono is the requested
       statement, without side condition, for the runs of the model.
       exec_micro_view_mono_weak is the unconditional form ("the view grew, or
       the slot was tracked and now holds an OAlloc").
       No micro-op REPLACES a view: every write to mx_sync / rw_sync /
       nt_sync / arc_sync / ch_sender_sync keeps it or stores
       sync_store old ... (MWithMut only resets an atomic store's value;
       MSpawn/MBlockOn/MLazyGet append objects).
       The *_global theorems need NO track_ok: their hypotheses say that the
       object is still a mutex / rwlock / ... at the acquire, and no micro-op
       turns an OAlloc into anything else (mono_obj).
   D2  exec_micro_caus_mono, steps_caus_mono: as requested; the bound
       [j < length (e_threads e)] is not needed (exec_micro_caus_mono_all).
   D3  run_steps is stated for r = IterDone \/ r = IterFuel (on a panic run
       returns the state carried by MFail, which no successful step reaches).
       run_mono covers all three cases: that state is still above the start.
   D4  mutex_handover_global: as requested ([a < length (e_threads e)] is not
       used).  The other *_global theorems have no [get_X e _ = Some _]
       hypotheses: they follow from the micro-ops being MOk.
   D5  channel_handover_global has the hypothesis
       [Forall (vle (caus_of e a)) (ch_recv_sync s)] (e.g. the queue is empty
       when a sends).  Without it the statement is false: the next receive
       gets the OLDEST queued message, whose view need not contain a's clock.
       channel_fifo_handover_global is the general FIFO statement: with n
       messages ahead, the receive that follows at least n other receives
       acquires a's clock.
   D6  The relations between e1 and e2 in section 5 are on whole states; the
       runtime executes a micro-op on the state with the active thread's
       continuation popped (Check.run): use the _mono forms with mono_pre. *)
Require Import LV.Base LV.VV LV.VVFacts LV.Path LV.PathSpec LV.PathApi LV.Prog LV.Objects
               LV.Exec LV.Atomic LV.Ops LV.Check LV.SyncFacts LV.ExecFacts.
From Coq Require Import List Arith Lia Bool.
Import ListNotations.

(* ================================================================== *)
(* 0. The order on objects                                             *)
(* ================================================================== *)

Definition view_le (o o' : object) : Prop :=
  match o, o' with
  | OMutex s, OMutex s' => vle (mx_sync s) (mx_sync s')
  | ORwLock s, ORwLock s' => vle (rw_sync s) (rw_sync s')
  | ONotify s, ONotify s' => vle (nt_sync s) (nt_sync s')
  | OArc s, OArc s' => vle (arc_sync s) (arc_sync s')
  | OChannel s, OChannel s' => vle (ch_sender_sync s) (ch_sender_sync s')
  | OAtomic _, OAtomic _ | OCondvar _, OCondvar _ | OCell _, OCell _ | OAlloc _, OAlloc _ => True
  | _, _ => False
  end.

Lemma view_le_refl : forall o, view_le o o.
Proof. intros o. destruct o; cbn [view_le]; auto using vle_refl. Qed.

Lemma view_le_trans : forall o1 o2 o3, view_le o1 o2 -> view_le o2 o3 -> view_le o1 o3.
Proof.
  intros o1 o2 o3 H12 H23.
  destruct o1, o2; cbn [view_le] in H12; try contradiction;
    destruct o3; cbn [view_le] in H23 |- *; try contradiction; eauto using vle_trans.
Qed.

(* The per-message views of a channel form a FIFO (ch_recv_sync).
   [chan_tail c n s]: the sender view and every queue entry from position n on
   dominate c.  [chan_dom c s] is the case n = 0. *)
Definition chan_tail (c : vv) (n : nat) (s : chan_state) : Prop :=
  vle c (ch_sender_sync s) /\ Forall (vle c) (skipn n (ch_recv_sync s)).

Definition chan_dom (c : vv) (s : chan_state) : Prop := chan_tail c 0 s.

Definition chan_le (s s' : chan_state) : Prop :=
  vle (ch_sender_sync s) (ch_sender_sync s') /\
  forall c n, chan_tail c n s -> Forall (vle c) (skipn n (ch_recv_sync s')).

(* view_le, refined on channels by the FIFO of per-message views *)
Definition obj_le (o o' : object) : Prop :=
  match o, o' with
  | OChannel s, OChannel s' => chan_le s s'
  | _, _ => view_le o o'
  end.

Lemma chan_tail_le : forall c n n' s, n <= n' -> chan_tail c n s -> chan_tail c n' s.
Proof. intros c n n' s Hle [Hc Hq]. split; [exact Hc|]. eapply Forall_skipn_le; eassumption. Qed.

Lemma chan_le_refl : forall s, chan_le s s.
Proof. intros s. split; [apply vle_refl|]. intros c n [_ Hq]. exact Hq. Qed.

Lemma chan_le_trans : forall s1 s2 s3, chan_le s1 s2 -> chan_le s2 s3 -> chan_le s1 s3.
Proof.
  intros s1 s2 s3 [Ha1 Ha2] [Hb1 Hb2]. split; [eauto using vle_trans|].
  intros c n Hd. apply Hb2. split; [|apply Ha2; exact Hd].
  destruct Hd as [Hc _]. eauto using vle_trans.
Qed.

Lemma obj_le_view_le : forall o o', obj_le o o' -> view_le o o'.
Proof.
  intros o o' H. destruct o; try exact H. destruct o'; try exact H.
  cbn [obj_le view_le] in *. exact (proj1 H).
Qed.

Lemma obj_le_refl : forall o, obj_le o o.
Proof. intros o. destruct o; try apply view_le_refl. apply chan_le_refl. Qed.

Lemma obj_le_trans : forall o1 o2 o3, obj_le o1 o2 -> obj_le o2 o3 -> obj_le o1 o3.
Proof.
  intros o1 o2 o3 H12 H23.
  destruct o1, o2; cbn [obj_le view_le] in H12; try contradiction;
    destruct o3; cbn [obj_le view_le] in H23 |- *; try contradiction;
    eauto using vle_trans, chan_le_trans.
Qed.

Lemma chan_le_send : forall s s' ss,
  ch_sender_sync s' = ss -> ch_recv_sync s' = ch_recv_sync s ++ [ss] ->
  vle (ch_sender_sync s) ss -> chan_le s s'.
Proof.
  intros s s' ss Hs Hq Hle. split; [rewrite Hs; exact Hle|].
  intros c n [Hc Hf]. rewrite Hq, skipn_app. apply Forall_app. split; [exact Hf|].
  apply (Forall_skipn_le _ (vle c) 0 _ [ss] (Nat.le_0_l (n - length (ch_recv_sync s)))).
  cbn [skipn]. constructor; [eauto using vle_trans|constructor].
Qed.

Lemma chan_le_recv : forall s s' sy rest,
  ch_recv_sync s = sy :: rest -> ch_sender_sync s' = ch_sender_sync s ->
  ch_recv_sync s' = rest -> chan_le s s'.
Proof.
  intros s s' sy rest Hq Hs Hq'. split; [rewrite Hs; apply vle_refl|].
  intros c n [_ Hf]. rewrite Hq in Hf. rewrite Hq'.
  apply Forall_skipn_S in Hf. exact Hf.
Qed.

Lemma chan_le_same : forall s s',
  vle (ch_sender_sync s) (ch_sender_sync s') -> ch_recv_sync s' = ch_recv_sync s -> chan_le s s'.
Proof.
  intros s s' Hs Hq. split; [exact Hs|].
  intros c n [_ Hf]. rewrite Hq. exact Hf.
Qed.

Definition is_alloc (o : object) : Prop := exists d, o = OAlloc d.

(* ================================================================== *)
(* 1. The order on states                                              *)
(* ================================================================== *)

Definition cmono (e e' : exec) : Prop := forall j, vle (caus_of e j) (caus_of e' j).

Definition hmono (e e' : exec) : Prop :=
  length (e_h e') = length (e_h e) /\
  forall k, ho_track (get_h e' k) = true -> ho_track (get_h e k) = true.

Definition omono (e e' : exec) : Prop :=
  forall i o, nth_error (e_objects e) i = Some o ->
    exists o', nth_error (e_objects e') i = Some o' /\
               (obj_le o o' \/ (ho_track (get_h e i) = true /\ is_alloc o')).

Definition mono (e e' : exec) : Prop :=
  length (e_threads e) <= length (e_threads e') /\ cmono e e' /\ hmono e e' /\ omono e e'.

Lemma mono_refl : forall e, mono e e.
Proof.
  intros e. split; [apply Nat.le_refl|]. split; [intros j; apply vle_refl|].
  split; [split; auto|]. intros i o Ho. exists o. split; [exact Ho|left; apply obj_le_refl].
Qed.

Lemma obj_le_alloc_l : forall o o', is_alloc o -> obj_le o o' -> is_alloc o'.
Proof.
  intros o o' [d ->] H. destruct o'; cbn [obj_le view_le] in H; try contradiction.
  eexists; reflexivity.
Qed.

Lemma mono_trans : forall e1 e2 e3, mono e1 e2 -> mono e2 e3 -> mono e1 e3.
Proof.
  intros e1 e2 e3 (Hl1 & Hc1 & [Hh1 Ht1] & Ho1) (Hl2 & Hc2 & [Hh2 Ht2] & Ho2).
  split; [eauto using Nat.le_trans|]. split; [intros j; eauto using vle_trans|].
  split; [split; [congruence|auto]|].
  intros i o Ho. destruct (Ho1 i o Ho) as (o' & Ho' & Hr1).
  destruct (Ho2 i o' Ho') as (o'' & Ho'' & Hr2). exists o''. split; [exact Ho''|].
  destruct Hr2 as [Hle2|[Htr Hal]]; [|right; auto].
  destruct Hr1 as [Hle1|[Htr Hal]]; [left; eauto using obj_le_trans|].
  right. split; [exact Htr|]. eauto using obj_le_alloc_l.
Qed.

(* ---- basic one-step shapes ---- *)

Lemma mono_same : forall e e',
  e_threads e' = e_threads e -> e_objects e' = e_objects e -> e_h e' = e_h e -> mono e e'.
Proof.
  intros e e' Ht Ho Hh. split; [rewrite Ht; apply Nat.le_refl|].
  split; [intros j; rewrite (caus_of_threads_eq e' e j Ht); apply vle_refl|].
  split; [split; [congruence|unfold get_h; rewrite Hh; auto]|].
  intros i o Hi. exists o. rewrite Ho. split; [exact Hi|left; apply obj_le_refl].
Qed.

Lemma caus_of_get_thread : forall e j t, get_thread e j = Some t -> caus_of e j = t_caus t.
Proof. intros e j t H. unfold caus_of. rewrite H. reflexivity. Qed.

Lemma mono_set_threads : forall e ths',
  (forall j t, nth_error (e_threads e) j = Some t ->
     exists t', nth_error ths' j = Some t' /\ vle (t_caus t) (t_caus t')) ->
  mono e (ex_set_threads e ths').
Proof.
  intros e ths' H. split.
  - rewrite e_threads_set_threads.
    destruct (Nat.le_gt_cases (length (e_threads e)) (length ths')) as [Hle|Hgt]; [exact Hle|].
    destruct (nth_error (e_threads e) (length ths')) as [t|] eqn:Hn.
    + destruct (H _ _ Hn) as (t' & Hn' & _).
      assert (Hlt : length ths' < length ths') by (apply nth_error_Some; congruence). lia.
    + apply nth_error_None in Hn. lia.
  - split.
    + intros j. unfold caus_of at 1. destruct (get_thread e j) as [t|] eqn:Hj; [|apply vle_new].
      destruct (H _ _ Hj) as (t' & Hn' & Hle).
      rewrite (caus_of_get_thread (ex_set_threads e ths') j t'); [exact Hle|].
      unfold get_thread. rewrite e_threads_set_threads. exact Hn'.
    + split; [split; auto|]. intros i o Hi. exists o. split; [exact Hi|left; apply obj_le_refl].
Qed.

Lemma mono_upd_thread : forall e i f,
  (forall t, vle (t_caus t) (t_caus (f t))) -> mono e (upd_thread e i f).
Proof.
  intros e i f Hf. apply mono_set_threads. intros j t Hj.
  destruct (Nat.eq_dec i j) as [->|Hne].
  - rewrite nth_error_list_upd_same, Hj. cbn [option_map]. eauto.
  - rewrite nth_error_list_upd_other by exact Hne. exists t. split; [exact Hj|apply vle_refl].
Qed.

Lemma mono_mapi : forall e g,
  (forall id t, vle (t_caus t) (t_caus (g id t))) ->
  mono e (ex_set_threads e (mapi g (e_threads e))).
Proof.
  intros e g Hg. apply mono_set_threads. intros j t Hj.
  rewrite nth_error_mapi, Hj. cbn [option_map]. eauto.
Qed.

Lemma mono_append_threads : forall e l, mono e (ex_set_threads e (e_threads e ++ l)).
Proof.
  intros e l. apply mono_set_threads. intros j t Hj. exists t. split; [|apply vle_refl].
  rewrite nth_error_app1; [exact Hj|]. apply nth_error_Some. congruence.
Qed.

Lemma mono_set_caus : forall e me v, vle (caus_of e me) v -> mono e (set_caus e me v).
Proof.
  intros e me v Hv. apply mono_set_threads. intros j t Hj.
  destruct (Nat.eq_dec me j) as [->|Hne].
  - rewrite nth_error_list_upd_same, Hj. cbn [option_map]. eexists. split; [reflexivity|].
    rewrite t_caus_th_set_caus. rewrite (caus_of_get_thread e j t Hj) in Hv. exact Hv.
  - rewrite nth_error_list_upd_other by exact Hne. exists t. split; [exact Hj|apply vle_refl].
Qed.

Lemma mono_upd_object : forall e i f,
  (forall o, nth_error (e_objects e) i = Some o -> obj_le o (f o)) -> mono e (upd_object e i f).
Proof.
  intros e i f Hf. split; [apply Nat.le_refl|]. split; [intros j; apply vle_refl|].
  split; [split; auto|]. intros k o Hk. rewrite e_objects_upd_object.
  destruct (Nat.eq_dec i k) as [->|Hne].
  - rewrite nth_error_list_upd_same, Hk. cbn [option_map]. eauto.
  - rewrite nth_error_list_upd_other by exact Hne. exists o. split; [exact Hk|left; apply obj_le_refl].
Qed.

Lemma mono_append_objects : forall e l, mono e (ex_set_objects e (e_objects e ++ l)).
Proof.
  intros e l. split; [apply Nat.le_refl|]. split; [intros j; apply vle_refl|].
  split; [split; auto|]. intros i o Hi. exists o. split; [|left; apply obj_le_refl].
  change (nth_error (e_objects e ++ l) i = Some o).
  rewrite nth_error_app1; [exact Hi|]. apply nth_error_Some. congruence.
Qed.

Lemma mono_upd_hobj : forall e i f,
  (forall h, ho_track (f h) = true -> ho_track h = true) -> mono e (upd_hobj e i f).
Proof.
  intros e i f Hf. split; [apply Nat.le_refl|]. split; [intros j; apply vle_refl|].
  split.
  - split; [apply list_upd_length|]. intros k. unfold get_h. cbn [upd_hobj ex_set_h e_h].
    change (e_h (ex_set_h e (list_upd (e_h e) i f))) with (list_upd (e_h e) i f).
    destruct (nth_list_upd_same_or _ (e_h e) i f hobj_default k) as [->|[_ ->]]; auto.
  - intros k o Hk. exists o. split; [exact Hk|left; apply obj_le_refl].
Qed.

(* MTrackDrop: the only place where an object is overwritten without looking
   at its kind; the harness flag [ho_track] is what licenses it *)
Lemma mono_track_drop : forall e k,
  ho_track (get_h e k) = true ->
  mono e (upd_object (upd_hobj e k (fun ho => ho_set_track ho false)) k (fun _ => OAlloc true)).
Proof.
  intros e k Htr. split; [apply Nat.le_refl|]. split; [intros j; apply vle_refl|].
  split.
  - split; [apply list_upd_length|]. intros j. unfold get_h.
    change (e_h (upd_object (upd_hobj e k (fun ho => ho_set_track ho false)) k (fun _ => OAlloc true)))
      with (list_upd (e_h e) k (fun ho => ho_set_track ho false)).
    destruct (nth_list_upd_same_or _ (e_h e) k (fun ho => ho_set_track ho false) hobj_default j)
      as [->|[_ ->]]; [auto|]. cbn. discriminate.
  - intros i o Hi. rewrite e_objects_upd_object, e_objects_upd_hobj.
    destruct (Nat.eq_dec k i) as [->|Hne].
    + rewrite nth_error_list_upd_same, Hi. cbn [option_map]. eexists. split; [reflexivity|].
      right. split; [exact Htr|]. eexists; reflexivity.
    + rewrite nth_error_list_upd_other by exact Hne. exists o.
      split; [exact Hi|left; apply obj_le_refl].
Qed.

(* ================================================================== *)
(* 2. Framing lemmas, continuation style: mono e0 e -> mono e0 (F e)   *)
(* ================================================================== *)

Lemma mono_k : forall e0 e e', mono e e' -> mono e0 e -> mono e0 e'.
Proof. intros e0 e e' H1 H0. eapply mono_trans; eassumption. Qed.

Ltac tcaus_tac :=
  intros; cbn;
  repeat match goal with
         | |- context [match ?x with _ => _ end] => destruct x; cbn
         end;
  rewrite ?t_caus_thread_unpark, ?t_caus_set_unparked;
  auto using vle_refl, vle_inc, vle_join_l.

Lemma mono_upd_thread_k e0 e i f :
  (forall t, vle (t_caus t) (t_caus (f t))) -> mono e0 e -> mono e0 (upd_thread e i f).
Proof. intros Hf. apply mono_k, mono_upd_thread, Hf. Qed.

Lemma mono_set_caus_k e0 e me v :
  vle (caus_of e me) v -> mono e0 e -> mono e0 (set_caus e me v).
Proof. intros Hv. apply mono_k, mono_set_caus, Hv. Qed.

Lemma mono_causality_inc_k e0 e me : mono e0 e -> mono e0 (causality_inc e me).
Proof. apply mono_k, mono_upd_thread. tcaus_tac. Qed.

Lemma mono_push_cont_k e0 e me ms : mono e0 e -> mono e0 (push_cont e me ms).
Proof. apply mono_k, mono_upd_thread. tcaus_tac. Qed.

Lemma mono_push_guard_k e0 e me k m : mono e0 e -> mono e0 (push_guard e me k m).
Proof. apply mono_k, mono_upd_thread. tcaus_tac. Qed.

Lemma mono_drop_guard_k e0 e me k m : mono e0 e -> mono e0 (drop_guard e me k m).
Proof. apply mono_k, mono_upd_thread. tcaus_tac. Qed.

Lemma mono_map_others_k e0 e me p f :
  (forall t, vle (t_caus t) (t_caus (f t))) -> mono e0 e -> mono e0 (map_others e me p f).
Proof.
  intros Hf. apply mono_k. unfold map_others. apply mono_mapi.
  intros id t. destruct (negb (Nat.eqb id me) && p t); [apply Hf|apply vle_refl].
Qed.

Lemma mono_upd_object_k e0 e i o' :
  (forall o, nth_error (e_objects e) i = Some o -> obj_le o o') ->
  mono e0 e -> mono e0 (upd_object e i (fun _ => o')).
Proof. intros Hf. apply mono_k, mono_upd_object, Hf. Qed.

Lemma mono_upd_hobj_k e0 e i f :
  (forall h, ho_track (f h) = true -> ho_track h = true) ->
  mono e0 e -> mono e0 (upd_hobj e i f).
Proof. intros Hf. apply mono_k, mono_upd_hobj, Hf. Qed.

Lemma mono_set_slot_k e0 e k i b : mono e0 e -> mono e0 (set_slot e k i b).
Proof. apply mono_k, mono_upd_hobj. intros h H. exact H. Qed.

Lemma mono_track_drop_k e0 e k :
  ho_track (get_h e k) = true -> mono e0 e ->
  mono e0 (upd_object (upd_hobj e k (fun ho => ho_set_track ho false)) k (fun _ => OAlloc true)).
Proof. intros H. apply mono_k, mono_track_drop, H. Qed.

Lemma mono_append_objects_k e0 e l :
  mono e0 e -> mono e0 (ex_set_objects e (e_objects e ++ l)).
Proof. apply mono_k, mono_append_objects. Qed.

Lemma mono_append_threads_k e0 e l :
  mono e0 e -> mono e0 (ex_set_threads e (e_threads e ++ l)).
Proof. apply mono_k, mono_append_threads. Qed.

Lemma mono_same_k e0 e e' :
  e_threads e' = e_threads e -> e_objects e' = e_objects e -> e_h e' = e_h e ->
  mono e0 e -> mono e0 e'.
Proof. intros Ht Ho Hh. apply mono_k, mono_same; assumption. Qed.

Lemma mono_log_op_k e0 e me r : mono e0 e -> mono e0 (log_op e me r).
Proof. apply mono_k. unfold log_op. destruct (get_thread e me); [apply mono_same; reflexivity|apply mono_refl]. Qed.
Lemma mono_log_poll_k e0 e me : mono e0 e -> mono e0 (log_poll e me).
Proof. apply mono_k. unfold log_poll. destruct (get_thread e me); [apply mono_same; reflexivity|apply mono_refl]. Qed.

Lemma mono_threads_unpark_k e0 e me id : mono e0 e -> mono e0 (threads_unpark e me id).
Proof.
  apply mono_k. unfold threads_unpark. destruct (Nat.eqb id me); apply mono_upd_thread; tcaus_tac.
Qed.

Lemma mono_fold_unpark_k me l : forall e0 e,
  mono e0 e -> mono e0 (fold_left (fun e t => threads_unpark e me t) l e).
Proof.
  induction l as [|w l IH]; intros e0 e H; cbn [fold_left]; [exact H|].
  apply IH, mono_threads_unpark_k, H.
Qed.

(* ---- objects: what set_last_access and the lock functions do ---- *)
Lemma obj_le_set_last_access o act tid pid v : obj_le o (set_last_access o act tid pid v).
Proof.
  destruct o; try apply obj_le_refl; cbn [set_last_access].
  - destruct act; cbn; apply vle_refl.
  - exact I.
  - cbn; apply vle_refl.
  - exact I.
  - cbn; apply vle_refl.
  - cbn; apply vle_refl.
  - destruct act; cbn [obj_le]; (apply chan_le_same; [apply vle_refl|reflexivity]).
Qed.

(* schedule moves the path and picks the active thread; the chosen thread gets
   a new DPOR clock and the object of its pending operation a new last access;
   the other yielded threads become runnable.  Nothing else changes. *)
Definition new_dpor (t t' : thread) : Prop := t' = t \/ exists d, t' = th_set_dpor t d.
Definition unyielded (t t' : thread) : Prop := t' = t \/ (is_yield t = true /\ t' = set_runnable t).
Definition sched_thread (t t' : thread) : Prop := exists t1, new_dpor t t1 /\ unyielded t1 t'.
Definition sched_object (o o' : object) : Prop :=
  o' = o \/ exists act tid pid v, o' = set_last_access o act tid pid v.

Definition sched_rel (e e' : exec) : Prop :=
  pointwise sched_thread (e_threads e) (e_threads e') /\
  pointwise sched_object (e_objects e) (e_objects e') /\
  e_h e' = e_h e /\ e_seqcst e' = e_seqcst e /\ e_max_threads e' = e_max_threads e /\
  e_spawned e' = e_spawned e /\ e_joined e' = e_joined e /\ e_log e' = e_log e /\
  e_bodies e' = e_bodies e /\ e_lazy e' = e_lazy e.

Lemma sched_note_threads e nx pid th :
  pointwise new_dpor (e_threads e) (e_threads (sched_note e nx pid th)).
Proof.
  assert (Hr : forall t, new_dpor t t) by (left; reflexivity).
  destruct (sched_note_cases e nx pid th) as [->|(dv & i & act & ->)]; [apply pointwise_refl, Hr|].
  apply pointwise_list_upd; [exact Hr|]. intros t. right. eexists; reflexivity.
Qed.

Lemma sched_note_objects e nx pid th :
  pointwise sched_object (e_objects e) (e_objects (sched_note e nx pid th)).
Proof.
  assert (Hr : forall o, sched_object o o) by (left; reflexivity).
  destruct (sched_note_cases e nx pid th) as [->|(dv & i & act & ->)]; [apply pointwise_refl, Hr|].
  apply pointwise_list_upd; [exact Hr|]. intros o'. right. repeat eexists.
Qed.

Lemma schedule_shape e : sched_rel e (res_exec (fst (schedule e))).
Proof.
  (* the fields of [ex_set_active (ex_set_path e p) a] other than e_path and
     e_active are convertible to those of e *)
  assert (Hsame : sched_rel e e).
  { split; [apply pointwise_refl; intros t; exists t; split; left; reflexivity|].
    split; [apply pointwise_refl; left; reflexivity|]. repeat split. }
  destruct (schedule_cases e)
    as [(c & ->)|[(x & ->)|[(p1 & x & Hd & ->)|(curr & cur_th & p1 & p2 & next & Hp & ->)]]];
    cbn [fst res_exec]; try exact Hsame.
  unfold sched_post. set (e1 := sched_base e p2 next). destruct next as [nx|].
  - destruct (nth_error _ nx) as [th|]; cbn [fst res_exec]; [|exact Hsame].
    split; [|split; [exact (sched_note_objects e1 nx (pos p1) th)|]].
    + eapply pointwise_trans; [|exact (sched_note_threads e1 nx (pos p1) th)|apply pointwise_mapi].
      * intros t t1 t' H1 H2. exists t1. split; [exact H1|exact H2].
      * intros id t. destruct (is_yield t) eqn:Hy; cbn [andb]; [|left; reflexivity].
        destruct (negb (Nat.eqb id nx)); [right; auto|left; reflexivity].
    + destruct (sched_note_cases e1 nx (pos p1) th) as [->|(dv & i & act & ->)]; repeat split.
  - destruct (forallb _ _); cbn [fst res_exec]; exact Hsame.
Qed.

Lemma schedule_mono e : mono e (res_exec (fst (schedule e))).
Proof.
  destruct (schedule_shape e) as ([Htl Ht] & [_ Ho] & Hh & _).
  split; [rewrite Htl; apply Nat.le_refl|]. split; [|split].
  - intros j. unfold caus_of, get_thread.
    destruct (nth_error (e_threads e) j) as [t|] eqn:Hj; [|apply vle_new].
    destruct (Ht j t Hj) as (t' & -> & t1 & [->|[d ->]] & [->|[_ ->]]); apply vle_refl.
  - unfold hmono, get_h. rewrite Hh. auto.
  - intros i o Hi. destruct (Ho i o Hi) as (o' & Hi' & Hr). exists o'. split; [exact Hi'|left].
    destruct Hr as [->|(act & tid & pid & v & ->)]; [apply obj_le_refl|apply obj_le_set_last_access].
Qed.

Lemma schedule_mono_k e0 e : mono e0 e -> mono e0 (res_exec (fst (schedule e))).
Proof. apply mono_k, schedule_mono. Qed.

Ltac view_cbn :=
  cbn [obj_le view_le mx_sync rw_sync nt_sync arc_sync ch_sender_sync ch_recv_sync nt_set arc_set].

(* ---- the lock functions ---- *)
Lemma upd_object_const_get : forall e i o o',
  nth_error (e_objects e) i = Some o -> obj_le o o' ->
  forall x, nth_error (e_objects e) i = Some x -> obj_le x o'.
Proof. intros e i o o' Hi Hle x Hx. congruence. Qed.

Lemma release_lock_mono_k e0 e me m : mono e0 e -> mono e0 (release_lock e me m).
Proof.
  intros H. unfold release_lock. destruct (get_mutex e m) as [s|] eqn:Hg; [|exact H].
  apply get_mutex_nth in Hg. cbv zeta.
  match goal with |- mono _ (match e_active ?E with _ => _ end) =>
    assert (H1 : mono e0 E) end.
  { apply mono_upd_object_k; [|exact H].
    (eapply upd_object_const_get; [exact Hg|]). view_cbn. apply vle_refl. }
  destruct (e_active _); [|exact H1].
  apply mono_map_others_k; [tcaus_tac|]. apply mono_upd_object_k; [|exact H1].
  intros o Ho. rewrite nth_error_objects_upd_same, Hg in Ho. cbn [option_map] in Ho.
  injection Ho as <-. view_cbn. apply sync_store_keeps.
Qed.

Lemma post_acquire_mono e me m : mono e (fst (post_acquire e me m)).
Proof.
  unfold post_acquire. destruct (get_mutex e m) as [s|] eqn:Hg; [|apply mono_refl].
  apply get_mutex_nth in Hg. destruct (is_some (mx_lock s)); cbn [fst]; [apply mono_refl|].
  apply mono_map_others_k; [tcaus_tac|]. apply mono_set_caus_k; [apply sync_load_keeps|].
  apply mono_upd_object_k; [|apply mono_refl].
  (eapply upd_object_const_get; [exact Hg|]). view_cbn. apply vle_refl.
Qed.

Lemma post_acquire_read_mono e me r : mono e (fst (post_acquire_read e me r)).
Proof.
  unfold post_acquire_read. destruct (get_rw e r) as [s|] eqn:Hg; [|apply mono_refl].
  apply get_rw_nth in Hg.
  destruct (rw_lock s) as [[rs|w]|]; cbn [fst]; try apply mono_refl.
  all: apply mono_map_others_k; [tcaus_tac|]; apply mono_set_caus_k; [apply sync_load_keeps|];
    apply mono_upd_object_k; [|apply mono_refl];
    (eapply upd_object_const_get; [exact Hg|]); view_cbn; apply vle_refl.
Qed.

Lemma post_acquire_write_mono e me r : mono e (fst (post_acquire_write e me r)).
Proof.
  unfold post_acquire_write. destruct (get_rw e r) as [s|] eqn:Hg; [|apply mono_refl].
  apply get_rw_nth in Hg.
  destruct (rw_lock s) as [lk|]; cbn [fst]; try apply mono_refl.
  apply mono_map_others_k; [tcaus_tac|]; apply mono_set_caus_k; [apply sync_load_keeps|];
    apply mono_upd_object_k; [|apply mono_refl];
    (eapply upd_object_const_get; [exact Hg|]); view_cbn; apply vle_refl.
Qed.

Lemma release_read_mono e me r : mono e (res_exec (release_read e me r)).
Proof.
  unfold release_read. destruct (get_rw e r) as [s|] eqn:Hg; [|apply mono_refl].
  apply get_rw_nth in Hg. cbv zeta.
  destruct (rw_lock s) as [[rs|w]|]; cbn [res_exec]; try apply mono_refl.
  destruct (set_remove me rs); cbn [res_exec].
  - apply mono_map_others_k; [tcaus_tac|]. apply mono_upd_object_k; [|apply mono_refl].
    (eapply upd_object_const_get; [exact Hg|]). view_cbn. apply sync_store_keeps.
  - apply mono_upd_object_k; [|apply mono_refl].
    (eapply upd_object_const_get; [exact Hg|]). view_cbn. apply sync_store_keeps.
Qed.

Lemma release_write_mono e me r : mono e (res_exec (release_write e me r)).
Proof.
  unfold release_write. destruct (get_rw e r) as [s|] eqn:Hg; [|apply mono_refl].
  apply get_rw_nth in Hg. cbn [res_exec].
  apply mono_map_others_k; [tcaus_tac|]. apply mono_upd_object_k; [|apply mono_refl].
  (eapply upd_object_const_get; [exact Hg|]). view_cbn. apply sync_store_keeps.
Qed.

(* ---- atomics ---- *)
Lemma choose_store_frame e seed :
  e_threads (fst (choose_store e seed)) = e_threads e /\
  e_objects (fst (choose_store e seed)) = e_objects e /\
  e_h (fst (choose_store e seed)) = e_h e.
Proof.
  unfold choose_store.
  repeat match goal with
         | |- context [match ?x with _ => _ end] =>
             lazymatch x with
             | context [match _ with _ => _ end] => fail
             | _ => destruct x
             end
         end; cbn [fst]; auto.
Qed.

Lemma choose_store_mono e seed : mono e (fst (choose_store e seed)).
Proof. destruct (choose_store_frame e seed) as (H1 & H2 & H3). apply mono_same; assumption. Qed.

Lemma atomic_rmw_monotone : forall s me caus rel idx so fo f s' caus' prev ok,
  atomic_rmw s me caus rel idx so fo f = inl (s', caus', prev, ok) -> vle caus caus'.
Proof.
  intros s me caus rel idx so fo f s' caus' prev ok H. rewrite atomic_rmw_eq in H.
  destruct (track_load s caus) as [s1|p]; [|discriminate]. cbv zeta in H.
  destruct (f _); [destruct (track_store _ _); [|discriminate]|];
    injection H as _ <- _ _; apply sync_load_keeps.
Qed.

Lemma fence_acq_atomic_keeps s me : forall c, vle c (fence_acq_atomic s me c).
Proof.
  unfold fence_acq_atomic. induction (stores_order (at_cnt s)) as [|i l IH]; intros c;
    cbn [fold_left]; [apply vle_refl|].
  eapply vle_trans; [|apply IH].
  destruct (is_read_by_current _ _); [apply vle_join_l|apply vle_refl].
Qed.

Lemma fence_acq_keeps objs me : forall c, vle c (fence_acq objs me c).
Proof.
  unfold fence_acq. induction objs as [|o l IH]; intros c; cbn [fold_left]; [apply vle_refl|].
  eapply vle_trans; [|apply IH]. destruct o; try apply vle_refl. apply fence_acq_atomic_keeps.
Qed.

Lemma get_atomic_nth : forall e a s,
  get_atomic e a = Some s -> nth_error (e_objects e) a = Some (OAtomic s).
Proof.
  intros e a s H. unfold get_atomic in H.
  destruct (nth_error (e_objects e) a) as [[]|]; congruence.
Qed.

Lemma get_cell_nth : forall e a s,
  get_cell e a = Some s -> nth_error (e_objects e) a = Some (OCell s).
Proof.
  intros e a s H. unfold get_cell in H.
  destruct (nth_error (e_objects e) a) as [[]|]; congruence.
Qed.

(* ---- rewriting e_objects / through the frame ---- *)
Lemma e_objects_causality_inc e me : e_objects (causality_inc e me) = e_objects e.
Proof. reflexivity. Qed.
Lemma e_objects_set_path e x : e_objects (ex_set_path e x) = e_objects e.
Proof. reflexivity. Qed.
Lemma e_objects_set_lazy e x : e_objects (ex_set_lazy e x) = e_objects e.
Proof. reflexivity. Qed.
Lemma e_objects_set_objects e x : e_objects (ex_set_objects e x) = x.
Proof. reflexivity. Qed.
Lemma e_objects_log_poll e me : e_objects (log_poll e me) = e_objects e.
Proof. unfold log_poll. destruct (get_thread e me); reflexivity. Qed.

Global Hint Rewrite e_objects_causality_inc e_objects_set_path e_objects_set_lazy
  e_objects_set_objects e_objects_log_poll e_objects_set_threads e_objects_upd_thread
  e_objects_set_caus e_objects_map_others e_objects_upd_hobj e_objects_push_cont
  e_objects_set_slot e_objects_set_log e_objects_log_op : eobj.

(* ================================================================== *)
(* 3. One micro-operation                                              *)
(* ================================================================== *)

(* The walk through the unfolded [exec_micro e me m] that every run-level
   invariant repeats.  [walk_step sched frame] makes one step:
   - do_branch, do_park, do_yield are unfolded (an update of the thread, then
     schedule); on the result of schedule it calls [sched], which must reduce
     the goal to one about the state that is scheduled;
   - for an application t of a helper that the walk does not unfold
     (load_post, post_acquire*, release_read / release_write, choose_store),
     [frame H t] must add what the invariant says about t as hypothesis H (and
     fail on a helper it does not know); t is then destructed;
   - otherwise the innermost match of the goal is destructed. *)
Ltac walk_step sched frame :=
  let H := fresh "Hfr" in
  match goal with
  | |- _ (res_exec (fst (schedule _))) => sched
  | |- _ (res_exec (do_branch _ _ _ _ _)) => unfold do_branch; cbv zeta
  | |- _ (res_exec (do_park _ _)) => unfold do_park
  | |- _ (res_exec (do_yield _ _)) => unfold do_yield
  | |- context [load_post ?e ?me ?a ?o] =>
      frame H (load_post e me a o);
      destruct (load_post e me a o) as [[? ?]|[? ?]]; cbn [lp_exec] in H
  | |- context [post_acquire ?e ?me ?m] =>
      frame H (post_acquire e me m); destruct (post_acquire e me m); cbn [fst] in H
  | |- context [post_acquire_read ?e ?me ?m] =>
      frame H (post_acquire_read e me m); destruct (post_acquire_read e me m); cbn [fst] in H
  | |- context [post_acquire_write ?e ?me ?m] =>
      frame H (post_acquire_write e me m); destruct (post_acquire_write e me m); cbn [fst] in H
  | |- context [release_read ?e ?me ?m] =>
      frame H (release_read e me m); destruct (release_read e me m); cbn [res_exec] in H
  | |- context [release_write ?e ?me ?m] =>
      frame H (release_write e me m); destruct (release_write e me m); cbn [res_exec] in H
  | |- context [choose_store ?e ?s] =>
      let Hct := fresh "Hct" in
      let Hco := fresh "Hco" in
      frame H (choose_store e s);
      destruct (choose_store_frame e s) as (Hct & Hco & _);
      destruct (choose_store e s) as [? [?|?]]; cbn [fst] in H, Hct, Hco
  | |- context [match ?x with _ => _ end] =>
      lazymatch x with
      | context [match _ with _ => _ end] => fail
      | _ => destruct x eqn:?
      end
  end; cbv beta iota.

(* the state under a setter of a field other than e_threads, e_objects, e_h *)
Ltac under_setter x :=
  lazymatch x with
  | ex_set_path ?e _ => e
  | ex_set_active ?e _ => e
  | ex_set_seqcst ?e _ => e
  | ex_set_spawned ?e _ => e
  | ex_set_joined ?e _ => e
  | ex_set_log ?e _ => e
  | ex_set_lazy ?e _ => e
  end.

(* ... of e_h *)
Ltac under_h_setter x :=
  lazymatch x with
  | set_slot ?e _ _ _ => e
  | upd_hobj ?e _ _ => e
  | ex_set_h ?e _ => e
  end.

(* ... of e_threads *)
Ltac under_thread_setter x :=
  lazymatch x with
  | push_cont ?e _ _ => e
  | push_guard ?e _ _ _ => e
  | drop_guard ?e _ _ _ => e
  | causality_inc ?e _ => e
  | set_caus ?e _ _ => e
  | threads_unpark ?e _ _ => e
  | fold_left _ _ ?e => e
  | map_others ?e _ _ _ => e
  | upd_thread ?e _ _ => e
  | ex_set_threads ?e _ => e
  end.

Ltac conv_hyps :=
  repeat match goal with
         | H : get_mutex _ _ = Some _ |- _ => apply get_mutex_nth in H
         | H : get_rw _ _ = Some _ |- _ => apply get_rw_nth in H
         | H : get_notify _ _ = Some _ |- _ => apply get_notify_nth in H
         | H : get_chan _ _ = Some _ |- _ => apply get_chan_nth in H
         | H : get_arc _ _ = Some _ |- _ => apply get_arc_nth in H
         | H : get_atomic _ _ = Some _ |- _ => apply get_atomic_nth in H
         | H : get_cell _ _ = Some _ |- _ => apply get_cell_nth in H
         end.

Ltac side_caus :=
  first [ apply sync_load_keeps | apply vle_join_l | apply fence_acq_keeps
        | rewrite ?caus_of_upd_object;
          erewrite caus_of_threads_eq by eassumption;
          erewrite caus_of_get_thread by eassumption;
          eauto using atomic_load_monotone, atomic_rmw_monotone ].

(* The side condition of an X_upd_object_k lemma,
   [forall o, nth_error (e_objects E) i = Some o -> P o o']: finds in the
   context which object the slot holds (a get_X fact, read through the helpers
   that leave e_objects alone) and leaves [P that_object o'].
   [strip_frame H] removes those helpers from under e_objects in H; a cbn on
   their names, because autorewrite with eobj is slow on the large states. *)
Ltac strip_frame H :=
  cbn [e_objects ex_set_threads ex_set_path ex_set_lazy ex_set_log ex_set_h ex_set_active
       upd_thread set_caus map_others push_cont causality_inc upd_hobj set_slot] in H;
  rewrite ?e_objects_log_op, ?e_objects_log_poll in H.

Ltac obj_at_slot :=
  let o := fresh "o" in
  let Ho := fresh "Ho" in
  intros o Ho; conv_hyps;
  repeat match goal with
         | H : nth_error (e_objects ?x) _ = Some _ |- _ =>
             assert_fails (is_var x); progress strip_frame H
         | H : e_objects _ = e_objects ?x |- _ =>
             assert_fails (is_var x); progress strip_frame H
         end;
  try match goal with
      | Hco : e_objects ?e1 = e_objects _ |- _ => rewrite Hco in Ho
      end;
  match goal with
  | Hg : nth_error ?l ?i = Some _, Ho' : nth_error ?l ?i = Some o |- _ =>
      rewrite Hg in Ho'; injection Ho' as Ho'; subst o
  end.

Ltac side_obj :=
  obj_at_slot; view_cbn;
  first [ exact I | apply vle_refl | apply sync_store_keeps
        | eapply chan_le_send; [reflexivity|reflexivity|view_cbn; apply sync_store_keeps]
        | eapply chan_le_recv; [eassumption|reflexivity|reflexivity]
        | apply chan_le_same; [view_cbn; apply sync_store_keeps|reflexivity] ].

Ltac side_h :=
  let h := fresh "h" in
  let Hh := fresh "Hh" in
  intros h Hh; first [exact Hh | cbn in Hh; discriminate Hh].

Ltac mclose_step :=
  match goal with
  | |- mono ?e ?e => apply mono_refl
  | H : mono ?E ?x |- mono _ ?x => apply (mono_trans _ E x); [|exact H]
  | |- mono _ (log_op _ _ _) => apply mono_log_op_k
  | |- mono _ (log_poll _ _) => apply mono_log_poll_k
  | |- mono _ (push_cont _ _ _) => apply mono_push_cont_k
  | |- mono _ (push_guard _ _ _ _) => apply mono_push_guard_k
  | |- mono _ (drop_guard _ _ _ _) => apply mono_drop_guard_k
  | |- mono _ (causality_inc _ _) => apply mono_causality_inc_k
  | |- mono _ (set_slot _ _ _ _) => apply mono_set_slot_k
  | |- mono _ (release_lock _ _ _) => apply release_lock_mono_k
  | |- mono _ (threads_unpark _ _ _) => apply mono_threads_unpark_k
  | |- mono _ (fold_left _ _ _) => apply mono_fold_unpark_k
  | |- mono _ ?x => let e := under_setter x in apply (mono_same_k _ e); [reflexivity..|]
  | |- mono _ (ex_set_objects ?e (e_objects ?e ++ _)) => apply mono_append_objects_k
  | |- mono _ (ex_set_threads ?e (e_threads ?e ++ _)) => apply mono_append_threads_k
  | |- mono _ (upd_object (upd_hobj _ _ _) _ (fun _ => OAlloc true)) =>
      apply mono_track_drop_k; [assumption|]
  | |- mono _ (upd_object _ _ _) => apply mono_upd_object_k; [side_obj|]
  | |- mono _ (upd_thread _ _ _) => apply mono_upd_thread_k; [tcaus_tac|]
  | |- mono _ (upd_hobj _ _ _) => apply mono_upd_hobj_k; [side_h|]
  | |- mono _ (set_caus _ _ _) => apply mono_set_caus_k; [side_caus|]
  | |- mono _ (map_others _ _ _ _) => apply mono_map_others_k; [tcaus_tac|]
  end.

(* (the two rewrites: when the receiver is gone MSendPost writes the channel
   object twice, push and then Channel::undo_send; the first write is dead) *)
Ltac mclose :=
  cbn [res_exec lp_exec];
  rewrite ?upd_object_map_others_upd_object_const, ?upd_object_upd_object_const;
  repeat mclose_step.

Ltac mono_sched := apply schedule_mono_k.

Ltac mono_frame0 H t :=
  lazymatch t with
  | post_acquire ?e ?me ?m => pose proof (post_acquire_mono e me m) as H
  | post_acquire_read ?e ?me ?m => pose proof (post_acquire_read_mono e me m) as H
  | post_acquire_write ?e ?me ?m => pose proof (post_acquire_write_mono e me m) as H
  | release_read ?e ?me ?m => pose proof (release_read_mono e me m) as H
  | release_write ?e ?me ?m => pose proof (release_write_mono e me m) as H
  | choose_store ?e ?s => pose proof (choose_store_mono e s) as H
  end.

Ltac mstep := walk_step mono_sched mono_frame0.

Lemma load_post_mono e me a o : mono e (lp_exec (load_post e me a o)).
Proof. unfold load_post. repeat mstep. all: mclose. Qed.

Ltac mono_frame H t :=
  lazymatch t with
  | load_post ?e ?me ?a ?o => pose proof (load_post_mono e me a o) as H
  | _ => mono_frame0 H t
  end.

Ltac mstep' := walk_step mono_sched mono_frame.

Ltac mono_tac :=
  cbn [exec_micro]; unfold lift_path, mbind; cbv beta iota;
  repeat mstep'; mclose.

(* every state produced by a micro-operation, successful or panicking, is
   above the state it started from *)
Lemma exec_micro_mono e me m : mono e (res_exec (exec_micro e me m)).
Proof. destruct m; mono_tac. Qed.

(* ---- the requested one-step statements ---- *)
Lemma exec_micro_mono_ok e me m e' : exec_micro e me m = MOk e' -> mono e e'.
Proof. intros H. pose proof (exec_micro_mono e me m) as Hm. rewrite H in Hm. exact Hm. Qed.

Lemma exec_micro_caus_mono : forall e me m e', exec_micro e me m = MOk e' ->
  forall j, j < length (e_threads e) -> vle (caus_of e j) (caus_of e' j).
Proof. intros e me m e' H j _. destruct (exec_micro_mono_ok _ _ _ _ H) as (_ & Hc & _). apply Hc. Qed.

(* the bound on j is not needed: beyond the thread table caus_of is vv_new *)
Lemma exec_micro_caus_mono_all : forall e me m e', exec_micro e me m = MOk e' ->
  forall j, vle (caus_of e j) (caus_of e' j).
Proof. intros e me m e' H. destruct (exec_micro_mono_ok _ _ _ _ H) as (_ & Hc & _). exact Hc. Qed.

Lemma exec_micro_threads_length : forall e me m e', exec_micro e me m = MOk e' ->
  length (e_threads e) <= length (e_threads e').
Proof. intros e me m e' H. destruct (exec_micro_mono_ok _ _ _ _ H) as (Hl & _). exact Hl. Qed.

(* the harness/runtime alignment that MTrackDrop relies on *)
Definition track_ok (e : exec) : Prop :=
  length (e_h e) <= length (e_objects e) /\
  forall k o, ho_track (get_h e k) = true -> nth_error (e_objects e) k = Some o -> is_alloc o.

Lemma omono_length e e' : omono e e' -> length (e_objects e) <= length (e_objects e').
Proof.
  intros H. destruct (Nat.le_gt_cases (length (e_objects e)) (length (e_objects e'))) as [Hle|Hgt];
    [exact Hle|].
  destruct (nth_error (e_objects e) (length (e_objects e'))) as [o|] eqn:Hn.
  - destruct (H _ _ Hn) as (o' & Hn' & _).
    assert (Hlt : length (e_objects e') < length (e_objects e')) by (apply nth_error_Some; congruence).
    lia.
  - apply nth_error_None in Hn. lia.
Qed.

Lemma get_h_track_lt e k : ho_track (get_h e k) = true -> k < length (e_h e).
Proof.
  intros H. destruct (Nat.lt_ge_cases k (length (e_h e))) as [Hlt|Hge]; [exact Hlt|].
  unfold get_h in H. rewrite nth_overflow in H by exact Hge. discriminate H.
Qed.

Lemma mono_track_ok e e' : mono e e' -> track_ok e -> track_ok e'.
Proof.
  intros (_ & _ & [Hhl Hht] & Ho) [Hlen Htr]. pose proof (omono_length _ _ Ho) as Hol. split; [lia|].
  intros k o' Hk Hn'. pose proof (Hht k Hk) as Hk0.
  pose proof (get_h_track_lt e k Hk0) as Hlt.
  destruct (nth_error (e_objects e) k) as [o|] eqn:Hn.
  - destruct (Ho k o Hn) as (o2 & Hn2 & Hr). assert (o2 = o') by congruence. subst o2.
    destruct Hr as [Hle|[_ Hal]]; [|exact Hal].
    eapply obj_le_alloc_l; [|exact Hle]. eapply Htr; eassumption.
  - apply nth_error_None in Hn. lia.
Qed.

Lemma omono_strict e e' : mono e e' -> track_ok e ->
  forall i o, nth_error (e_objects e) i = Some o ->
    exists o', nth_error (e_objects e') i = Some o' /\ obj_le o o'.
Proof.
  intros (_ & _ & _ & Ho) [_ Htr] i o Hi. destruct (Ho i o Hi) as (o' & Hi' & Hr).
  exists o'. split; [exact Hi'|]. destruct Hr as [Hle|[Hk [d ->]]]; [exact Hle|].
  destruct (Htr i o Hk Hi) as [d0 ->]. exact I.
Qed.

(* DEVIATION (see header): needs [track_ok e] *)
Lemma exec_micro_view_mono : forall e me m e', track_ok e -> exec_micro e me m = MOk e' ->
  forall i o, nth_error (e_objects e) i = Some o ->
    exists o', nth_error (e_objects e') i = Some o' /\ view_le o o'.
Proof.
  intros e me m e' Htr H i o Hi.
  destruct (omono_strict _ _ (exec_micro_mono_ok _ _ _ _ H) Htr i o Hi) as (o' & Hi' & Hle).
  eauto using obj_le_view_le.
Qed.

(* the unconditional form: either the view grew, or the object was a tracked
   allocation slot of the harness and is now a (dropped) OAlloc *)
Lemma exec_micro_view_mono_weak : forall e me m e', exec_micro e me m = MOk e' ->
  forall i o, nth_error (e_objects e) i = Some o ->
    exists o', nth_error (e_objects e') i = Some o' /\
               (view_le o o' \/ (ho_track (get_h e i) = true /\ is_alloc o')).
Proof.
  intros e me m e' H i o Hi. destruct (exec_micro_mono_ok _ _ _ _ H) as (_ & _ & _ & Ho).
  destruct (Ho i o Hi) as (o' & Hi' & Hr). exists o'. split; [exact Hi'|].
  destruct Hr as [Hle|Hr]; [left; apply obj_le_view_le, Hle|right; exact Hr].
Qed.

Lemma exec_micro_track_ok : forall e me m e', track_ok e -> exec_micro e me m = MOk e' -> track_ok e'.
Proof. intros e me m e' Htr H. eapply mono_track_ok; [eapply exec_micro_mono_ok; exact H|exact Htr]. Qed.

(* ================================================================== *)
(* 4. Executions                                                       *)
(* ================================================================== *)

Inductive steps : exec -> exec -> Prop :=
  | steps_refl e : steps e e
  | steps_step e me t m rest e1 e2 :
      e_active e = Some me -> nth_error (e_threads e) me = Some t -> t_cont t = m :: rest ->
      exec_micro (upd_thread e me (fun t => th_set_cont t rest)) me m = MOk e1 ->
      steps e1 e2 -> steps e e2.

Lemma steps_trans e1 e2 e3 : steps e1 e2 -> steps e2 e3 -> steps e1 e3.
Proof. intros H12 H23. induction H12; [exact H23|]. eapply steps_step; eauto. Qed.

(* the runtime pops the continuation of the active thread before it executes
   the micro-operation *)
Lemma mono_pre e1 e2 b rest :
  mono e1 e2 -> mono e1 (upd_thread e2 b (fun t => th_set_cont t rest)).
Proof. intros H. apply mono_upd_thread_k; [tcaus_tac|exact H]. Qed.

Lemma steps_invariant (I : exec -> Prop) :
  (forall e me t m rest e1,
     I e -> e_active e = Some me -> nth_error (e_threads e) me = Some t -> t_cont t = m :: rest ->
     exec_micro (upd_thread e me (fun t => th_set_cont t rest)) me m = MOk e1 -> I e1) ->
  forall e e', steps e e' -> I e -> I e'.
Proof.
  intros Hstep e e' H. induction H as [e|e me t m rest e1 e2 Ha Ht Hc Hx Hs IH]; eauto.
Qed.

Lemma steps_mono e e' : steps e e' -> mono e e'.
Proof.
  intros H. apply (steps_invariant (mono e)) with (2 := H); [|apply mono_refl].
  intros e0 me t m rest e1 H0 _ _ _ Hx.
  eapply mono_trans; [apply mono_pre, H0|eapply exec_micro_mono_ok; exact Hx].
Qed.

Lemma steps_caus_mono e e' : steps e e' ->
  forall j, j < length (e_threads e) -> vle (caus_of e j) (caus_of e' j).
Proof. intros H j _. destruct (steps_mono _ _ H) as (_ & Hc & _). apply Hc. Qed.

Lemma steps_threads_length e e' : steps e e' -> length (e_threads e) <= length (e_threads e').
Proof. intros H. destruct (steps_mono _ _ H) as (Hl & _). exact Hl. Qed.

Lemma steps_track_ok e e' : steps e e' -> track_ok e -> track_ok e'.
Proof. intros H. apply mono_track_ok, steps_mono, H. Qed.

Lemma steps_view_mono e e' : track_ok e -> steps e e' ->
  forall i o, nth_error (e_objects e) i = Some o ->
    exists o', nth_error (e_objects e') i = Some o' /\ view_le o o'.
Proof.
  intros Htr H i o Hi. destruct (omono_strict _ _ (steps_mono _ _ H) Htr i o Hi) as (o' & Hi' & Hle).
  eauto using obj_le_view_le.
Qed.

Lemma run_steps : forall fuel e e' r, run fuel e = (e', r) ->
  r = IterDone \/ r = IterFuel -> steps e e'.
Proof.
  induction fuel as [|fuel IH]; intros e e' r H Hr; cbn [run] in H.
  - injection H as <- _. apply steps_refl.
  - destruct (e_active e) as [me|] eqn:Ha; [|injection H as <- _; apply steps_refl].
    destruct (nth_error (e_threads e) me) as [t|] eqn:Ht;
      [|injection H as _ <-; destruct Hr; discriminate].
    destruct (t_cont t) as [|m rest] eqn:Hc; [injection H as _ <-; destruct Hr; discriminate|].
    destruct (exec_micro _ me m) as [e2|e2 pn] eqn:Hx;
      [|injection H as _ <-; destruct Hr; discriminate].
    eapply steps_step; eauto.
Qed.

(* the panicking run: the state carried by MFail is still above the start *)
Lemma run_mono : forall fuel e, mono e (fst (run fuel e)).
Proof.
  intros fuel e. apply (run_invariant (mono e)); [|apply mono_refl].
  intros e1 me t m rest H _ _ _. eapply mono_trans; [apply mono_pre, H|apply exec_micro_mono].
Qed.

(* ================================================================== *)
(* 5. The global hand-over theorems                                    *)
(* ================================================================== *)

(* an object that is not an OAlloc at the end was related by obj_le all along *)
Lemma mono_obj e e' i o o' :
  mono e e' -> nth_error (e_objects e) i = Some o -> nth_error (e_objects e') i = Some o' ->
  ~ is_alloc o' -> obj_le o o'.
Proof.
  intros (_ & _ & _ & Ho) Hi Hi' Hna. destruct (Ho i o Hi) as (o2 & Hi2 & Hr).
  assert (o2 = o') by congruence. subst o2. destruct Hr as [Hle|[_ Hal]]; [exact Hle|].
  destruct (Hna Hal).
Qed.

Ltac not_alloc := let d := fresh in let H := fresh in intros [d H]; discriminate H.

Lemma mono_chan_tail e e' h s s' c n :
  mono e e' -> get_chan e h = Some s -> get_chan e' h = Some s' ->
  chan_tail c n s -> chan_tail c n s'.
Proof.
  intros Hm Hg Hg' Ht.
  assert (Hle : obj_le (OChannel s) (OChannel s')).
  { apply (mono_obj _ _ _ _ _ Hm (get_chan_nth _ _ _ Hg) (get_chan_nth _ _ _ Hg')). not_alloc. }
  destruct Hle as [Hs Hq].
  split; [destruct Ht as [Hc _]; eauto using vle_trans|]. apply Hq, Ht.
Qed.

(* All hand-over theorems are proved in two forms:
     X_handover_mono    between the release and the acquire the state only
                        "grows" ([mono e1 e2]): this covers executions
                        ([steps_mono]), the state on which the next micro-op
                        is actually executed, which is e2 with the active
                        thread's continuation popped ([mono_pre]), and states
                        carried by a panic ([run_mono]);
     X_handover_global  the requested form, with [steps e1 e2]. *)
(* ---- Mutex ----
   Thread a releases mutex m in state e (e1 is the state after the release);
   the execution continues for any number of steps to e2, where the mutex is
   free; thread b acquires it.  Then everything a did before the release
   happens-before everything b does after the acquisition (and the acquisition
   succeeds).  Hypotheses as in SyncFacts.mutex_handover: [e_active e <> None]
   because Mutex::release_lock publishes nothing when no thread is active (D-a
   of SyncFacts), and [b < length (e_threads e2)] because set_caus is the
   identity on a thread id out of range (D-d).  [a < length (e_threads e)] of
   the requested statement is not needed (it is kept in
   mutex_handover_global, unused). *)
Theorem mutex_handover_mono : forall e a m s e2 b s2,
  get_mutex e m = Some s -> e_active e <> None ->
  mono (release_lock e a m) e2 ->
  get_mutex e2 m = Some s2 -> mx_lock s2 = None -> b < length (e_threads e2) ->
  snd (post_acquire e2 b m) = true /\
  vle (caus_of e a) (caus_of (fst (post_acquire e2 b m)) b).
Proof.
  intros e a m s e2 b s2 Hg Hact Hm Hg2 Hfree Hb.
  destruct (release_lock_publishes e a m s Hg Hact) as (s1 & Hg1 & _).
  assert (Hle : obj_le (OMutex s1) (OMutex s2)).
  { apply (mono_obj _ _ _ _ _ Hm (get_mutex_nth _ _ _ Hg1) (get_mutex_nth _ _ _ Hg2)). not_alloc. }
  exact (mutex_handover e a m s s1 e2 b s2 Hg Hact Hg1 Hg2 Hle Hfree Hb).
Qed.

Theorem mutex_handover_global : forall e a m s e1 e2 b,
  get_mutex e m = Some s -> e_active e <> None -> a < length (e_threads e) ->
  e1 = release_lock e a m -> steps e1 e2 ->
  forall s2, get_mutex e2 m = Some s2 -> mx_lock s2 = None -> b < length (e_threads e2) ->
  vle (caus_of e a) (caus_of (fst (post_acquire e2 b m)) b).
Proof.
  intros e a m s e1 e2 b Hg Hact _ He1 Hst s2 Hg2 Hfree Hb. subst e1.
  exact (proj2 (mutex_handover_mono e a m s e2 b s2 Hg Hact (steps_mono _ _ Hst) Hg2 Hfree Hb)).
Qed.

(* the same, together with the fact that the acquisition succeeds *)
Theorem mutex_handover_global_ok : forall e a m s e2 b s2,
  get_mutex e m = Some s -> e_active e <> None ->
  steps (release_lock e a m) e2 ->
  get_mutex e2 m = Some s2 -> mx_lock s2 = None -> b < length (e_threads e2) ->
  snd (post_acquire e2 b m) = true /\
  vle (caus_of e a) (caus_of (fst (post_acquire e2 b m)) b).
Proof.
  intros e a m s e2 b s2 Hg Hact Hst. apply (mutex_handover_mono e a m s e2 b s2 Hg Hact).
  apply steps_mono, Hst.
Qed.

(* ---- RwLock ----
   a releases its write (resp. read) guard on r; after any number of steps,
   any successful write- or read-acquisition (resp. write-acquisition) by b
   acquires a's clock.  [release_write e a r = MOk e1] already says that r is
   an rwlock in e; a successful acquisition says that it still is one in e2.
   (read-release to read-acquire transfers as well, but SyncFacts only states
   the three cases below.) *)
Lemma release_write_get e a r e1 : release_write e a r = MOk e1 -> exists s, get_rw e r = Some s.
Proof. unfold release_write. destruct (get_rw e r) as [s|]; [eauto|discriminate]. Qed.

Lemma release_read_get e a r e1 : release_read e a r = MOk e1 -> exists s, get_rw e r = Some s.
Proof. unfold release_read. destruct (get_rw e r) as [s|]; [eauto|discriminate]. Qed.

Lemma post_acquire_write_get e b r e3 :
  post_acquire_write e b r = (e3, true) -> exists s, get_rw e r = Some s.
Proof. unfold post_acquire_write. destruct (get_rw e r) as [s|]; [eauto|discriminate]. Qed.

Lemma post_acquire_read_get e b r e3 :
  post_acquire_read e b r = (e3, true) -> exists s, get_rw e r = Some s.
Proof. unfold post_acquire_read. destruct (get_rw e r) as [s|]; [eauto|discriminate]. Qed.

Theorem rwlock_write_handover_mono : forall e a r e1 e2 b,
  release_write e a r = MOk e1 -> mono e1 e2 -> b < length (e_threads e2) ->
  (forall e3, post_acquire_write e2 b r = (e3, true) -> vle (caus_of e a) (caus_of e3 b)) /\
  (forall e3, post_acquire_read e2 b r = (e3, true) -> vle (caus_of e a) (caus_of e3 b)).
Proof.
  intros e a r e1 e2 b Hrel Hm Hb.
  destruct (release_write_get _ _ _ _ Hrel) as (s & Hg).
  destruct (release_write_publishes e a r s Hg) as (e1' & s1 & Hrel' & Hg1 & _).
  assert (e1' = e1) by congruence. subst e1'.
  split; intros e3 Hacq.
  - destruct (post_acquire_write_get _ _ _ _ Hacq) as (s2 & Hg2).
    assert (Hle : obj_le (ORwLock s1) (ORwLock s2)).
  { apply (mono_obj _ _ _ _ _ Hm (get_rw_nth _ _ _ Hg1) (get_rw_nth _ _ _ Hg2)). not_alloc. }
    exact (proj1 (rw_write_handover e a r s e1 s1 e2 b s2 Hg Hrel Hg1 Hg2 Hle Hb) e3 Hacq).
  - destruct (post_acquire_read_get _ _ _ _ Hacq) as (s2 & Hg2).
    assert (Hle : obj_le (ORwLock s1) (ORwLock s2)).
  { apply (mono_obj _ _ _ _ _ Hm (get_rw_nth _ _ _ Hg1) (get_rw_nth _ _ _ Hg2)). not_alloc. }
    exact (proj2 (rw_write_handover e a r s e1 s1 e2 b s2 Hg Hrel Hg1 Hg2 Hle Hb) e3 Hacq).
Qed.

Theorem rwlock_write_handover_global : forall e a r e1 e2 b,
  release_write e a r = MOk e1 -> steps e1 e2 -> b < length (e_threads e2) ->
  (forall e3, post_acquire_write e2 b r = (e3, true) -> vle (caus_of e a) (caus_of e3 b)) /\
  (forall e3, post_acquire_read e2 b r = (e3, true) -> vle (caus_of e a) (caus_of e3 b)).
Proof. intros e a r e1 e2 b Hrel Hst. eapply rwlock_write_handover_mono; eauto using steps_mono. Qed.

Theorem rwlock_read_handover_mono : forall e a r e1 e2 b e3,
  release_read e a r = MOk e1 -> mono e1 e2 -> b < length (e_threads e2) ->
  post_acquire_write e2 b r = (e3, true) -> vle (caus_of e a) (caus_of e3 b).
Proof.
  intros e a r e1 e2 b e3 Hrel Hm Hb Hacq.
  destruct (release_read_get _ _ _ _ Hrel) as (s & Hg).
  destruct (release_read_publishes e a r s e1 Hg Hrel) as (s1 & Hg1 & _).
  destruct (post_acquire_write_get _ _ _ _ Hacq) as (s2 & Hg2).
  assert (Hle : obj_le (ORwLock s1) (ORwLock s2)).
  { apply (mono_obj _ _ _ _ _ Hm (get_rw_nth _ _ _ Hg1) (get_rw_nth _ _ _ Hg2)). not_alloc. }
  exact (rw_read_handover e a r s e1 s1 e2 b s2 e3 Hg Hrel Hg1 Hg2 Hle Hb Hacq).
Qed.

Theorem rwlock_read_handover_global : forall e a r e1 e2 b e3,
  release_read e a r = MOk e1 -> steps e1 e2 -> b < length (e_threads e2) ->
  post_acquire_write e2 b r = (e3, true) -> vle (caus_of e a) (caus_of e3 b).
Proof. intros e a r e1 e2 b e3 Hrel Hst. eapply rwlock_read_handover_mono; eauto using steps_mono. Qed.

(* ---- Notify ----
   a executes the notify (MNotifyPost n); after any number of steps b returns
   from its wait (MNotifyWait2 n).  Both steps being MOk says that n is a
   Notify object in e and in e2.  (This is also thread join: MExitNotify /
   MJoin schedule exactly these two micro-ops, SyncFacts.exit_schedules_post,
   join_schedules_wait.) *)
Theorem notify_handover_mono : forall e a n e1 e2 b e3,
  exec_micro e a (MNotifyPost n) = MOk e1 -> mono e1 e2 ->
  b < length (e_threads e2) -> exec_micro e2 b (MNotifyWait2 n) = MOk e3 ->
  vle (caus_of e a) (caus_of e3 b).
Proof.
  intros e a n e1 e2 b e3 Hpost Hm Hb Hwait.
  assert (Hg : exists s, get_notify e n = Some s).
  { rewrite exec_micro_notify_post in Hpost. destruct (get_notify e n) as [s|]; [eauto|discriminate]. }
  destruct Hg as (s & Hg).
  destruct (notify_post_publishes e a n s e1 Hg Hpost) as (s1 & Hg1 & _).
  assert (Hg2 : exists s2, get_notify e2 n = Some s2).
  { rewrite exec_micro_notify_wait2 in Hwait. destruct (get_notify e2 n) as [s2|]; [eauto|discriminate]. }
  destruct Hg2 as (s2 & Hg2).
  assert (Hle : obj_le (ONotify s1) (ONotify s2)).
  { apply (mono_obj _ _ _ _ _ Hm (get_notify_nth _ _ _ Hg1) (get_notify_nth _ _ _ Hg2)). not_alloc. }
  exact (notify_handover e a n s e1 s1 e2 b s2 e3 Hg Hpost Hg1 Hg2 Hle Hb Hwait).
Qed.

Theorem notify_handover_global : forall e a n e1 e2 b e3,
  exec_micro e a (MNotifyPost n) = MOk e1 -> steps e1 e2 ->
  b < length (e_threads e2) -> exec_micro e2 b (MNotifyWait2 n) = MOk e3 ->
  vle (caus_of e a) (caus_of e3 b).
Proof. intros e a n e1 e2 b e3 Hpost Hst. eapply notify_handover_mono; eauto using steps_mono. Qed.

(* ---- Arc ----
   a drops a handle of Arc k (MArcDecPost); later b executes the drop that
   takes the count from 1 to 0 (and runs the destructor of the payload). *)
Theorem arc_drop_handover_mono : forall e a k u e1 e2 b u2 s2 e3,
  exec_micro e a (MArcDecPost k u) = MOk e1 -> mono e1 e2 ->
  get_arc e2 k = Some s2 -> arc_cnt s2 = 1 ->
  exec_micro e2 b (MArcDecPost k u2) = MOk e3 -> b < length (e_threads e2) ->
  vle (caus_of e a) (caus_of e3 b).
Proof.
  intros e a k u e1 e2 b u2 s2 e3 Hdrop Hm Hg2 Hcnt Hlast Hb.
  assert (Hg : exists s, get_arc e k = Some s).
  { rewrite exec_micro_arc_dec_post in Hdrop. destruct (get_arc e k) as [s|]; [eauto|discriminate]. }
  destruct Hg as (s & Hg).
  destruct (arc_dec_post_publishes e a k u s e1 Hg Hdrop) as (cnt & s1 & _ & Hg1 & _).
  assert (Hle : obj_le (OArc s1) (OArc s2)).
  { apply (mono_obj _ _ _ _ _ Hm (get_arc_nth _ _ _ Hg1) (get_arc_nth _ _ _ Hg2)). not_alloc. }
  exact (arc_drop_handover e a k u s e1 s1 e2 b u2 s2 e3 Hg Hdrop Hg1 Hg2 Hle Hcnt Hlast Hb).
Qed.

Theorem arc_drop_handover_global : forall e a k u e1 e2 b u2 s2 e3,
  exec_micro e a (MArcDecPost k u) = MOk e1 -> steps e1 e2 ->
  get_arc e2 k = Some s2 -> arc_cnt s2 = 1 ->
  exec_micro e2 b (MArcDecPost k u2) = MOk e3 -> b < length (e_threads e2) ->
  vle (caus_of e a) (caus_of e3 b).
Proof.
  intros e a k u e1 e2 b u2 s2 e3 Hdrop Hst. eapply arc_drop_handover_mono; eauto using steps_mono.
Qed.

(* ---- Channel ----
   The views attached to the queued messages are a FIFO.  a sends in state e,
   where every queue entry from position n on already dominates a's clock
   (always true for n = length of the queue, i.e. n messages are ahead of
   a's).  Then from the (n+1)-th later receive on, every receive on h acquires
   a's clock: later messages carry it because ch_sender_sync accumulates. *)
Lemma send_post_tail e a h v s e1 n :
  get_chan e h = Some s -> exec_micro e a (MSendPost h v) = MOk e1 ->
  Forall (vle (caus_of e a)) (skipn n (ch_recv_sync s)) ->
  exists s1, get_chan e1 h = Some s1 /\ chan_tail (caus_of e a) n s1.
Proof.
  intros Hg Hsend Hq. destruct (ho_rx (get_h e h)) eqn:Hrx.
  - (* receiver alive: the view is appended *)
    destruct (send_post_publishes e a h v s e1 Hg Hrx Hsend)
      as (s1 & Hg1 & _ & Hq1 & Hc & _).
    exists s1. split; [exact Hg1|]. split; [exact Hc|].
    rewrite Hq1, skipn_app. apply Forall_app. split; [exact Hq|].
    apply (Forall_skipn_le _ (vle (caus_of e a)) 0 _ [ch_sender_sync s1] (Nat.le_0_l _)).
    cbn [skipn]. constructor; [exact Hc|constructor].
  - (* receiver gone: the queue is untouched, the sender-side view still gets a's clock *)
    destruct (send_post_disconnected e a h v s e1 Hg Hrx Hsend) as (s1 & Hg1 & _ & Hq1 & Hc & _).
    exists s1. split; [exact Hg1|]. split; [exact Hc | rewrite Hq1; exact Hq].
Qed.

Lemma recv_post_inv e b h lg e' s :
  get_chan e h = Some s -> exec_micro e b (MRecvPost h lg) = MOk e' -> b < length (e_threads e) ->
  exists sy rest s', ch_recv_sync s = sy :: rest /\ vle sy (caus_of e' b) /\
    get_chan e' h = Some s' /\ ch_recv_sync s' = rest /\ ch_sender_sync s' = ch_sender_sync s.
Proof.
  intros Hg Hrecv Hb. pose proof Hrecv as Hx. cbn [exec_micro] in Hx. rewrite Hg in Hx.
  destruct (ch_cnt s) as [|n] eqn:Hcnt; [discriminate|].
  destruct (ch_recv_sync s) as [|sy rest] eqn:Hq; [discriminate|]. clear Hx.
  destruct (recv_post_acquires e b h lg s n sy rest e' Hg Hcnt Hq Hrecv Hb)
    as (Hsy & _ & s' & Hg' & _ & Hq' & Hs').
  exists sy, rest, s'. auto.
Qed.

Lemma recv_post_get e b h lg e' :
  exec_micro e b (MRecvPost h lg) = MOk e' -> exists s, get_chan e h = Some s.
Proof. cbn [exec_micro]. destruct (get_chan e h) as [s|]; [eauto|discriminate]. Qed.

(* a receive consumes one position *)
Lemma recv_post_tail e b h lg e' s c n :
  get_chan e h = Some s -> exec_micro e b (MRecvPost h lg) = MOk e' -> b < length (e_threads e) ->
  chan_tail c (S n) s -> exists s', get_chan e' h = Some s' /\ chan_tail c n s'.
Proof.
  intros Hg Hrecv Hb [Hc Hq].
  destruct (recv_post_inv e b h lg e' s Hg Hrecv Hb) as (sy & rest & s' & Hs & _ & Hg' & Hq' & Hs').
  exists s'. split; [exact Hg'|]. split; [rewrite Hs'; exact Hc|].
  rewrite Hq'. rewrite Hs in Hq. exact Hq.
Qed.

(* a receive at position 0 acquires *)
Lemma recv_post_tail_0 e b h lg e' s c :
  get_chan e h = Some s -> exec_micro e b (MRecvPost h lg) = MOk e' -> b < length (e_threads e) ->
  chan_tail c 0 s -> vle c (caus_of e' b).
Proof.
  intros Hg Hrecv Hb [_ Hq].
  destruct (recv_post_inv e b h lg e' s Hg Hrecv Hb) as (sy & rest & s' & Hs & Hsy & _).
  rewrite Hs in Hq. cbn [skipn] in Hq. inversion Hq; subst. eauto using vle_trans.
Qed.

(* [recvs h n e e']: from e to e' the state only grows and at least n
   receives on h are executed *)
Inductive recvs (h : nat) : nat -> exec -> exec -> Prop :=
  | recvs_0 e e' : mono e e' -> recvs h 0 e e'
  | recvs_S n e e1 b lg e2 e' :
      mono e e1 -> b < length (e_threads e1) ->
      exec_micro e1 b (MRecvPost h lg) = MOk e2 ->
      recvs h n e2 e' -> recvs h (S n) e e'.

Lemma recvs_tail h n e e' :
  recvs h n e e' ->
  forall c s s', get_chan e h = Some s -> get_chan e' h = Some s' ->
                 chan_tail c n s -> chan_tail c 0 s'.
Proof.
  intros H. induction H as [e e' Hm|n e e1 b lg e2 e' Hm Hb Hrecv Hr IH]; intros c s s' Hg Hg' Ht.
  - eapply mono_chan_tail; eassumption.
  - destruct (recv_post_get _ _ _ _ _ Hrecv) as (s1 & Hg1).
    pose proof (mono_chan_tail _ _ _ _ _ _ _ Hm Hg Hg1 Ht) as Ht1.
    destruct (recv_post_tail _ _ _ _ _ _ _ _ Hg1 Hrecv Hb Ht1) as (s2 & Hg2 & Ht2).
    eapply IH; eassumption.
Qed.

Theorem channel_fifo_handover_global : forall e a h v s n e1 e2 b lg e3,
  get_chan e h = Some s -> Forall (vle (caus_of e a)) (skipn n (ch_recv_sync s)) ->
  exec_micro e a (MSendPost h v) = MOk e1 ->
  recvs h n e1 e2 ->
  b < length (e_threads e2) -> exec_micro e2 b (MRecvPost h lg) = MOk e3 ->
  vle (caus_of e a) (caus_of e3 b).
Proof.
  intros e a h v s n e1 e2 b lg e3 Hg Hq Hsend Hr Hb Hrecv.
  destruct (send_post_tail e a h v s e1 n Hg Hsend Hq) as (s1 & Hg1 & Ht1).
  destruct (recv_post_get _ _ _ _ _ Hrecv) as (s2 & Hg2).
  pose proof (recvs_tail _ _ _ _ Hr _ _ _ Hg1 Hg2 Ht1) as Ht2.
  eapply recv_post_tail_0; eassumption.
Qed.

(* n messages ahead: the (n+1)-th or any later receive gets a's clock *)
Corollary channel_fifo_handover_global_len : forall e a h v s n e1 e2 b lg e3,
  get_chan e h = Some s -> length (ch_recv_sync s) <= n ->
  exec_micro e a (MSendPost h v) = MOk e1 ->
  recvs h n e1 e2 ->
  b < length (e_threads e2) -> exec_micro e2 b (MRecvPost h lg) = MOk e3 ->
  vle (caus_of e a) (caus_of e3 b).
Proof.
  intros e a h v s n e1 e2 b lg e3 Hg Hlen.
  apply (channel_fifo_handover_global e a h v s n e1 e2 b lg e3 Hg).
  rewrite skipn_all2 by exact Hlen. constructor.
Qed.

(* the requested form: the queue is empty when a sends (or, more generally,
   all queued messages already carry a's clock); then EVERY later receive
   acquires a's clock, however many steps, sends and receives lie in between *)
Theorem channel_handover_mono : forall e a h v s e1 e2 b lg e3,
  get_chan e h = Some s -> Forall (vle (caus_of e a)) (ch_recv_sync s) ->
  exec_micro e a (MSendPost h v) = MOk e1 -> mono e1 e2 ->
  b < length (e_threads e2) -> exec_micro e2 b (MRecvPost h lg) = MOk e3 ->
  vle (caus_of e a) (caus_of e3 b).
Proof.
  intros e a h v s e1 e2 b lg e3 Hg Hq Hsend Hm.
  apply (channel_fifo_handover_global e a h v s 0 e1 e2 b lg e3 Hg Hq Hsend).
  apply recvs_0, Hm.
Qed.

Theorem channel_handover_global : forall e a h v s e1 e2 b lg e3,
  get_chan e h = Some s -> Forall (vle (caus_of e a)) (ch_recv_sync s) ->
  exec_micro e a (MSendPost h v) = MOk e1 -> steps e1 e2 ->
  b < length (e_threads e2) -> exec_micro e2 b (MRecvPost h lg) = MOk e3 ->
  vle (caus_of e a) (caus_of e3 b).
Proof.
  intros e a h v s e1 e2 b lg e3 Hg Hq Hsend Hst.
  apply (channel_handover_mono e a h v s e1 e2 b lg e3 Hg Hq Hsend). apply steps_mono, Hst.
Qed.

(* ================================================================== *)
(* 6. Complements                                                      *)
(* ================================================================== *)

(* ---- schedule leaves every thread clock unchanged ---- *)
Lemma caus_of_mapi_keep e g j :
  (forall id t, t_caus (g id t) = t_caus t) ->
  caus_of (ex_set_threads e (mapi g (e_threads e))) j = caus_of e j.
Proof.
  intros Hg. unfold caus_of, get_thread. rewrite e_threads_set_threads, nth_error_mapi.
  destruct (nth_error (e_threads e) j) as [t|]; cbn [option_map]; [apply Hg|reflexivity].
Qed.

Lemma sched_note_caus e nx pid th j : caus_of (sched_note e nx pid th) j = caus_of e j.
Proof.
  destruct (sched_note_cases e nx pid th) as [->|(dv & i & act & ->)]; [reflexivity|].
  rewrite caus_of_upd_object. apply caus_of_upd_thread_keep. reflexivity.
Qed.

Lemma schedule_caus : forall e e', fst (schedule e) = MOk e' -> forall j, caus_of e' j = caus_of e j.
Proof.
  intros e e' H j.
  destruct (schedule_cases e)
    as [(c & Hs)|[(x & Hs)|[(p1 & x & Hd & Hs)|(curr & cur_th & p1 & p2 & next & Hp & Hs)]]];
    rewrite Hs in H; cbn [fst] in H; try discriminate H.
  assert (Hb : caus_of (sched_base e p2 next) j = caus_of e j) by reflexivity.
  revert H Hb. generalize (sched_base e p2 next). intros e1 H Hb.
  unfold sched_post in H. destruct next as [nx|].
  - destruct (nth_error (e_threads e1) nx) as [th|]; cbn [fst] in H; [|discriminate H].
    injection H as <-. unfold reactivate. rewrite caus_of_mapi_keep.
    + rewrite sched_note_caus. exact Hb.
    + intros id t. destruct (is_yield t && negb (Nat.eqb id nx)); reflexivity.
  - destruct (forallb is_terminated (e_threads e1)); cbn [fst] in H; [|discriminate H].
    injection H as <-. exact Hb.
Qed.

(* ---- the initial state satisfies track_ok ---- *)
Lemma create_object_ok d :
  exists o, create_object d vv_new vv_new = inl o /\
            (ho_track (hobj_of_decl d) = true -> is_alloc o).
Proof.
  destruct d; cbn [create_object hobj_of_decl]; try (eexists; split; [reflexivity|]; cbn; discriminate).
  (* DAtomic: atomic_new on the initial clocks computes to inl; what is left is DTrack *)
  eexists; split; [reflexivity|]. intros _. eexists; reflexivity.
Qed.

Lemma create_objects_track ds :
  exists os, create_objects ds vv_new vv_new = inl os /\ length os = length ds /\
    forall k o, ho_track (nth k (map hobj_of_decl ds) hobj_default) = true ->
                nth_error os k = Some o -> is_alloc o.
Proof.
  induction ds as [|d ds IH].
  - exists []. repeat split. intros [|k] o _ H; discriminate H.
  - destruct (create_object_ok d) as (o & Ho & Hal). destruct IH as (os & Hos & Hlen & Hk).
    exists (o :: os). cbn [create_objects]. rewrite Ho, Hos. split; [reflexivity|].
    split; [cbn [length]; congruence|].
    intros [|k] o' Htr Hn; cbn [map nth nth_error] in Htr, Hn.
    + injection Hn as <-. auto.
    + eauto.
Qed.

Lemma init_exec_track_ok p pa : track_ok (init_exec p pa).
Proof.
  destruct (create_objects_track (p_decls p)) as (os & Hos & Hlen & Hk).
  unfold track_ok, get_h, init_exec. cbn [e_h e_objects]. rewrite Hos.
  split; [rewrite map_length, Hlen; apply Nat.le_refl|]. exact Hk.
Qed.

(* hence the strict view order holds along every run of the model *)
Corollary run_view_mono fuel p pa e' r :
  run fuel (init_exec p pa) = (e', r) ->
  forall i o, nth_error (e_objects (init_exec p pa)) i = Some o ->
    exists o', nth_error (e_objects e') i = Some o' /\ view_le o o'.
Proof.
  intros H i o Hi. pose proof (run_mono fuel (init_exec p pa)) as Hm. rewrite H in Hm. cbn [fst] in Hm.
  destruct (omono_strict _ _ Hm (init_exec_track_ok p pa) i o Hi) as (o' & Hi' & Hle).
  eauto using obj_le_view_le.
Qed.

(* ---- the counterexample behind the deviation: without track_ok an object
   can change kind.  Start from any initial state, put a mutex in slot 0 of the
   object store and a harness object whose track flag is set in slot 0 of e_h;
   MTrackDrop 0 then overwrites the mutex by OAlloc true. ---- *)
Definition cex_mutex : object :=
  match create_object DMutex vv_new vv_new with inl o => o | inr _ => OAlloc false end.
Definition cex_state (p : prog) (pa : path) : exec :=
  ex_set_h (ex_set_objects (init_exec p pa) [cex_mutex]) [ho_set_track hobj_default true].

Lemma view_mono_counterexample p pa :
  exists e', exec_micro (cex_state p pa) 0 (MTrackDrop 0) = MOk e' /\
             nth_error (e_objects (cex_state p pa)) 0 = Some cex_mutex /\
             nth_error (e_objects e') 0 = Some (OAlloc true) /\
             ~ view_le cex_mutex (OAlloc true).
Proof.
  eexists. split; [reflexivity|]. split; [reflexivity|]. split; [reflexivity|].
  intros H. exact H.
Qed.

Print Assumptions exec_micro_caus_mono.
Print Assumptions exec_micro_view_mono.
Print Assumptions exec_micro_view_mono_weak.
Print Assumptions steps_caus_mono.
Print Assumptions steps_view_mono.
Print Assumptions run_steps.
Print Assumptions schedule_caus.
Print Assumptions init_exec_track_ok.
Print Assumptions mutex_handover_global.
Print Assumptions mutex_handover_global_ok.
Print Assumptions rwlock_write_handover_global.
Print Assumptions rwlock_read_handover_global.
Print Assumptions notify_handover_global.
Print Assumptions arc_drop_handover_global.
Print Assumptions channel_handover_global.
Print Assumptions channel_fifo_handover_global.
