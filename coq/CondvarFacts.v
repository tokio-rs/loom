(* CondvarFacts: rt::Condvar (Condvar::wait / notify_one / notify_all).
   Condvar::wait(c, m) is  MWait c m  =  [MBranch c AOpaque BNever; MCvWait c m;
   MPark; MBranch m AOpaque BMutexLocked; MLockPost m LMReacquire]:
   register at the back of c's waiter queue and release m (MCvWait), park
   through rt::park (ParkFacts), re-acquire m.  notify_one / notify_all pop the
   front / all waiters and call Set::unpark on them.

   Contents
     0. get_cv; ckeep c = NotifyFacts.slot ocv c (the waiter queue of condvar c
        is unchanged), ckeep_get; exec_micro_ckeep: the walk
        NotifyFacts.slot_tac for all micro-operations other than
        MCvWait c _ / MCvNotify c _
     1. B.1 exact step lemmas: exec_micro_wait_held / _not_held,
        exec_micro_cvwait, exec_micro_cvnotify_one_empty / _one_cons / _all,
        cvwait_effect (queue, mutex, threads)
     2. B.2 cv_queue_step_shape (all micro-operations), reg / cv_waiter_registered,
        reg_persists, tsteps_reg_persists
     3. B.3 notify_one_wakes_front, notify_one_empty_noop,
        notify_before_wait_is_lost, notify_all_wakes_all, cvnotify_wakes (what
        either notify does to a thread it pops)
     4. B.4 cv_wait_returns_only_after_notify (+ sequences), cv_wait_parks,
        cv_no_lost_wakeup (notify between registration and park),
        cv_waiter_reacquires, wait_continuation, the happens-before edges
        cv_wakeup_hb (through the unpark) and cv_reacquire_hb (through the mutex)
     5. counterexamples / findings (vm_compute): unpark_satisfies_condvar_wait,
        unpark_condvar_early_return, stale_waiter_entry

   DEVIATIONS from the requested statements: see the end of the file. *)
Require Import LV.Base LV.VV LV.VVFacts LV.Path LV.PathSpec LV.PathApi LV.Prog LV.Objects
               LV.Exec LV.Atomic LV.Ops LV.Check LV.SyncFacts LV.ExecFacts LV.SyncMono
               LV.NotifyFacts LV.ParkFacts.
From Coq Require Import List Arith Lia Bool.
Import ListNotations.

(* ================================================================== *)
(* 0. The waiter queue of one condvar, under all micro-operations      *)
(* ================================================================== *)

Definition get_cv (e : exec) (c : nat) : option condvar_state :=
  match nth_error (e_objects e) c with Some (OCondvar s) => Some s | _ => None end.

Lemma get_cv_nth e c s : get_cv e c = Some s -> nth_error (e_objects e) c = Some (OCondvar s).
Proof. unfold get_cv. destruct (nth_error (e_objects e) c) as [[]|]; congruence. Qed.

Lemma nth_get_cv e c s : nth_error (e_objects e) c = Some (OCondvar s) -> get_cv e c = Some s.
Proof. unfold get_cv. intros ->. reflexivity. Qed.

Lemma get_cv_objects_eq e1 e2 c : e_objects e1 = e_objects e2 -> get_cv e1 c = get_cv e2 c.
Proof. unfold get_cv. intros ->. reflexivity. Qed.

(* what a write to an object slot must satisfy *)
Definition ocv (o o' : object) : Prop :=
  match o with
  | OCondvar s => exists s', o' = OCondvar s' /\ cv_waiters s' = cv_waiters s
  | _ => True
  end.

Lemma ocv_refl o : ocv o o.
Proof. destruct o; cbn [ocv]; auto. eexists; split; reflexivity. Qed.

Lemma ocv_ok : slot_ok ocv.
Proof.
  split; try (intros; exact I).
  - apply ocv_refl.
  - intros o1 o2 o3 H12 H23. destruct o1; cbn [ocv] in *; auto.
    destruct H12 as (s2 & -> & E2). destruct H23 as (s3 & -> & E3). exists s3. split; congruence.
  - intros o act tid pid v. destruct o; cbn [ocv set_last_access]; auto.
    eexists; split; reflexivity.
Qed.

Definition ckeep (c : nat) : exec -> exec -> Prop := slot ocv c.

Lemma ckeep_get c e e' s : ckeep c e e' -> get_cv e c = Some s ->
  exists s', get_cv e' c = Some s' /\ cv_waiters s' = cv_waiters s.
Proof.
  intros H Hs. apply get_cv_nth in Hs. destruct (H _ Hs) as (o' & Ho' & s' & -> & E).
  exists s'. split; [apply nth_get_cv, Ho'|exact E].
Qed.

Ltac cside_obj := obj_at_slot; cbn [ocv]; first [ exact I | eexists; split; reflexivity ].

(* every micro-operation other than a registration on c (MCvWait c _) and a
   notify on c (MCvNotify c _) leaves the waiter queue of c alone; also for the
   state carried by a panic.  [track_ok] is needed for MTrackDrop only. *)
Lemma exec_micro_ckeep c e me m :
  track_ok e -> (forall mx, m <> MCvWait c mx) -> (forall all, m <> MCvNotify c all) ->
  ckeep c e (res_exec (exec_micro e me m)).
Proof.
  intros Htr Hw Hn. unfold ckeep.
  destruct m;
    try match goal with
        | |- slot _ _ _ (res_exec (exec_micro _ _ (MCvWait _ _))) => idtac
        | |- slot _ _ _ (res_exec (exec_micro _ _ (MCvNotify _ _))) => idtac
        | |- _ => clear Hw Hn; slot_tac ocv_ok cside_obj
        end.
  - (* MCvWait c0 m, c0 <> c *)
    assert (Hne : c0 <> c) by (intros ->; apply (Hw m); reflexivity).
    slot_tac ocv_ok cside_obj.
  - (* MCvNotify c0 all, c0 <> c *)
    assert (Hne : c0 <> c) by (intros ->; apply (Hn all); reflexivity).
    slot_tac ocv_ok cside_obj.
Qed.

(* ================================================================== *)
(* 1. B.1: exact step lemmas                                           *)
(* ================================================================== *)

(* the continuation of Condvar::wait(c, m) *)
Definition wait_cont (c m : nat) : list micro :=
  [MBranch c AOpaque BNever; MCvWait c m; MPark; MBranch m AOpaque BMutexLocked;
   MLockPost m LMReacquire].

Lemma exec_micro_wait_held e me c m :
  holds_guard e me GMutex m = true ->
  exec_micro e me (MWait c m) = MOk (push_cont e me (wait_cont c m)).
Proof. intros H. cbn [exec_micro]. rewrite H. reflexivity. Qed.

Lemma exec_micro_wait_not_held e me c m :
  holds_guard e me GMutex m = false ->
  exec_micro e me (MWait c m) = MOk (log_op e me RX).
Proof. intros H. cbn [exec_micro]. rewrite H. reflexivity. Qed.

(* the thread's continuation after MWait, literally *)
Lemma wait_continuation e me c m t :
  holds_guard e me GMutex m = true -> get_thread e me = Some t ->
  exists e', exec_micro e me (MWait c m) = MOk e' /\
    get_thread e' me = Some (th_set_cont t (wait_cont c m ++ t_cont t)) /\
    e_objects e' = e_objects e.
Proof.
  intros H Ht. eexists. split; [apply exec_micro_wait_held, H|]. split; [|reflexivity].
  unfold push_cont. rewrite get_thread_upd_thread_same, Ht. reflexivity.
Qed.

(* registration: push the thread at the back of the queue, release the mutex *)
Definition cv_registered (e : exec) (c me : nat) (s : condvar_state) : exec :=
  upd_object e c (fun _ => OCondvar (mkCv (cv_last s) (cv_waiters s ++ [me]))).

Lemma exec_micro_cvwait e me c m s :
  get_cv e c = Some s ->
  exec_micro e me (MCvWait c m) = MOk (release_lock (cv_registered e c me s) me m).
Proof. intros H. cbn [exec_micro]. rewrite (get_cv_nth _ _ _ H). reflexivity. Qed.

Lemma exec_micro_cvwait_none e me c m :
  get_cv e c = None -> exec_micro e me (MCvWait c m) = MFail e (PanicModel 17).
Proof.
  unfold get_cv. intros H. cbn [exec_micro].
  destruct (nth_error (e_objects e) c) as [[]|]; try reflexivity. discriminate H.
Qed.

Lemma exec_micro_cvnotify_one_empty e a c s :
  get_cv e c = Some s -> cv_waiters s = [] ->
  exec_micro e a (MCvNotify c false) = MOk (log_op e a RUnit).
Proof. intros H Hq. cbn [exec_micro]. rewrite (get_cv_nth _ _ _ H), Hq. reflexivity. Qed.

Lemma exec_micro_cvnotify_one_cons e a c s w rest :
  get_cv e c = Some s -> cv_waiters s = w :: rest ->
  exec_micro e a (MCvNotify c false) =
  MOk (log_op (threads_unpark (upd_object e c (fun _ => OCondvar (mkCv (cv_last s) rest))) a w) a RUnit).
Proof. intros H Hq. cbn [exec_micro]. rewrite (get_cv_nth _ _ _ H), Hq. reflexivity. Qed.

Lemma exec_micro_cvnotify_all e a c s :
  get_cv e c = Some s ->
  exec_micro e a (MCvNotify c true) =
  MOk (log_op (fold_left (fun e t => threads_unpark e a t) (cv_waiters s)
                 (upd_object e c (fun _ => OCondvar (mkCv (cv_last s) [])))) a RUnit).
Proof. intros H. cbn [exec_micro]. rewrite (get_cv_nth _ _ _ H). reflexivity. Qed.

Lemma exec_micro_cvnotify_none e a c all :
  get_cv e c = None -> exec_micro e a (MCvNotify c all) = MFail e (PanicModel 17).
Proof.
  unfold get_cv. intros H. cbn [exec_micro].
  destruct (nth_error (e_objects e) c) as [[]|]; try reflexivity. discriminate H.
Qed.

Lemma get_cv_upd_const e c o s' :
  nth_error (e_objects e) c = Some o -> get_cv (upd_object e c (fun _ => OCondvar s')) c = Some s'.
Proof. intros H. unfold get_cv. rewrite nth_error_objects_upd_same, H. reflexivity. Qed.

(* after a notify on c: the queue is what the notify wrote ([l] = [[w]] for notify_one) *)
Lemma get_cv_notified e a c o s' l :
  nth_error (e_objects e) c = Some o ->
  get_cv (log_op (fold_left (fun e t => threads_unpark e a t) l
                    (upd_object e c (fun _ => OCondvar s'))) a RUnit) c = Some s'.
Proof.
  intros H. rewrite (get_cv_objects_eq _ _ c (e_objects_log_op _ _ _)).
  rewrite (get_cv_objects_eq _ _ c (e_objects_fold_unpark _ _ _)).
  eapply get_cv_upd_const. exact H.
Qed.

Lemma release_lock_get_cv e me m c : forall s,
  get_cv e c = Some s -> exists s', get_cv (release_lock e me m) c = Some s' /\
    cv_waiters s' = cv_waiters s /\ cv_last s' = cv_last s.
Proof.
  intros s Hs. pose proof (get_cv_nth _ _ _ Hs) as Hn.
  unfold release_lock. destruct (get_mutex e m) as [sm|] eqn:Hg; [|eauto].
  apply get_mutex_nth in Hg. cbv zeta.
  assert (Hne : m <> c) by (intros ->; congruence).
  assert (H1 : forall o, get_cv (upd_object e m (fun _ => o)) c = Some s).
  { intros o. unfold get_cv. rewrite nth_error_objects_upd_other by exact Hne. rewrite Hn. reflexivity. }
  rewrite e_active_upd_object. destruct (e_active e); [|eauto].
  exists s. split; [|auto].
  rewrite (get_cv_objects_eq _ _ c (e_objects_map_others _ _ _ _)).
  unfold get_cv. rewrite nth_error_objects_upd_other by exact Hne.
  rewrite nth_error_objects_upd_other by exact Hne. rewrite Hn. reflexivity.
Qed.

Lemma cvwait_queue e me c m s :
  get_cv e c = Some s ->
  exists s', get_cv (release_lock (cv_registered e c me s) me m) c = Some s' /\
    cv_waiters s' = cv_waiters s ++ [me] /\ cv_last s' = cv_last s.
Proof.
  intros Hs. apply (release_lock_get_cv _ me m c (mkCv (cv_last s) (cv_waiters s ++ [me]))).
  eapply get_cv_upd_const. exact (get_cv_nth _ _ _ Hs).
Qed.

Lemma release_lock_threads e me m j t :
  get_thread e j = Some t ->
  exists t', get_thread (release_lock e me m) j = Some t' /\
    (t' = t \/ (j <> me /\ pending_on m t = true /\ t' = set_runnable t)).
Proof.
  intros Ht. unfold release_lock. destruct (get_mutex e m) as [sm|]; [|eauto].
  cbv zeta. rewrite e_active_upd_object. destruct (e_active e); [|eauto].
  rewrite get_thread_map_others.
  change (get_thread (upd_object (upd_object e m (fun _ => OMutex (mkMutex (mx_seqcst sm) None (mx_last sm) (mx_sync sm)))) m _) j)
    with (get_thread e j).
  rewrite Ht. cbn [option_map].
  destruct (Nat.eqb j me) eqn:E; cbn [negb andb]; [eauto|].
  destruct (pending_on m t) eqn:Hp; [|eauto].
  eexists; split; [reflexivity|]. right. apply Nat.eqb_neq in E. auto.
Qed.

(* MCvWait, exactly: the queue, the mutex, the threads *)
Theorem cvwait_effect : forall e me c m s e',
  get_cv e c = Some s -> exec_micro e me (MCvWait c m) = MOk e' ->
  (exists s', get_cv e' c = Some s' /\ cv_waiters s' = cv_waiters s ++ [me] /\ cv_last s' = cv_last s) /\
  get_thread e' me = get_thread e me /\
  (forall j t, get_thread e j = Some t ->
     exists t', get_thread e' j = Some t' /\
       (t' = t \/ (j <> me /\ pending_on m t = true /\ t' = set_runnable t))) /\
  (forall sm, get_mutex e m = Some sm -> e_active e <> None ->
     exists sm', get_mutex e' m = Some sm' /\ mx_lock sm' = None /\
                 vle (caus_of e me) (mx_sync sm') /\ vle (mx_sync sm) (mx_sync sm')).
Proof.
  intros e me c m s e' Hs Hx. rewrite (exec_micro_cvwait e me c m s Hs) in Hx. injection Hx as <-.
  pose proof (get_cv_nth _ _ _ Hs) as Hn.
  split; [|split; [|split]].
  - exact (cvwait_queue e me c m s Hs).
  - destruct (get_thread e me) as [t|] eqn:Ht.
    + destruct (release_lock_threads (cv_registered e c me s) me m me t Ht) as (t' & Ht' & [->|(Hne & _)]);
        [exact Ht'|destruct (Hne eq_refl)].
    + unfold get_thread in *. apply nth_error_None. apply nth_error_None in Ht.
      assert (Hl : length (e_threads (release_lock (cv_registered e c me s) me m)) = length (e_threads e)).
      { unfold release_lock. destruct (get_mutex _ m); [|reflexivity]. cbv zeta.
        rewrite e_active_upd_object. destruct (e_active _); [|reflexivity].
        rewrite length_threads_map_others. reflexivity. }
      lia.
  - intros j t Ht. exact (release_lock_threads (cv_registered e c me s) me m j t Ht).
  - intros sm Hg Hact.
    assert (Hg' : get_mutex (cv_registered e c me s) m = Some sm).
    { apply get_mutex_nth in Hg. unfold get_mutex, cv_registered.
      assert (Hne : c <> m) by (intros ->; congruence).
      rewrite nth_error_objects_upd_other by exact Hne. rewrite Hg. reflexivity. }
    destruct (release_lock_publishes (cv_registered e c me s) me m sm Hg' Hact) as (sm' & H1 & H2 & H3 & H4).
    exists sm'. auto.
Qed.

(* ================================================================== *)
(* 2. B.2: the waiter queue only changes by registration at the back   *)
(*    and pops at the front                                            *)
(* ================================================================== *)

Definition queue_step (c me : nat) (m : micro) (q q' : list nat) : Prop :=
  q' = q \/
  (exists mx, m = MCvWait c mx /\ q' = q ++ [me]) \/
  (m = MCvNotify c false /\ exists w, q = w :: q') \/
  (m = MCvNotify c true /\ q' = []).

(* all micro-operations, also for the state carried by a panic *)
Lemma cv_queue_shape_res c e me m s :
  track_ok e -> get_cv e c = Some s ->
  exists s', get_cv (res_exec (exec_micro e me m)) c = Some s' /\
             queue_step c me m (cv_waiters s) (cv_waiters s').
Proof.
  intros Htr Hs.
  assert (Hgen : (forall mx, m <> MCvWait c mx) -> (forall all, m <> MCvNotify c all) ->
                 exists s', get_cv (res_exec (exec_micro e me m)) c = Some s' /\
                            queue_step c me m (cv_waiters s) (cv_waiters s')).
  { intros Hw Hn. destruct (ckeep_get _ _ _ _ (exec_micro_ckeep c e me m Htr Hw Hn) Hs) as (s' & Hs' & E).
    exists s'. split; [exact Hs'|]. left. exact E. }
  pose proof (get_cv_nth _ _ _ Hs) as Hnth.
  destruct m; try (apply Hgen; intros; discriminate).
  - (* MCvWait c0 m *)
    destruct (Nat.eq_dec c0 c) as [->|Hne]; [|apply Hgen; intros; congruence].
    rewrite (exec_micro_cvwait e me c m s Hs). cbn [res_exec].
    destruct (cvwait_queue e me c m s Hs) as (s' & Hs' & Hq & _).
    exists s'. split; [exact Hs'|]. right; left. exists m. split; [reflexivity|exact Hq].
  - (* MCvNotify c0 all *)
    destruct (Nat.eq_dec c0 c) as [->|Hne]; [|apply Hgen; intros; congruence].
    destruct all.
    + rewrite (exec_micro_cvnotify_all e me c s Hs). cbn [res_exec].
      exists (mkCv (cv_last s) []). split; [|right; right; right; auto].
      exact (get_cv_notified e me c _ _ (cv_waiters s) Hnth).
    + destruct (cv_waiters s) as [|w rest] eqn:Hq.
      * rewrite (exec_micro_cvnotify_one_empty e me c s Hs Hq). cbn [res_exec].
        exists s. split; [|left; exact Hq].
        rewrite (get_cv_objects_eq _ _ c (e_objects_log_op _ _ _)). exact Hs.
      * rewrite (exec_micro_cvnotify_one_cons e me c s w rest Hs Hq). cbn [res_exec].
        exists (mkCv (cv_last s) rest). split; [|right; right; left; split; [reflexivity|eauto]].
        exact (get_cv_notified e me c _ _ [w] Hnth).
Qed.

Theorem cv_queue_step_shape : forall c e me m e' s,
  track_ok e -> get_cv e c = Some s -> exec_micro e me m = MOk e' ->
  exists s', get_cv e' c = Some s' /\
    (cv_waiters s' = cv_waiters s \/
     (exists mx, m = MCvWait c mx /\ cv_waiters s' = cv_waiters s ++ [me]) \/
     (m = MCvNotify c false /\ exists w, cv_waiters s = w :: cv_waiters s') \/
     (m = MCvNotify c true /\ cv_waiters s' = [])).
Proof.
  intros c e me m e' s Htr Hs Hx.
  destruct (cv_queue_shape_res c e me m s Htr Hs) as (s' & Hs' & Hq). rewrite Hx in Hs'.
  exists s'. split; [exact Hs'|exact Hq].
Qed.

(* thread b is registered in the waiter queue of condvar c *)
Definition reg (b c : nat) (e : exec) : Prop :=
  exists s, get_cv e c = Some s /\ In b (cv_waiters s).

(* the registration step registers *)
Theorem cv_waiter_registered : forall e b c mx s e1,
  get_cv e c = Some s -> exec_micro e b (MCvWait c mx) = MOk e1 -> reg b c e1.
Proof.
  intros e b c mx s e1 Hs Hx.
  destruct (cvwait_effect e b c mx s e1 Hs Hx) as ((s' & Hs' & Hq & _) & _).
  exists s'. split; [exact Hs'|]. rewrite Hq. apply in_or_app. right. left. reflexivity.
Qed.

(* ... and the thread stays registered until a notify on c pops it: under
   every micro-operation that is not a notify on c with b among the popped *)
Lemma reg_persists_res b c e me m :
  track_ok e -> reg b c e ->
  (forall all, m = MCvNotify c all -> ~ In b (unpark_targets e m)) ->
  reg b c (res_exec (exec_micro e me m)).
Proof.
  intros Htr (s & Hs & Hi) Hn.
  destruct (cv_queue_shape_res c e me m s Htr Hs) as (s' & Hs' & Hq).
  exists s'. split; [exact Hs'|].
  destruct Hq as [E|[(mx & _ & E)|[(Em & w & E)|(Em & E)]]].
  - rewrite E. exact Hi.
  - rewrite E. apply in_or_app. left. exact Hi.
  - specialize (Hn false Em). subst m. cbn [unpark_targets] in Hn.
    rewrite (get_cv_nth _ _ _ Hs), E in Hn. cbn [firstn] in Hn.
    rewrite E in Hi. destruct Hi as [->|Hi]; [|exact Hi]. exfalso. apply Hn. left. reflexivity.
  - specialize (Hn true Em). subst m. cbn [unpark_targets] in Hn.
    rewrite (get_cv_nth _ _ _ Hs) in Hn. destruct (Hn Hi).
Qed.

Theorem reg_persists : forall b c e me m e',
  track_ok e -> reg b c e ->
  (forall all, m = MCvNotify c all -> ~ In b (unpark_targets e m)) ->
  exec_micro e me m = MOk e' -> reg b c e'.
Proof.
  intros b c e me m e' Htr Hr Hn Hx.
  pose proof (reg_persists_res b c e me m Htr Hr Hn) as H. rewrite Hx in H. exact H.
Qed.

(* a notify_one on c pops the front only: everybody else stays registered *)
Theorem notify_one_keeps_others : forall b c e a e' s w rest,
  track_ok e -> get_cv e c = Some s -> cv_waiters s = w :: rest -> In b rest ->
  exec_micro e a (MCvNotify c false) = MOk e' -> reg b c e'.
Proof.
  intros b c e a e' s w rest Htr Hs Hq Hi Hx.
  destruct (cv_queue_step_shape c e a _ e' s Htr Hs Hx) as (s' & Hs' & Hsh).
  exists s'. split; [exact Hs'|].
  destruct Hsh as [E|[(mx & Em & _)|[(_ & w' & E)|(Em & _)]]]; try discriminate.
  - (* impossible: the queue did change; but the conclusion holds anyway *)
    rewrite E, Hq. right. exact Hi.
  - rewrite Hq in E. injection E as _ E. rewrite <- E. exact Hi.
Qed.

Lemma tsteps_track_ok P e e' : tsteps P e e' -> track_ok e -> track_ok e'.
Proof.
  apply tsteps_invariant; [|intros; apply track_ok_pop; assumption].
  intros e0 me m e1 _ Hx Htr. eapply exec_micro_track_ok; eassumption.
Qed.

Lemma tsteps_mono P e e' : tsteps P e e' -> mono e e'.
Proof.
  intros H. apply (tsteps_invariant P (mono e)) with (3 := H); [| |apply mono_refl].
  - intros e0 me m e1 _ Hx H0. eapply mono_trans; [exact H0|]. eapply exec_micro_mono_ok; exact Hx.
  - intros e0 me rest H0. apply mono_pre, H0.
Qed.

(* sequences: no notify on c pops b *)
Definition no_pop_of (b c : nat) : exec -> nat -> micro -> Prop :=
  fun e _ m => forall all, m = MCvNotify c all -> ~ In b (unpark_targets e m).

Theorem tsteps_reg_persists : forall b c e e',
  track_ok e -> reg b c e -> tsteps (no_pop_of b c) e e' -> reg b c e'.
Proof.
  intros b c e e' Htr Hr Hs.
  apply (tsteps_invariant _ (fun e => track_ok e /\ reg b c e)) with (3 := Hs); [| |auto].
  - intros e0 me m e1 Hp Hx [Htr0 Hr0].
    split; [eapply exec_micro_track_ok; eassumption|eapply reg_persists; eassumption].
  - intros e0 me rest [Htr0 Hr0]. split; [apply track_ok_pop, Htr0|exact Hr0].
Qed.

(* ================================================================== *)
(* 3. B.3: notify_one pops and unparks the front waiter; notify_all    *)
(*    pops and unparks every waiter; nothing is stored                 *)
(* ================================================================== *)

Theorem notify_one_wakes_front : forall e a c s w rest e',
  get_cv e c = Some s -> cv_waiters s = w :: rest ->
  exec_micro e a (MCvNotify c false) = MOk e' ->
  (* the queue: exactly the front is popped *)
  (exists s', get_cv e' c = Some s' /\ cv_waiters s' = rest /\ cv_last s' = cv_last s) /\
  (* the front waiter is unparked (ParkFacts.unpark_result: a parked thread becomes
     Runnable, a live one that is not parked gets the token), with the notifier's clock *)
  (forall t, get_thread e w = Some t ->
     exists t', get_thread e' w = Some t' /\ unpark_result t t' /\
       t_caus t' = (if Nat.eqb w a then t_caus t else vv_join (t_caus t) (caus_of e a)) /\
       vle (caus_of e a) (caus_of e' w)) /\
  (* nobody else is touched *)
  (forall j, j <> w -> get_thread e' j = get_thread e j) /\
  (forall i, i <> c -> nth_error (e_objects e') i = nth_error (e_objects e) i).
Proof.
  intros e a c s w rest e' Hs Hq Hx.
  rewrite (exec_micro_cvnotify_one_cons e a c s w rest Hs Hq) in Hx. injection Hx as <-.
  pose proof (get_cv_nth _ _ _ Hs) as Hnth.
  set (E := upd_object e c (fun _ => OCondvar (mkCv (cv_last s) rest))).
  split; [|split; [|split]].
  - exists (mkCv (cv_last s) rest). split; [|auto].
    exact (get_cv_notified e a c _ _ [w] Hnth).
  - intros t Ht.
    destruct (threads_unpark_effect E a w t Ht) as (t' & Hg & Hr & Hc & Hv & _).
    exists t'. rewrite get_thread_log_op, caus_of_log_op. auto.
  - intros j Hj. rewrite get_thread_log_op.
    rewrite threads_unpark_exact, get_thread_upd_thread_other by congruence. reflexivity.
  - intros i Hi. rewrite e_objects_log_op, threads_unpark_objects.
    unfold E. apply nth_error_objects_upd_other. congruence.
Qed.

(* an empty queue: the notify does nothing at all (one log line) *)
Theorem notify_one_empty_noop : forall e a c s e',
  get_cv e c = Some s -> cv_waiters s = [] ->
  exec_micro e a (MCvNotify c false) = MOk e' ->
  e' = log_op e a RUnit /\ e_objects e' = e_objects e /\ e_threads e' = e_threads e.
Proof.
  intros e a c s e' Hs Hq Hx. rewrite (exec_micro_cvnotify_one_empty e a c s Hs Hq) in Hx.
  injection Hx as <-. split; [reflexivity|]. split; [apply e_objects_log_op|apply e_threads_log_op].
Qed.

(* ... so a notification issued before the wait is NOT stored (std's contract):
   a thread that then registers and parks without a token does block *)
Theorem notify_before_wait_is_lost : forall e a c s e1 b t mx e2 e3,
  get_cv e c = Some s -> cv_waiters s = [] ->
  exec_micro e a (MCvNotify c false) = MOk e1 ->
  get_thread e1 b = Some t -> t_token t = false ->
  exec_micro e1 b (MCvWait c mx) = MOk e2 -> exec_micro e2 b MPark = MOk e3 ->
  parked b e3.
Proof.
  intros e a c s e1 b t mx e2 e3 Hs Hq Hx Ht Htk Hw Hp.
  destruct (notify_one_empty_noop e a c s e1 Hs Hq Hx) as (_ & Ho & _).
  assert (Hs1 : get_cv e1 c = Some s) by (rewrite (get_cv_objects_eq _ _ c Ho); exact Hs).
  destruct (cvwait_effect e1 b c mx s e2 Hs1 Hw) as (_ & Hme & _).
  rewrite Ht in Hme. exact (proj1 (park_blocks e2 b t e3 Hme Htk Hp)).
Qed.

(* what a sequence of unparks makes of a thread *)
Definition woken (t t' : thread) : Prop :=
  (is_parked t = true -> t_state t' = Runnable) /\
  (is_parked t = false -> t_state t' = t_state t /\ (is_terminated t = false -> t_token t' = true)) /\
  (t_token t = true -> t_token t' = true) /\
  same_rest t t'.

Lemma same_rest_trans t1 t2 t3 : same_rest t1 t2 -> same_rest t2 t3 -> same_rest t1 t3.
Proof.
  unfold same_rest.
  intros (A1 & A2 & A3 & A4 & A5 & A6 & A7 & A8 & A9 & A10)
         (B1 & B2 & B3 & B4 & B5 & B6 & B7 & B8 & B9 & B10).
  repeat split; congruence.
Qed.

Lemma is_parked_eq t t' : t_state t' = t_state t -> t_op t' = t_op t -> is_parked t' = is_parked t.
Proof. unfold is_parked, is_blocked. intros -> ->. reflexivity. Qed.

Lemma is_terminated_eq t t' : t_state t' = t_state t -> is_terminated t' = is_terminated t.
Proof. unfold is_terminated. intros ->. reflexivity. Qed.

Lemma unpark_result_woken t t' : unpark_result t t' -> woken t t'.
Proof.
  intros [Hu Hr]. unfold woken. destruct (is_parked t) eqn:Hp.
  - destruct Hu as [H1 H2].
    split; [intros _; exact H1|]. split; [discriminate|]. split; [congruence|exact Hr].
  - split; [discriminate|]. destruct (is_terminated t) eqn:Htm; destruct Hu as [H1 H2].
    + split; [intros _; split; [|discriminate]|split; [congruence|exact Hr]].
      unfold is_terminated in Htm. destruct (t_state t); congruence || discriminate.
    + split; [intros _; split; [exact H1|intros _; exact H2]|split; [intros _; exact H2|exact Hr]].
Qed.

Lemma woken_step t t' t'' : woken t t' -> unpark_result t' t'' -> woken t t''.
Proof.
  intros (H1 & H2 & H3 & Hr) [Hu Hr'].
  pose proof (same_rest_trans _ _ _ Hr Hr') as Hr''.
  destruct (is_parked t) eqn:Hp.
  - (* t' is Runnable: neither parked nor terminated *)
    specialize (H1 eq_refl).
    assert (Hp' : is_parked t' = false) by (unfold is_parked, is_blocked; rewrite H1; reflexivity).
    assert (Ht' : is_terminated t' = false) by (unfold is_terminated; rewrite H1; reflexivity).
    rewrite Hp', Ht' in Hu. destruct Hu as [Hs Htk].
    unfold woken. rewrite Hp. split; [intros _; congruence|]. split; [discriminate|].
    split; [intros _; exact Htk|exact Hr''].
  - destruct (H2 eq_refl) as [Hs2 Htk2].
    assert (Hop : t_op t' = t_op t) by (destruct Hr as (Hop & _); exact Hop).
    assert (Hp' : is_parked t' = false) by (rewrite (is_parked_eq t t' Hs2 Hop); exact Hp).
    rewrite Hp' in Hu. rewrite (is_terminated_eq t t' Hs2) in Hu.
    unfold woken. rewrite Hp.
    destruct (is_terminated t) eqn:Htm; destruct Hu as [Hs Htk].
    + split; [discriminate|]. split; [intros _; split; [|discriminate]|split; [|exact Hr'']].
      * unfold is_terminated in Htm. destruct (t_state t); congruence || discriminate.
      * intros Ht. rewrite Htk. apply H3, Ht.
    + split; [discriminate|]. split; [intros _; split; [congruence|intros _; exact Htk]|].
      split; [intros _; exact Htk|exact Hr''].
Qed.

Lemma threads_unpark_other e a x j : j <> x -> get_thread (threads_unpark e a x) j = get_thread e j.
Proof. intros Hj. rewrite threads_unpark_exact. apply get_thread_upd_thread_other. congruence. Qed.

Lemma fold_unpark_other a l : forall e j, ~ In j l ->
  get_thread (fold_left (fun e t => threads_unpark e a t) l e) j = get_thread e j.
Proof.
  induction l as [|x l IH]; intros e j Hn; cbn [fold_left]; [reflexivity|].
  rewrite IH by (intros Hi; apply Hn; right; exact Hi).
  apply threads_unpark_other. intros ->. apply Hn. left. reflexivity.
Qed.

Lemma fold_unpark_keeps_woken a l : forall e j t0 t,
  get_thread e j = Some t -> woken t0 t ->
  exists t', get_thread (fold_left (fun e t => threads_unpark e a t) l e) j = Some t' /\ woken t0 t'.
Proof.
  induction l as [|x l IH]; intros e j t0 t Ht Hw; cbn [fold_left]; [eauto|].
  destruct (Nat.eq_dec j x) as [->|Hne].
  - destruct (threads_unpark_effect e a x t Ht) as (t1 & Hg & Hr & _).
    apply (IH _ x t0 t1 Hg). eapply woken_step; eassumption.
  - apply (IH _ j t0 t); [|exact Hw]. rewrite threads_unpark_other by exact Hne. exact Ht.
Qed.

Lemma fold_unpark_woken a l : forall e j t,
  In j l -> get_thread e j = Some t ->
  exists t', get_thread (fold_left (fun e t => threads_unpark e a t) l e) j = Some t' /\ woken t t'.
Proof.
  induction l as [|x l IH]; intros e j t Hi Ht; [destruct Hi|]. cbn [fold_left].
  destruct (Nat.eq_dec j x) as [->|Hne].
  - destruct (threads_unpark_effect e a x t Ht) as (t1 & Hg & Hr & _).
    apply (fold_unpark_keeps_woken a l _ x t t1 Hg). apply unpark_result_woken, Hr.
  - destruct Hi as [->|Hi]; [destruct (Hne eq_refl)|].
    apply IH; [exact Hi|]. rewrite threads_unpark_other by exact Hne. exact Ht.
Qed.

Lemma threads_unpark_caus_me e a x : caus_of (threads_unpark e a x) a = caus_of e a.
Proof.
  destruct (Nat.eq_dec x a) as [->|Hne]; [apply threads_unpark_self|].
  unfold caus_of. rewrite threads_unpark_other by congruence. reflexivity.
Qed.

Lemma threads_unpark_length e a x : length (e_threads (threads_unpark e a x)) = length (e_threads e).
Proof. rewrite threads_unpark_exact. apply length_threads_upd_thread. Qed.

Lemma fold_unpark_caus a l : forall e w,
  In w l -> w <> a -> w < length (e_threads e) ->
  vle (caus_of e a) (caus_of (fold_left (fun e t => threads_unpark e a t) l e) w).
Proof.
  induction l as [|x l IH]; intros e w Hi Hwa Hlt; [destruct Hi|]. cbn [fold_left].
  destruct (Nat.eq_dec x w) as [->|Hne].
  - destruct (threads_unpark_transfers e a w Hwa Hlt) as (H1 & _).
    eapply vle_trans; [exact H1|].
    destruct (mono_fold_unpark_k a l _ _ (mono_refl (threads_unpark e a w))) as (_ & Hc & _).
    apply Hc.
  - destruct Hi as [->|Hi]; [destruct (Hne eq_refl)|].
    rewrite <- (threads_unpark_caus_me e a x). apply IH; [exact Hi|exact Hwa|].
    rewrite threads_unpark_length. exact Hlt.
Qed.

Theorem notify_all_wakes_all : forall e a c s e',
  get_cv e c = Some s -> exec_micro e a (MCvNotify c true) = MOk e' ->
  (* the queue is emptied *)
  (exists s', get_cv e' c = Some s' /\ cv_waiters s' = [] /\ cv_last s' = cv_last s) /\
  (* every registered waiter is unparked, with the notifier's clock *)
  (forall w t, In w (cv_waiters s) -> get_thread e w = Some t ->
     exists t', get_thread e' w = Some t' /\ woken t t' /\
                (w <> a -> vle (caus_of e a) (caus_of e' w))) /\
  (* nobody else is touched *)
  (forall j, ~ In j (cv_waiters s) -> get_thread e' j = get_thread e j) /\
  (forall i, i <> c -> nth_error (e_objects e') i = nth_error (e_objects e) i).
Proof.
  intros e a c s e' Hs Hx.
  rewrite (exec_micro_cvnotify_all e a c s Hs) in Hx. injection Hx as <-.
  pose proof (get_cv_nth _ _ _ Hs) as Hnth.
  set (E := upd_object e c (fun _ => OCondvar (mkCv (cv_last s) []))).
  split; [|split; [|split]].
  - exists (mkCv (cv_last s) []). split; [|auto].
    exact (get_cv_notified e a c _ _ (cv_waiters s) Hnth).
  - intros w t Hi Ht.
    destruct (fold_unpark_woken a (cv_waiters s) E w t Hi Ht) as (t' & Hg & Hw).
    exists t'. rewrite get_thread_log_op, caus_of_log_op. split; [exact Hg|]. split; [exact Hw|].
    intros Hwa. apply (fold_unpark_caus a (cv_waiters s) E w Hi Hwa).
    apply (get_thread_some_lt E w t Ht).
  - intros j Hj. rewrite get_thread_log_op. apply (fold_unpark_other a _ E j Hj).
  - intros i Hi. rewrite e_objects_log_op, e_objects_fold_unpark.
    unfold E. apply nth_error_objects_upd_other. congruence.
Qed.

Lemma cvnotify_wakes e a c all b t e1 :
  In b (unpark_targets e (MCvNotify c all)) -> get_thread e b = Some t ->
  exec_micro e a (MCvNotify c all) = MOk e1 ->
  exists t1, get_thread e1 b = Some t1 /\ woken t t1 /\
             (b <> a -> vle (caus_of e a) (caus_of e1 b)).
Proof.
  intros Hi Ht Hx. cbn [unpark_targets] in Hi.
  destruct (nth_error (e_objects e) c) as [[| | | |s| | | |]|] eqn:Hc; try destruct Hi.
  apply nth_get_cv in Hc. destruct all.
  - destruct (notify_all_wakes_all e a c s e1 Hc Hx) as (_ & Hall & _). exact (Hall b t Hi Ht).
  - destruct (cv_waiters s) as [|w rest] eqn:Hq; [destruct Hi|].
    destruct Hi as [->|[]].
    destruct (notify_one_wakes_front e a c s b rest e1 Hc Hq Hx) as (_ & Hone & _).
    destruct (Hone t Ht) as (t1 & Hg & Hu & _ & Hv).
    exists t1. split; [exact Hg|]. split; [apply unpark_result_woken, Hu|intros _; exact Hv].
Qed.

(* ================================================================== *)
(* 4. B.4: a parked waiter is resumed only by an unpark aimed at it;   *)
(*    the mutex is re-acquired; happens-before                         *)
(* ================================================================== *)

(* thread b is inside Condvar::wait on c: registered and parked.  It stays so
   under every micro-operation of another thread that does not unpark it.
   By ParkFacts.unpark_targets_spec the excluded micro-operations are exactly
     - MCvNotify c' false with b at the front of the queue of c',
     - MCvNotify c' true with b in the queue of c',
     - MUnpark bd with body_tid e bd = Some b (a stray Thread::unpark from user code).
   (c' = c unless b has stale entries in other queues, see section 5.) *)
Theorem cv_wait_returns_only_after_notify : forall b c e me m,
  track_ok e -> parked b e -> reg b c e -> me <> b ->
  ~ In b (unpark_targets e m) ->
  parked b (res_exec (exec_micro e me m)) /\ reg b c (res_exec (exec_micro e me m)).
Proof.
  intros b c e me m Htr Hp Hr Hmb Hw. split.
  - apply exec_micro_parked; assumption.
  - apply reg_persists_res; [exact Htr|exact Hr|]. intros all _. exact Hw.
Qed.

(* sequences *)
Theorem cv_waiter_parked_until_unparked : forall b c e e',
  track_ok e -> parked b e -> reg b c e -> tsteps (no_unpark_of b) e e' ->
  parked b e' /\ reg b c e'.
Proof.
  intros b c e e' Htr Hp Hr Hs. split.
  - eapply parked_until_unpark; eassumption.
  - eapply tsteps_reg_persists; [exact Htr|exact Hr|].
    eapply tsteps_weaken; [|exact Hs]. intros e0 me m [_ Hw] all _. exact Hw.
Qed.

(* registration followed by the park (no token): the thread is in that state *)
Theorem cv_wait_parks : forall e b c mx s e1 t1 e2,
  track_ok e -> get_cv e c = Some s -> exec_micro e b (MCvWait c mx) = MOk e1 ->
  get_thread e1 b = Some t1 -> t_token t1 = false -> exec_micro e1 b MPark = MOk e2 ->
  parked b e2 /\ reg b c e2.
Proof.
  intros e b c mx s e1 t1 e2 Htr Hs Hw Ht1 Htk Hp.
  pose proof (cv_waiter_registered e b c mx s e1 Hs Hw) as Hr1.
  pose proof (exec_micro_track_ok _ _ _ _ Htr Hw) as Htr1.
  split; [exact (proj1 (park_blocks e1 b t1 e2 Ht1 Htk Hp))|].
  eapply reg_persists; [exact Htr1|exact Hr1| |exact Hp]. intros all E. discriminate E.
Qed.

(* a notify that pops b while b is registered but not (yet) parked is not
   lost: b gets the park token, the token persists, b's park does not block *)
Theorem cv_no_lost_wakeup : forall e a c all b t e1,
  In b (unpark_targets e (MCvNotify c all)) -> get_thread e b = Some t ->
  is_parked t = false -> is_terminated t = false ->
  exec_micro e a (MCvNotify c all) = MOk e1 ->
  forall e2, tsteps (not_own_park b) e1 e2 ->
    exists t2, get_thread e2 b = Some t2 /\ t_token t2 = true /\
      exec_micro e2 b MPark = MOk (upd_thread e2 b (fun t => th_set_token t false)).
Proof.
  intros e a c all b t e1 Hi Ht Hp Htm Hx e2 Hs.
  destruct (cvnotify_wakes e a c all b t e1 Hi Ht Hx) as (t1 & Hg1 & (_ & Hw & _) & _).
  pose proof (proj2 (Hw Hp) Htm) as Htk1.
  destruct (tsteps_token_persists b e1 e2 t1 Hg1 Htk1 Hs) as (t2 & Hg2 & Htk2).
  exists t2. split; [exact Hg2|]. split; [exact Htk2|]. apply (park_effect_token e2 b t2 Hg2 Htk2).
Qed.

(* the whole scenario: b registers and parks; it stays parked and registered
   while nobody unparks it; a notify on c that pops it makes it Runnable, with
   the notifier's clock *)
Theorem cv_wait_until_notify : forall e b c mx s e1 t1 e2 e3,
  track_ok e -> get_cv e c = Some s -> exec_micro e b (MCvWait c mx) = MOk e1 ->
  get_thread e1 b = Some t1 -> t_token t1 = false -> exec_micro e1 b MPark = MOk e2 ->
  tsteps (no_unpark_of b) e2 e3 ->
  (parked b e3 /\ reg b c e3) /\
  forall a all e4, In b (unpark_targets e3 (MCvNotify c all)) ->
    exec_micro e3 a (MCvNotify c all) = MOk e4 ->
    exists t4, get_thread e4 b = Some t4 /\ t_state t4 = Runnable /\
               (b <> a -> vle (caus_of e3 a) (caus_of e4 b)).
Proof.
  intros e b c mx s e1 t1 e2 e3 Htr Hs Hw Ht1 Htk Hp Hst.
  destruct (cv_wait_parks e b c mx s e1 t1 e2 Htr Hs Hw Ht1 Htk Hp) as [Hp2 Hr2].
  assert (Htr2 : track_ok e2).
  { eapply exec_micro_track_ok; [|exact Hp]. eapply exec_micro_track_ok; eassumption. }
  destruct (cv_waiter_parked_until_unparked b c e2 e3 Htr2 Hp2 Hr2 Hst) as [Hp3 Hr3].
  split; [split; assumption|]. intros a all e4 Hi Hx.
  destruct Hp3 as (t3 & Ht3 & Hpk3 & Htk3).
  destruct (cvnotify_wakes e3 a c all b t3 e4 Hi Ht3 Hx) as (t4 & Hg & (Hw1 & _) & Hv).
  exists t4. split; [exact Hg|]. split; [apply Hw1, Hpk3|exact Hv].
Qed.

(* ---- the mutex is re-acquired before the wait returns ---- *)

(* MLockPost m LMReacquire, the last micro-operation of the wait (it logs the
   wait's result), succeeds only with the mutex free and leaves it owned by
   the waiter, who acquires the mutex's view *)
Theorem cv_waiter_reacquires : forall e me m e',
  exec_micro e me (MLockPost m LMReacquire) = MOk e' ->
  exists s, get_mutex e m = Some s /\ mx_lock s = None /\
    (exists s', get_mutex e' m = Some s' /\ mx_lock s' = Some me /\ mx_sync s' = mx_sync s) /\
    (me < length (e_threads e) -> vle (mx_sync s) (caus_of e' me)).
Proof.
  intros e me m e' Hx. cbn [exec_micro] in Hx.
  destruct (post_acquire e me m) as [e1 ok] eqn:Hpa. destruct ok; [|discriminate Hx].
  injection Hx as <-.
  assert (Hg : exists s, get_mutex e m = Some s /\ mx_lock s = None).
  { unfold post_acquire in Hpa. destruct (get_mutex e m) as [s|]; [|discriminate Hpa].
    destruct (is_some (mx_lock s)) eqn:Hl; [discriminate Hpa|].
    exists s. split; [reflexivity|]. apply is_some_false, Hl. }
  destruct Hg as (s & Hg & Hfree). exists s. split; [exact Hg|]. split; [exact Hfree|].
  split.
  - pose proof (get_mutex_nth e m s Hg) as Hnth.
    unfold post_acquire in Hpa. rewrite Hg in Hpa. cbv zeta in Hpa.
    rewrite Hfree in Hpa. cbn [is_some] in Hpa. injection Hpa as <-.
    eexists. split.
    + rewrite (get_mutex_objects_eq _ _ m (e_objects_log_op _ _ _)).
      rewrite (get_mutex_objects_eq _ _ m (e_objects_map_others _ _ _ _)).
      rewrite (get_mutex_objects_eq _ _ m (e_objects_set_caus _ _ _)).
      eapply get_mutex_upd_const. exact Hnth.
    + split; reflexivity.
  - intros Hlt. rewrite caus_of_log_op.
    exact (proj1 (post_acquire_acquires e me m s e1 Hg Hpa Hlt)).
Qed.

(* with the mutex held by anybody, the re-acquisition does not return: it is
   loom's "expected to be able to acquire lock" (the blocking branch in front
   of it, MBranch m AOpaque BMutexLocked, is what prevents this in a run) *)
Theorem reacquire_needs_free_mutex : forall e me m s,
  get_mutex e m = Some s -> mx_lock s <> None ->
  exec_micro e me (MLockPost m LMReacquire) = MFail e PanicExpectLock.
Proof.
  intros e me m s Hg Hl. cbn [exec_micro]. unfold post_acquire. rewrite Hg.
  destruct (mx_lock s); [reflexivity|destruct (Hl eq_refl)].
Qed.

(* ---- happens-before ---- *)

(* through the unpark: the notifier's clock at the notify is below the woken
   thread's clock from then on *)
Theorem cv_wakeup_hb : forall e a c all w e1 e2,
  In w (unpark_targets e (MCvNotify c all)) -> w <> a -> w < length (e_threads e) ->
  exec_micro e a (MCvNotify c all) = MOk e1 -> tsteps (fun _ _ _ => True) e1 e2 ->
  vle (caus_of e a) (caus_of e2 w).
Proof.
  intros e a c all w e1 e2 Hi Hwa Hlt Hx Hs.
  destruct (get_thread_lt_some e w Hlt) as (t & Ht).
  destruct (cvnotify_wakes e a c all w t e1 Hi Ht Hx) as (t1 & _ & _ & Hv).
  eapply vle_trans; [exact (Hv Hwa)|].
  destruct (tsteps_mono _ _ _ Hs) as (_ & Hc & _). apply Hc.
Qed.

(* through the mutex: whoever released m before (the notifier, if it held the
   mutex around the notify) is below the waiter's clock once the waiter has
   re-acquired m *)
Theorem cv_reacquire_hb : forall e a m s e2 w e3,
  get_mutex e m = Some s -> e_active e <> None ->
  mono (release_lock e a m) e2 -> w < length (e_threads e2) ->
  exec_micro e2 w (MLockPost m LMReacquire) = MOk e3 ->
  vle (caus_of e a) (caus_of e3 w).
Proof.
  intros e a m s e2 w e3 Hg Hact Hm Hlt Hx.
  destruct (cv_waiter_reacquires e2 w m e3 Hx) as (s2 & Hg2 & Hfree & _ & _).
  destruct (mutex_handover_mono e a m s e2 w s2 Hg Hact Hm Hg2 Hfree Hlt) as [_ Hv].
  cbn [exec_micro] in Hx. destruct (post_acquire e2 w m) as [e2' ok]. destruct ok; [|discriminate Hx].
  injection Hx as <-. rewrite caus_of_log_op. exact Hv.
Qed.

(* the same over the steps of the runtime / arbitrary sequences *)
Corollary cv_reacquire_hb_steps : forall P e a m s e2 w e3,
  get_mutex e m = Some s -> e_active e <> None ->
  tsteps P (release_lock e a m) e2 -> w < length (e_threads e2) ->
  exec_micro e2 w (MLockPost m LMReacquire) = MOk e3 ->
  vle (caus_of e a) (caus_of e3 w).
Proof.
  intros P e a m s e2 w e3 Hg Hact Hs. apply (cv_reacquire_hb e a m s e2 w e3 Hg Hact).
  eapply tsteps_mono, Hs.
Qed.

(* ================================================================== *)
(* 5. Concrete runs, and what the shared park token lets through       *)
(* ================================================================== *)

Require Import LV.Ref LV.Outcome LV.Witness.

(* main: spawn t1; lock; wait(c, m); unlock; join     t1: lock; notify_one; unlock *)
Definition p_cv : prog := mkProg cfg0 [DMutex; DCondvar]
  [[ISpawn 1; ILock 0; IWait 1 0; IUnlock 0; IJoin 1]; [ILock 0; INotifyOne 1; IUnlock 0]].

Definition cv_state (p : prog) (n : nat) : exec := fst (run n (init_exec p (initial_path cfg0))).

(* (state, pending operation, token) per thread; waiter queue of c; owner of m *)
Definition cview (e : exec) (c m : nat) :=
  (tview e,
   match get_cv e c with Some s => Some (cv_waiters s) | None => None end,
   match get_mutex e m with Some s => Some (mx_lock s) | None => None end).

(* first schedule: main waits first *)
Example wait_then_notify_run :
  snd (run 1000 (init_exec p_cv (initial_path cfg0))) = IterDone /\
  (* after MCvWait: registered, mutex released, not yet parked *)
  cview (cv_state p_cv 9) 1 0 =
    ([(Runnable, Some (mkOp 1 AOpaque), false); (Runnable, None, false)], Some [0], Some None) /\
  (* after MPark: parked; t1 runs *)
  cview (cv_state p_cv 10) 1 0 =
    ([(Blocked, None, false); (Runnable, None, false)], Some [0], Some None) /\
  e_active (cv_state p_cv 10) = Some 1 /\
  (* t1 holds the mutex and is about to notify *)
  cview (cv_state p_cv 15) 1 0 =
    ([(Blocked, None, false); (Runnable, Some (mkOp 1 AOpaque), false)], Some [0], Some (Some 1)) /\
  (* after MCvNotify: popped, Runnable, no token; the mutex is still t1's *)
  cview (cv_state p_cv 16) 1 0 =
    ([(Runnable, None, false); (Runnable, Some (mkOp 1 AOpaque), false)], Some [], Some (Some 1)) /\
  (* main re-acquires only after t1's unlock: after MLockPost m LMReacquire it owns m *)
  cview (cv_state p_cv 27) 1 0 =
    ([(Runnable, Some (mkOp 0 AOpaque), false); (Terminated, None, false)], Some [], Some (Some 0)).
Proof. vm_compute. repeat split; reflexivity. Qed.

(* the other order (notify before wait) is explored too, and the notification
   is lost, as std specifies: Builder::check reports the deadlock *)
Example notify_then_wait_deadlocks :
  fin_of p_cv = RunPanic (PanicDeadlock [Blocked; Terminated]) /\
  ref_can_deadlock (ref_outcomes false FUEL p_cv) = true.
Proof. vm_compute. split; reflexivity. Qed.

(* FINDING (real loom behaviour: rt::Condvar::wait parks through rt::park, the
   same token as thread::park).  Thread::unpark satisfies a Condvar::wait that
   nobody ever notifies:
     main: spawn t1; t1.unpark(); join t1        t1: lock m; wait(c, m); unlock m
   The reference semantics (std: unpark has nothing to do with a condvar) has
   no finished outcome at all, every schedule deadlocks; the model (and loom)
   explore ONE iteration, it finishes, no deadlock is reported. *)
Definition p_unpark_cv : prog := mkProg cfg0 [DMutex; DCondvar]
  [[ISpawn 1; IUnpark 1; IJoin 1]; [ILock 0; IWait 1 0; IUnlock 0]].

Lemma unpark_satisfies_condvar_wait :
  ref_finished (ref_outcomes false FUEL p_unpark_cv) = [] /\
  ref_can_deadlock (ref_outcomes false FUEL p_unpark_cv) = true /\
  fin_of p_unpark_cv = RunOk /\ length (recs_of p_unpark_cv) = 1 /\
  run_reports_deadlock (fin_of p_unpark_cv) = false.
Proof. vm_compute. repeat split; reflexivity. Qed.

(* in that run: the token is there when t1 registers (step 15), MPark consumes
   it instead of blocking (step 16: still Runnable, still the active thread),
   t1 re-acquires and finishes -- and its entry STAYS in the waiter queue of c
   (a stale entry: a later notify_one would pop it instead of a real waiter) *)
Lemma stale_waiter_entry :
  cview (cv_state p_unpark_cv 15) 1 0 =
    ([(Blocked, Some (mkOp 2 AOpaque), false); (Runnable, Some (mkOp 1 AOpaque), true)],
     Some [1], Some None) /\
  cview (cv_state p_unpark_cv 16) 1 0 =
    ([(Blocked, Some (mkOp 2 AOpaque), false); (Runnable, Some (mkOp 1 AOpaque), false)],
     Some [1], Some None) /\
  e_active (cv_state p_unpark_cv 16) = Some 1 /\
  snd (run 1000 (init_exec p_unpark_cv (initial_path cfg0))) = IterDone /\
  cview (cv_state p_unpark_cv 1000) 1 0 =
    ([(Terminated, None, false); (Terminated, None, false)], Some [1], Some None).
Proof. vm_compute. repeat split; reflexivity. Qed.

(* outcome level: t1 reads x after its wait; main stores x := 1 under the mutex
   before notifying, and only after t1 is inside the wait (handshake on y).
   With std's semantics t1 always reads 1.  In the model the wait can return on
   the token before the store: t1 reads 0. *)
Definition p_unpark_cv2 : prog := mkProg cfg0 [DMutex; DCondvar; DAtomic 0; DAtomic 0]
  [[ISpawn 1; IUnpark 1; IAwait 3 1 SeqCst; ILock 0; IStore 2 1 SeqCst; INotifyOne 1; IUnlock 0;
    IJoin 1];
   [ILock 0; IStore 3 1 SeqCst; IWait 1 0; ILoad 2 SeqCst; IUnlock 0]].

(* the result logged by t1's load (instruction 3 of body 1) in an outcome *)
Definition t1_load (o : outcome) : option result :=
  match nth_error o 1 with
  | Some l => match find (fun x => Nat.eqb (fst x) 3) l with Some (_, r) => Some r | None => None end
  | None => None
  end.

Lemma unpark_condvar_early_return :
  ref_can_deadlock (ref_outcomes false FUEL p_unpark_cv2) = false /\
  forallb (fun o => match t1_load o with Some (RVal 1) => true | _ => false end)
          (ref_finished (ref_outcomes false FUEL p_unpark_cv2)) = true /\
  fin_of p_unpark_cv2 = RunOk /\
  existsb (fun o => match t1_load o with Some (RVal 0) => true | _ => false end)
          (explored p_unpark_cv2 (recs_of p_unpark_cv2)) = true.
Proof. vm_compute. repeat split; reflexivity. Qed.

Print Assumptions exec_micro_ckeep.
Print Assumptions exec_micro_wait_held.
Print Assumptions wait_continuation.
Print Assumptions exec_micro_cvwait.
Print Assumptions exec_micro_cvnotify_one_empty.
Print Assumptions exec_micro_cvnotify_one_cons.
Print Assumptions exec_micro_cvnotify_all.
Print Assumptions cvwait_effect.
Print Assumptions cv_queue_shape_res.
Print Assumptions cv_queue_step_shape.
Print Assumptions cv_waiter_registered.
Print Assumptions reg_persists.
Print Assumptions notify_one_keeps_others.
Print Assumptions tsteps_reg_persists.
Print Assumptions notify_one_wakes_front.
Print Assumptions notify_one_empty_noop.
Print Assumptions notify_before_wait_is_lost.
Print Assumptions notify_all_wakes_all.
Print Assumptions cv_wait_returns_only_after_notify.
Print Assumptions cv_waiter_parked_until_unparked.
Print Assumptions cv_wait_parks.
Print Assumptions cv_no_lost_wakeup.
Print Assumptions cv_wait_until_notify.
Print Assumptions cv_waiter_reacquires.
Print Assumptions reacquire_needs_free_mutex.
Print Assumptions cv_wakeup_hb.
Print Assumptions cv_reacquire_hb.
Print Assumptions cv_reacquire_hb_steps.
Print Assumptions wait_then_notify_run.
Print Assumptions notify_then_wait_deadlocks.
Print Assumptions unpark_satisfies_condvar_wait.
Print Assumptions stale_waiter_entry.
Print Assumptions unpark_condvar_early_return.

(* DEVIATIONS from the requested statements

   V1  track_ok e (SyncMono) is a hypothesis of every statement about the
       waiter queue under ARBITRARY micro-operations (exec_micro_ckeep,
       cv_queue_step_shape, reg_persists, cv_wait_returns_only_after_notify,
       ...): MTrackDrop k overwrites object slot k whenever the harness flag of
       slot k is set, whatever the object is (same reason as NotifyFacts N1);
       track_ok holds along every run.  The statements about threads only
       (ParkFacts) do not need it.  exec_micro_ckeep / cv_queue_shape_res /
       reg_persists_res / cv_wait_returns_only_after_notify are proved for the
       state carried by a panic as well (res_exec).
   V2  cv_waiter_registered is split: the registration step registers
       (cv_waiter_registered), and a registered thread stays registered under
       every micro-operation that is not a notify on c popping it
       (reg_persists, tsteps_reg_persists; notify_one_keeps_others for the
       non-front waiters of a notify_one).  cv_queue_step_shape is the exact
       shape: unchanged / push at the back by MCvWait c _ of the executing
       thread / pop of the front by MCvNotify c false / emptied by
       MCvNotify c true.
   V3  notify_one_wakes_front / notify_all_wakes_all describe the unparked
       threads with ParkFacts.unpark_result resp. [woken] (its closure under
       repeated unparks: a thread that occurs twice in a queue -- possible only
       with stale entries, V5 -- is made Runnable by the first unpark and gets
       the token from the second).  The clock statement of notify_all needs
       w <> a (a thread never joins its own clock: Set::unpark special-cases
       the active thread).  An empty queue: notify_one_empty_noop (nothing but
       a log line), notify_before_wait_is_lost (a later wait blocks).
   V4  cv_wait_returns_only_after_notify: "resumed only by a notify on c that
       pops it" is true up to what the shared unpark path allows: the parked
       and registered waiter b stays parked and registered under every
       micro-operation m of another thread with ~ In b (unpark_targets e m);
       by ParkFacts.unpark_targets_spec the excluded ones are MCvNotify c' false
       with b at the front of c', MCvNotify c' true with b in c', and
       MUnpark bd with body_tid e bd = Some b (a stray Thread::unpark).
       c' = c unless b has a stale entry in another queue.
       cv_no_lost_wakeup covers the window between registration and park: the
       notify stores the park token, the park consumes it (in a run of the
       model no other thread executes between MCvWait and MPark: release_lock
       is not a scheduling point; the theorem does not depend on that).
   V5  FINDING (section 5; real loom behaviour, src/rt/condvar.rs: wait = push
       waiter; release; rt::park; acquire).  Because Condvar::wait parks
       through the token of thread::park,
       (a) a pending Thread::unpark makes Condvar::wait return at once with no
           notify at all (unpark_satisfies_condvar_wait: the reference
           semantics deadlocks on every schedule, the model / loom explore a
           single finishing iteration; unpark_condvar_early_return: a value
           that std's semantics excludes is explored); std allows spurious
           Condvar wake-ups, so this is "an invented wake-up that std
           permits", but it is not "resumes only after the matching
           notify_one / notify_all";
       (b) such an early return leaves the thread's entry in the waiter queue
           (stale_waiter_entry); a later notify_one pops that entry (and
           stores a token in / wakes the wrong thread) instead of a thread
           that is really waiting.
       Without user-level unpark of a thread that also waits on condvars none
       of this happens: every pop is matched by the park of the registration
       it pops (cv_no_lost_wakeup, cv_wait_until_notify).
   V6  cv_waiter_reacquires is about the micro-operation that ends the wait,
       MLockPost m LMReacquire (wait_continuation: MWait pushes exactly
       [MBranch c AOpaque BNever; MCvWait c m; MPark; MBranch m AOpaque
       BMutexLocked; MLockPost m LMReacquire]); combined with
       ExclFacts.excl_inv ("released" phase) it says the waiter is inside m
       again when the wait returns.  reacquire_needs_free_mutex is the failing
       case.  Happens-before: cv_wakeup_hb (through the unpark; needs w <> a
       and w < length (e_threads e): set_caus / upd_thread are the identity out
       of range) and cv_reacquire_hb (through the mutex: from ANY earlier
       release_lock of m by a, SyncMono.mutex_handover_mono; e_active e <> None
       as there). *)
