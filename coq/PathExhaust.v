(* Exhaustiveness of the depth-first loop over registered alternatives.

   STATUS: the four requested results (a)-(d) are all proved; every
   Print Assumptions at the end of the file answers "Closed under the global
   context".

   Vocabulary (all defined below):
     registered e q c   exactly the requested definition;
     reg en c           the same for one entry (registered_reg relates them);
     used en c          c is used up in en: thread t Visited / k < l_pos /
                        (c = CSpur false and p_spur = true);
     todo en c          c is still to do in en: thread t Pending /
                        l_pos < k < length l_vals / (c = CSpur true and
                        p_spur = false);
     wf2_entry          ESched: at most one Active thread
                        (count_active (s_threads s) <= 1); ELoad, ESpur: True;
     wf2_path p         Forall wf2_entry (branches p);
     fresh_entry        ESched: no Visited thread; ELoad: l_pos = 0;
                        ESpur: p_spur = false;
     fresh_path p       Forall fresh_entry (branches p);
     new_entries p p'   skipn (length (branches p)) (branches p');
     iter_ok2 it        forall p, wf_path p -> wf2_path p ->
                          wf2_path (it p) /\ Forall fresh_entry (new_entries p (it p)).

   (a) Theorem step_none_exhausted e :
         step e = None ->
         forall q en, nth_error (branches e) q = Some en ->
                      entry_exploring en = true -> advance_entry en = None.
       Unfoldings: exhausted_sched (no Pending thread), exhausted_load
       (length l_vals <= S l_pos), exhausted_spur (p_spur = true), and
       exhausted_reg: wf2_entry en -> entry_exploring en = true ->
         advance_entry en = None -> reg en c -> used en c \/ choice_of en = c.

   (b) Theorem popped_entries_exhausted e e' :
         step e = Some e' ->
         exists a, a < length (branches e) /\ length (branches e') = S a /\
           (exists en en', nth_error (branches e) a = Some en /\
              nth_error (branches e') a = Some en' /\ advance_entry en = Some en') /\
           (forall q, q < a -> nth_error (branches e') q = nth_error (branches e) q) /\
           (forall q en, a < q -> nth_error (branches e) q = Some en ->
                         advance_entry en = None).

   (c) Theorem visited_witness :
         forall it n p, iter_ok it -> iter_ok2 it ->
           wf_path p -> wf2_path p -> fresh_path p ->
         forall k ek q en c,
           nth_error (explore it n p) k = Some ek ->
           nth_error (branches ek) q = Some en -> entry_exploring en = true ->
           used en c ->
           exists j ej, j < k /\ nth_error (explore it n p) j = Some ej /\
                        firstn q (choices ej) = firstn q (choices ek) /\
                        nth_error (choices ej) q = Some c.

   (d) Theorem dfs_exhaustive :
         forall it n p, iter_ok it -> iter_ok2 it ->
           wf_path p -> wf2_path p -> fresh_path p -> finishes it n p = true ->
         forall k ek q c,
           nth_error (explore it n p) k = Some ek -> registered ek q c ->
           exists j ej, nth_error (explore it n p) j = Some ej /\
                        firstn q (choices ej) = firstn q (choices ek) /\
                        nth_error (choices ej) q = Some c.
       (In the proof: used alternatives have j < k by (c), the current decision
       has j = k, alternatives still to do have j > k by [step_todo]/[progress].)

   Extra hypotheses of (c)/(d) with respect to the requested statement:
   iter_ok2 it, wf2_path p, fresh_path p.  Without freshness of the initial
   stack and of appended entries the statement is false (a Visited thread that
   was never Active has no witness).  No bound on l_pos is needed: see
   load_pos_ok at the end for the bound that does hold with empty value lists.

   The concrete Path API satisfies them (api_ok2 p p' := wf2_path p ->
   wf2_path p' /\ Forall fresh_entry (new_entries p p')): push_load_wf2,
   branch_load_wf2, branch_spurious_wf2, backtrack_wf2, explore_state_wf2,
   critical_wf2, skip_branch_wf2, and branch_thread_wf2 (freshness needs a seed
   without Visited; branch_thread_wf2_only gives wf2 for every seed).
   api_ok2_compose chains consecutive calls, step_wf2 is the step case,
   path_new_fresh the initial path. *)
Require Import LV.Base LV.Path LV.PathSpec LV.PathTerm LV.PathDistinct LV.PathApi.
From Coq Require Import Lia.

(* ------------------------------------------------------------------ *)
(* definitions                                                         *)
(* ------------------------------------------------------------------ *)

(* alternative [c] is registered at position q of END path e *)
Definition registered (e : path) (q : nat) (c : choice) : Prop :=
  exists en, nth_error (branches e) q = Some en /\ entry_exploring en = true /\
    match en, c with
    | ESched s, CThread (Some t) =>
        nth_error (s_threads s) t = Some Pending \/
        nth_error (s_threads s) t = Some Active \/
        nth_error (s_threads s) t = Some Visited
    | ELoad l, CLoad k => k < length (l_vals l)
    | ESpur _, CSpur _ => True
    | _, _ => False
    end.

(* the same, entry by entry *)
Definition reg (en : entry) (c : choice) : Prop :=
  match en, c with
  | ESched s, CThread (Some t) =>
      nth_error (s_threads s) t = Some Pending \/
      nth_error (s_threads s) t = Some Active \/
      nth_error (s_threads s) t = Some Visited
  | ELoad l, CLoad k => k < length (l_vals l)
  | ESpur _, CSpur _ => True
  | _, _ => False
  end.

Lemma registered_reg e q c :
  registered e q c <->
  exists en, nth_error (branches e) q = Some en /\ entry_exploring en = true /\ reg en c.
Proof. unfold registered, reg. reflexivity. Qed.

(* [c] has been used up in [en] / is still to do in [en] *)
Definition used (en : entry) (c : choice) : Prop :=
  match en, c with
  | ESched s, CThread (Some t) => nth_error (s_threads s) t = Some Visited
  | ELoad l, CLoad k => k < l_pos l
  | ESpur s, CSpur b => b = false /\ p_spur s = true
  | _, _ => False
  end.

Definition todo (en : entry) (c : choice) : Prop :=
  match en, c with
  | ESched s, CThread (Some t) => nth_error (s_threads s) t = Some Pending
  | ELoad l, CLoad k => l_pos l < k /\ k < length (l_vals l)
  | ESpur s, CSpur b => b = true /\ p_spur s = false
  | _, _ => False
  end.

Definition count_active (l : list tstat) : nat := length (filter is_active l).

Definition wf2_entry (e : entry) : Prop :=
  match e with
  | ESched s => count_active (s_threads s) <= 1
  | ELoad _ => True
  | ESpur _ => True
  end.

Definition wf2_path (p : path) : Prop := Forall wf2_entry (branches p).

Definition fresh_entry (e : entry) : Prop :=
  match e with
  | ESched s => Forall (fun t => t <> Visited) (s_threads s)
  | ELoad l => l_pos l = 0
  | ESpur s => p_spur s = false
  end.

Definition fresh_path (p : path) : Prop := Forall fresh_entry (branches p).

(* the entries of p' beyond the stack of p *)
Definition new_entries (p p' : path) : list entry :=
  skipn (length (branches p)) (branches p').

Definition iter_ok2 (it : path -> path) : Prop :=
  forall p, wf_path p -> wf2_path p ->
            wf2_path (it p) /\ Forall fresh_entry (new_entries p (it p)).

(* ------------------------------------------------------------------ *)
(* thread-status lists                                                 *)
(* ------------------------------------------------------------------ *)

Lemma count_active_cons h l :
  count_active (h :: l) = (if is_active h then 1 else 0) + count_active l.
Proof. unfold count_active. cbn [filter]. destruct (is_active h); reflexivity. Qed.

Lemma count_active_pos l t : nth_error l t = Some Active -> 1 <= count_active l.
Proof.
  revert t; induction l as [|h l IH]; intros [|t] Hn; cbn [nth_error] in Hn;
    try discriminate; rewrite count_active_cons.
  - injection Hn as ->. cbn. lia.
  - specialize (IH _ Hn). lia.
Qed.

Lemma count_active_find l t :
  count_active l <= 1 -> nth_error l t = Some Active -> find_index is_active l = Some t.
Proof.
  revert t; induction l as [|h l IH]; intros [|t] Hc Hn; cbn [nth_error] in Hn;
    try discriminate; rewrite count_active_cons in Hc; cbn [find_index].
  - injection Hn as ->. reflexivity.
  - destruct (is_active h).
    + pose proof (count_active_pos _ _ Hn). lia.
    + rewrite (IH t); [reflexivity|lia|exact Hn].
Qed.

Lemma find_index_none_count l : find_index is_active l = None -> count_active l = 0.
Proof.
  induction l as [|h l IH]; [reflexivity|]. cbn [find_index]. rewrite count_active_cons.
  destruct (is_active h); [discriminate|].
  destruct (find_index is_active l); [discriminate|]. intros _. rewrite IH; reflexivity.
Qed.

Lemma ext_count l l' : Forall2 ext_t l l' -> count_active l' = count_active l.
Proof.
  induction 1 as [|t t' l l' Ht _ IH]; [reflexivity|].
  rewrite !count_active_cons, IH, (ext_t_active Ht). reflexivity.
Qed.

Lemma ext_threads_visited_inv l l' a :
  Forall2 ext_t l l' -> nth_error l' a = Some Visited -> nth_error l a = Some Visited.
Proof.
  intros H Hn. pose proof (Forall2_nth _ _ _ _ _ a H) as Ha. rewrite Hn in Ha.
  destruct (nth_error l a) as [t|]; [|contradiction].
  destruct Ha as [Ht|[_ Ht]]; [congruence|discriminate].
Qed.

(* ------------------------------------------------------------------ *)
(* entries: reg / used / todo under advance_entry and ext              *)
(* ------------------------------------------------------------------ *)

Lemma reg_cases en c :
  wf2_entry en -> reg en c -> used en c \/ choice_of en = c \/ todo en c.
Proof.
  destruct en as [s|l|s], c as [[t|]|k|b]; cbn [reg used todo choice_of wf2_entry];
    intros Hwf H; try contradiction.
  - destruct H as [H|[H|H]]; auto.
    right; left. unfold active_thread_index. rewrite (count_active_find _ _ Hwf H).
    reflexivity.
  - destruct (lt_eq_lt_dec k (l_pos l)) as [[Hlt|Heq]|Hgt]; auto.
    all: try (right; left; congruence).
  - destruct (p_spur s) eqn:Hs, b; auto.
Qed.

Lemma todo_advance en c :
  entry_exploring en = true -> todo en c -> advance_entry en <> None.
Proof.
  destruct en as [s|l|s], c as [[t|]|k|b]; cbn [todo entry_exploring advance_entry];
    intros Hex H; try contradiction; rewrite Hex; cbn [negb].
  - pose proof (advance_threads_some _ _ H) as Hne.
    destruct (activate_pending (visit_active (s_threads s))); [discriminate|congruence].
  - destruct (Nat.ltb_spec (S (l_pos l)) (length (l_vals l))); [discriminate|lia].
  - destruct H as [_ ->]. discriminate.
Qed.

Lemma advance_wf2 e e' : advance_entry e = Some e' -> wf2_entry e -> wf2_entry e'.
Proof.
  intros H Hwf. destruct (advance_entry_inv _ _ H) as [s th _ Hth| |]; [|exact I..].
  cbn [wf2_entry s_threads] in *. unfold count_active in *.
  pose proof (activate_pending_filter is_active _ _ Hth) as H1.
  destruct (visit_active_filter is_active (s_threads s)) as [(Hn & H2)|H2].
  - rewrite H2 in H1. apply find_index_none_count in Hn. unfold count_active in Hn.
    cbn in H1. lia.
  - cbn in H1, H2. lia.
Qed.

Lemma advance_todo e e' c :
  wf2_entry e -> advance_entry e = Some e' -> todo e c -> todo e' c \/ choice_of e' = c.
Proof.
  intros Hwf Ha. pose proof (advance_wf2 _ _ Ha Hwf) as Hwf'. revert Hwf'.
  destruct (advance_entry_inv _ _ Ha) as [s th _ Hth|l _ Hlt|s _ Hsp];
    destruct c as [[t|]|k|b]; cbn [todo]; intros Hwf' H; try contradiction.
  - cbn [choice_of wf2_entry s_threads] in *.
    destruct (advance_threads_nth _ _ t Hth) as [(_ & Hn)|[(_ & Hact & _)|(_ & _ & Hn)]];
      [left; congruence|congruence|right].
    unfold active_thread_index. cbn [s_threads].
    rewrite (count_active_find _ _ Hwf' Hn). reflexivity.
  - cbn [choice_of l_pos l_vals].
    destruct (Nat.eq_dec k (S (l_pos l))) as [->|Hne]; [right; reflexivity|left; lia].
  - cbn [choice_of p_spur]. destruct H as [-> _]. right; reflexivity.
Qed.

Lemma advance_used e e' c :
  advance_entry e = Some e' -> used e' c -> used e c \/ choice_of e = c.
Proof.
  intros Ha. destruct (advance_entry_inv _ _ Ha) as [s th _ Hth|l _ Hlt|s _ Hsp];
    destruct c as [[t|]|k|b]; cbn [used choice_of s_threads l_pos p_spur];
    try contradiction.
  - intros Hv.
    destruct (advance_threads_nth _ _ t Hth) as [(_ & Hn)|[(Hact & _)|(_ & _ & Hn)]];
      [left; congruence|right|congruence].
    unfold active_thread_index. rewrite Hact. reflexivity.
  - intros Hk. destruct (Nat.eq_dec k (l_pos l)) as [->|Hne]; [right; reflexivity|left; lia].
  - intros [-> _]. right. rewrite Hsp. reflexivity.
Qed.

Lemma ext_used_inv en en' c : ext en en' -> used en' c -> used en c.
Proof.
  intros H. destruct (ext_inv _ _ H) as [->|(s & th & -> & -> & _ & Hth)]; [auto|].
  destruct c as [[t|]|k|b]; cbn [used s_threads]; try contradiction.
  apply ext_threads_visited_inv. exact Hth.
Qed.

Lemma ext_todo en en' c : ext en en' -> todo en c -> todo en' c.
Proof.
  intros H. destruct (ext_inv _ _ H) as [->|(s & th & -> & -> & _ & Hth)]; [auto|].
  destruct c as [[t|]|k|b]; cbn [todo s_threads]; try contradiction.
  apply ext_threads_kept; [exact Hth|discriminate].
Qed.

Lemma ext_wf2_entry en en' : ext en en' -> wf2_entry en -> wf2_entry en'.
Proof.
  intros H. destruct (ext_inv _ _ H) as [->|(s & th & -> & -> & _ & Hth)]; [auto|].
  cbn [wf2_entry s_threads]. rewrite (ext_count _ _ Hth). auto.
Qed.

Lemma fresh_not_used en c : fresh_entry en -> ~ used en c.
Proof.
  destruct en as [s|l|s], c as [[t|]|k|b]; cbn [fresh_entry used]; intros Hf H;
    try contradiction.
  - apply nth_error_In in H. rewrite Forall_forall in Hf. exact (Hf _ H eq_refl).
  - lia.
  - destruct H as [_ H]. congruence.
Qed.

(* ------------------------------------------------------------------ *)
(* (a) step = None: every entry is exhausted                           *)
(* ------------------------------------------------------------------ *)

Lemma step_rev_none rb :
  step_rev rb = None -> Forall (fun x => advance_entry x = None) rb.
Proof.
  induction rb as [|e rb IH]; intros H; [constructor|].
  cbn [step_rev] in H. destruct (advance_entry e) eqn:He; [discriminate|].
  constructor; auto.
Qed.

Lemma step_none_all e :
  step e = None -> Forall (fun x => advance_entry x = None) (branches e).
Proof.
  unfold step. intros H.
  destruct (step_rev (rev (branches e))) eqn:Hs; [discriminate|].
  rewrite <- (rev_involutive (branches e)). apply Forall_rev, step_rev_none, Hs.
Qed.

Theorem step_none_exhausted e :
  step e = None ->
  forall q en, nth_error (branches e) q = Some en -> entry_exploring en = true ->
               advance_entry en = None.
Proof.
  intros H q en Hn _. pose proof (step_none_all _ H) as Hall.
  rewrite Forall_forall in Hall. apply Hall. eapply nth_error_In; eauto.
Qed.

(* what "exhausted" means for each kind of exploring entry *)
Lemma exhausted_sched s :
  s_ex s = true -> advance_entry (ESched s) = None ->
  Forall (fun t => t <> Pending) (s_threads s).
Proof.
  cbn [advance_entry]. intros -> H. cbn [negb] in H.
  destruct (activate_pending (visit_active (s_threads s))) eqn:Hth; [discriminate|].
  apply Forall_forall. intros t Hin ->. destruct (In_nth_error _ _ Hin) as [a Ha].
  exact (advance_threads_some _ _ Ha Hth).
Qed.

Lemma exhausted_load l :
  l_ex l = true -> advance_entry (ELoad l) = None -> length (l_vals l) <= S (l_pos l).
Proof.
  cbn [advance_entry]. intros -> H. cbn [negb] in H.
  destruct (Nat.ltb_spec (S (l_pos l)) (length (l_vals l))); [discriminate|lia].
Qed.

Lemma exhausted_spur s :
  p_ex s = true -> advance_entry (ESpur s) = None -> p_spur s = true.
Proof.
  cbn [advance_entry]. intros -> H. cbn [negb] in H.
  destruct (p_spur s); [reflexivity|discriminate].
Qed.

(* an exhausted exploring entry has nothing left to do: every registered
   alternative is used up or is the current decision *)
Lemma exhausted_reg en c :
  wf2_entry en -> entry_exploring en = true -> advance_entry en = None ->
  reg en c -> used en c \/ choice_of en = c.
Proof.
  intros Hwf Hex Hadv Hreg.
  destruct (reg_cases _ _ Hwf Hreg) as [H|[H|H]]; auto.
  exfalso. exact (todo_advance _ _ Hex H Hadv).
Qed.

(* ------------------------------------------------------------------ *)
(* (b) step = Some: every popped entry is exhausted                    *)
(* ------------------------------------------------------------------ *)

Theorem popped_entries_exhausted e e' :
  step e = Some e' ->
  exists a, a < length (branches e) /\ length (branches e') = S a /\
    (exists en en', nth_error (branches e) a = Some en /\
                    nth_error (branches e') a = Some en' /\
                    advance_entry en = Some en') /\
    (forall q, q < a -> nth_error (branches e') q = nth_error (branches e) q) /\
    (forall q en, a < q -> nth_error (branches e) q = Some en -> advance_entry en = None).
Proof.
  intros H.
  destruct (step_cases _ _ H) as (kept & e0 & e0' & popped & Hb & Hb' & Ha & Hpop & _).
  exists (length kept). rewrite Hb, Hb', !app_length. cbn [length].
  split; [lia|]. split; [lia|]. split; [|split].
  - exists e0, e0'. rewrite !nth_error_app2, Nat.sub_diag by lia. auto.
  - intros q Hq. rewrite !nth_error_app1 by lia. reflexivity.
  - intros q en Hq Hn. rewrite nth_error_app2 in Hn by lia.
    destruct (q - length kept) as [|m] eqn:Hm; [lia|]. cbn [nth_error] in Hn.
    rewrite Forall_forall in Hpop. apply Hpop. eapply nth_error_In; eauto.
Qed.

(* ------------------------------------------------------------------ *)
(* paths: wf2 under step and under an iteration                        *)
(* ------------------------------------------------------------------ *)

Lemma step_wf2 p p' : wf2_path p -> step p = Some p' -> wf2_path p'.
Proof. intros Hp H. exact (step_Forall _ _ _ advance_wf2 H Hp). Qed.

Lemma Forall2_ext_wf2 l l' : Forall2 ext l l' -> Forall wf2_entry l -> Forall wf2_entry l'.
Proof. apply Forall2_Forall. exact ext_wf2_entry. Qed.

(* [extends] with the appended part named *)
Lemma extends_new p p' :
  extends p p' ->
  exists old, branches p' = old ++ new_entries p p' /\ Forall2 ext (branches p) old.
Proof.
  intros (_ & _ & _ & old & new & Hb & Hold).
  exists old. split; [|exact Hold].
  unfold new_entries. rewrite (Forall2_len _ _ _ _ _ Hold), Hb.
  rewrite skipn_app, skipn_all, Nat.sub_diag. reflexivity.
Qed.

(* the old part of the stack keeps wf2 through backtrack marks *)
Lemma extends_wf2_old p p' :
  extends p p' -> wf2_path p -> Forall wf2_entry (new_entries p p') -> wf2_path p'.
Proof.
  intros Hext Hp Hnew. destruct (extends_new _ _ Hext) as (old & Hb & Hold).
  unfold wf2_path. rewrite Hb. apply Forall_app. split; [|exact Hnew].
  eapply Forall2_ext_wf2; eauto.
Qed.

Lemma extends_prefix p p' q :
  extends p p' -> q <= length (branches p) ->
  firstn q (choices p') = firstn q (choices p).
Proof.
  intros (_ & _ & _ & old & new & Hb & Hold) Hq.
  unfold choices. rewrite Hb, map_app, (Forall2_ext_choices Hold).
  rewrite firstn_app.
  replace (q - length (map choice_of (branches p))) with 0 by (rewrite map_length; lia).
  cbn [firstn]. rewrite app_nil_r. reflexivity.
Qed.

Lemma extends_nth_old p p' q en :
  extends p p' -> nth_error (branches p) q = Some en ->
  exists en', nth_error (branches p') q = Some en' /\ ext en en'.
Proof.
  intros (_ & _ & _ & old & new & Hb & Hold) Hn.
  destruct (Forall2_nth_error _ Hold Hn) as (en' & Hn' & Hext).
  exists en'. split; [|exact Hext].
  rewrite Hb, nth_error_app1; [exact Hn'|]. apply nth_error_Some. congruence.
Qed.

(* an entry of the extended stack is an old one with marks, or a new one *)
Lemma extends_nth_inv p p' q en' :
  extends p p' -> nth_error (branches p') q = Some en' ->
  (q < length (branches p) /\ exists en, nth_error (branches p) q = Some en /\ ext en en') \/
  (length (branches p) <= q /\ In en' (new_entries p p')).
Proof.
  intros Hext Hn.
  destruct (Nat.lt_ge_cases q (length (branches p))) as [Hlt|Hge].
  - left. split; [exact Hlt|].
    destruct (nth_error (branches p) q) as [en|] eqn:He;
      [|apply nth_error_None in He; lia].
    destruct (extends_nth_old _ _ _ _ Hext He) as (en2 & Hn2 & Hx).
    exists en. split; [reflexivity|]. congruence.
  - right. split; [exact Hge|].
    destruct (extends_new _ _ Hext) as (old & Hb & Hold).
    rewrite Hb in Hn. rewrite nth_error_app2 in Hn
      by (rewrite <- (Forall2_len _ _ _ _ _ Hold); exact Hge).
    eapply nth_error_In; eauto.
Qed.

(* the decision prefix up to the advanced slot is kept by step *)
Lemma step_prefix_choices kept (x y : list entry) q :
  q <= length kept ->
  firstn q (map choice_of (kept ++ x)) = firstn q (map choice_of (kept ++ y)).
Proof.
  intros Hq. eapply firstn_agree_le; [apply choices_app_firstn|exact Hq].
Qed.

(* ------------------------------------------------------------------ *)
(* (c) used-up alternatives have an earlier witness                    *)
(* ------------------------------------------------------------------ *)

(* some path of [H] follows the decision prefix [firstn q cs] and then decides [c] *)
Definition wit (H : list path) (cs : list choice) (q : nat) (c : choice) : Prop :=
  exists ej, In ej H /\ firstn q (choices ej) = firstn q cs /\
             nth_error (choices ej) q = Some c.

Definition past_inv (H : list path) (x : path) : Prop :=
  forall q en c, nth_error (branches x) q = Some en -> entry_exploring en = true ->
                 used en c -> wit H (choices x) q c.

Lemma wit_mono H H' cs cs' q c :
  (forall x, In x H -> In x H') -> firstn q cs = firstn q cs' ->
  wit H cs q c -> wit H' cs' q c.
Proof.
  intros Hin Hcs (ej & Hj & Hf & Hc). exists ej. split; [auto|]. split; [congruence|exact Hc].
Qed.

Lemma past_inv_fresh p : fresh_path p -> past_inv [] p.
Proof.
  intros Hf q en c Hn _ Hu. exfalso.
  unfold fresh_path in Hf. rewrite Forall_forall in Hf.
  exact (fresh_not_used _ _ (Hf _ (nth_error_In _ _ Hn)) Hu).
Qed.

Lemma past_inv_iter H p p' :
  extends p p' -> Forall fresh_entry (new_entries p p') -> past_inv H p -> past_inv H p'.
Proof.
  intros Hext Hnew Hinv q en' c Hn Hex Hu.
  destruct (extends_nth_inv _ _ _ _ Hext Hn) as [(Hlt & en & He & Hx)|(_ & Hin)].
  - eapply wit_mono; [intros x Hxin; exact Hxin| |].
    + symmetry. apply (extends_prefix _ _ q Hext). lia.
    + apply (Hinv q en c He).
      * rewrite <- (ext_exploring _ _ Hx). exact Hex.
      * eapply ext_used_inv; eauto.
  - exfalso. rewrite Forall_forall in Hnew. exact (fresh_not_used _ _ (Hnew _ Hin) Hu).
Qed.

Lemma past_inv_step H e p' :
  step e = Some p' -> past_inv H e -> past_inv (H ++ [e]) p'.
Proof.
  intros Hs Hinv q en c Hn Hex Hu.
  destruct (step_cases _ _ Hs) as (kept & e0 & e0' & popped & Hb & Hb' & Ha & _).
  assert (Hpre : forall q', q' <= length kept ->
                            firstn q' (choices e) = firstn q' (choices p')).
  { intros q' Hq'. unfold choices. rewrite Hb, Hb'. apply step_prefix_choices, Hq'. }
  rewrite Hb' in Hn.
  destruct (lt_eq_lt_dec q (length kept)) as [[Hlt|Heq]|Hgt].
  - rewrite nth_error_app1 in Hn by exact Hlt.
    eapply wit_mono; [| |apply (Hinv q en c)]; auto.
    + intros x Hx. apply in_or_app. left; exact Hx.
    + apply Hpre. lia.
    + rewrite Hb, nth_error_app1 by exact Hlt. exact Hn.
  - subst q. rewrite nth_error_app2, Nat.sub_diag in Hn by lia.
    cbn [nth_error] in Hn. injection Hn as <-.
    assert (He0 : nth_error (branches e) (length kept) = Some e0).
    { rewrite Hb, nth_error_app2, Nat.sub_diag by lia. reflexivity. }
    destruct (advance_used _ _ _ Ha Hu) as [Hu0|Hc0].
    + eapply wit_mono; [| |apply (Hinv (length kept) e0 c)]; auto.
      * intros x Hx. apply in_or_app. left; exact Hx.
      * exact (proj1 (advance_entry_exploring _ _ Ha)).
    + exists e. split; [apply in_or_app; right; left; reflexivity|].
      split; [apply Hpre; lia|].
      unfold choices. rewrite (map_nth_error choice_of _ _ He0), Hc0. reflexivity.
  - rewrite nth_error_app2 in Hn by lia.
    destruct (q - length kept) as [|m] eqn:Hm; [lia|]. destruct m; discriminate.
Qed.

Lemma In_firstn_nth (A : Type) (x : A) k l :
  In x (firstn k l) -> exists j, j < k /\ nth_error l j = Some x.
Proof.
  revert l; induction k as [|k IH]; intros [|h l] Hin; cbn [firstn In] in Hin;
    try contradiction.
  destruct Hin as [->|Hin].
  - exists 0. split; [lia|reflexivity].
  - destruct (IH _ Hin) as (j & Hj & Hn). exists (S j). split; [lia|exact Hn].
Qed.

Section Explore.
  Variable it : path -> path.
  Hypothesis Hit : iter_ok it.
  Hypothesis Hit2 : iter_ok2 it.

  Lemma past_inv_explore :
    forall n p H, wf_path p -> wf2_path p -> past_inv H p ->
    forall k ek, nth_error (explore it n p) k = Some ek ->
                 past_inv (H ++ firstn k (explore it n p)) ek.
  Proof.
    induction n as [|n IH]; intros p H Hwf Hwf2 Hinv k ek Hk; cbn [explore] in *.
    - destruct k; discriminate.
    - destruct (Hit p Hwf) as [Hext Hwfi].
      destruct (Hit2 p Hwf Hwf2) as [Hwf2i Hnew].
      pose proof (past_inv_iter _ _ _ Hext Hnew Hinv) as Hinvi.
      destruct k as [|k]; cbn [nth_error firstn] in *.
      + injection Hk as <-. rewrite app_nil_r. exact Hinvi.
      + destruct (step (it p)) as [p'|] eqn:Hs; [|destruct k; discriminate].
        replace (H ++ it p :: firstn k (explore it n p'))
          with ((H ++ [it p]) ++ firstn k (explore it n p'))
          by (rewrite <- app_assoc; reflexivity).
        apply IH; auto.
        * exact (PathTerm.step_wf _ _ Hwfi Hs).
        * exact (step_wf2 _ _ Hwf2i Hs).
        * apply past_inv_step; assumption.
  Qed.

  (* the END path at index k is an iteration from some START path, and the
     rest of the list is the exploration from that START path *)
  Lemma explore_suffix :
    forall n p k ek, wf_path p -> wf2_path p -> finishes it n p = true ->
    nth_error (explore it n p) k = Some ek ->
    exists n' pk, wf_path pk /\ wf2_path pk /\ finishes it (S n') pk = true /\
                  ek = it pk /\
                  forall j, nth_error (explore it (S n') pk) j
                            = nth_error (explore it n p) (k + j).
  Proof.
    induction n as [|n IH]; intros p k ek Hwf Hwf2 Hfin Hk.
    - destruct k; discriminate.
    - destruct k as [|k].
      + exists n, p. cbn [explore nth_error] in Hk. injection Hk as <-.
        split; [exact Hwf|]. split; [exact Hwf2|]. split; [exact Hfin|].
        split; [reflexivity|]. intros j. reflexivity.
      + cbn [explore nth_error] in Hk. cbn [finishes] in Hfin.
        destruct (Hit p Hwf) as [Hext Hwfi].
        destruct (Hit2 p Hwf Hwf2) as [Hwf2i Hnew].
        destruct (step (it p)) as [p'|] eqn:Hs; [|destruct k; discriminate].
        destruct (IH p' k ek (PathTerm.step_wf _ _ Hwfi Hs) (step_wf2 _ _ Hwf2i Hs) Hfin Hk)
          as (n' & pk & H1 & H2 & H3 & H4 & H5).
        exists n', pk.
        split; [exact H1|]. split; [exact H2|]. split; [exact H3|]. split; [exact H4|].
        intros j. rewrite H5. cbn [explore Nat.add nth_error]. rewrite Hs. reflexivity.
  Qed.
End Explore.

Theorem visited_witness :
  forall it n p, iter_ok it -> iter_ok2 it -> wf_path p -> wf2_path p -> fresh_path p ->
  forall k ek q en c,
    nth_error (explore it n p) k = Some ek ->
    nth_error (branches ek) q = Some en -> entry_exploring en = true -> used en c ->
    exists j ej, j < k /\ nth_error (explore it n p) j = Some ej /\
                 firstn q (choices ej) = firstn q (choices ek) /\
                 nth_error (choices ej) q = Some c.
Proof.
  intros it n p Hit Hit2 Hwf Hwf2 Hfresh k ek q en c Hk Hn Hex Hu.
  pose proof (past_inv_explore it Hit Hit2 n p [] Hwf Hwf2 (past_inv_fresh _ Hfresh) k ek Hk)
    as Hinv.
  destruct (Hinv q en c Hn Hex Hu) as (ej & Hin & Hf & Hc).
  cbn [app] in Hin. destruct (In_firstn_nth _ _ _ _ Hin) as (j & Hj & Hnj).
  exists j, ej. auto.
Qed.

(* ------------------------------------------------------------------ *)
(* (d) alternatives still to do are decided by a later iteration       *)
(* ------------------------------------------------------------------ *)

(* a to-do alternative of END path [e] survives step (the slot is not popped)
   and is, in the next START path, still to do or the current decision *)
Lemma step_todo e q en c :
  wf2_path e ->
  nth_error (branches e) q = Some en -> entry_exploring en = true -> todo en c ->
  exists p', step e = Some p' /\
    exists en', nth_error (branches p') q = Some en' /\ entry_exploring en' = true /\
                (todo en' c \/ choice_of en' = c) /\
                firstn q (choices p') = firstn q (choices e).
Proof.
  intros Hwf2 Hn Hex Htodo.
  destruct (step e) as [p'|] eqn:Hs.
  2:{ exfalso. exact (todo_advance _ _ Hex Htodo (step_none_exhausted _ Hs _ _ Hn Hex)). }
  exists p'. split; [reflexivity|].
  destruct (step_cases _ _ Hs) as (kept & e0 & e0' & popped & Hb & Hb' & Ha & Hpop & _).
  assert (Hpre : forall q', q' <= length kept ->
                            firstn q' (choices p') = firstn q' (choices e)).
  { intros q' Hq'. unfold choices. rewrite Hb, Hb'. apply step_prefix_choices, Hq'. }
  rewrite Hb in Hn.
  destruct (lt_eq_lt_dec q (length kept)) as [[Hlt|Heq]|Hgt].
  - rewrite nth_error_app1 in Hn by exact Hlt.
    exists en. rewrite Hb', nth_error_app1 by exact Hlt.
    split; [exact Hn|]. split; [exact Hex|]. split; [left; exact Htodo|]. apply Hpre. lia.
  - subst q. rewrite nth_error_app2, Nat.sub_diag in Hn by lia.
    cbn [nth_error] in Hn. injection Hn as <-.
    exists e0'. rewrite Hb', nth_error_app2, Nat.sub_diag by lia.
    split; [reflexivity|]. split; [exact (proj2 (advance_entry_exploring _ _ Ha))|].
    split; [|apply Hpre; lia].
    apply (advance_todo _ _ _) with (2 := Ha); [|exact Htodo].
    unfold wf2_path in Hwf2. rewrite Hb in Hwf2. apply Forall_app in Hwf2.
    destruct Hwf2 as [_ Hwf2]. inversion Hwf2; assumption.
  - exfalso. rewrite nth_error_app2 in Hn by lia.
    destruct (q - length kept) as [|m] eqn:Hm; [lia|]. cbn [nth_error] in Hn.
    rewrite Forall_forall in Hpop.
    exact (todo_advance _ _ Hex Htodo (Hpop _ (nth_error_In _ _ Hn))).
Qed.

Section Progress.
  Variable it : path -> path.
  Hypothesis Hit : iter_ok it.
  Hypothesis Hit2 : iter_ok2 it.

  (* from a START path in which [c] is to do or current at slot q, some END
     path of the finishing exploration follows the same prefix and decides c *)
  Lemma progress :
    forall n p, wf_path p -> wf2_path p -> finishes it n p = true ->
    forall q en c, nth_error (branches p) q = Some en -> entry_exploring en = true ->
                   (todo en c \/ choice_of en = c) ->
    exists j ej, nth_error (explore it n p) j = Some ej /\
                 firstn q (choices ej) = firstn q (choices p) /\
                 nth_error (choices ej) q = Some c.
  Proof.
    induction n as [|n IH]; intros p Hwf Hwf2 Hfin q en c Hn Hex Hc; [discriminate|].
    cbn [finishes] in Hfin. cbn [explore].
    destruct (Hit p Hwf) as [Hext Hwfi].
    destruct (Hit2 p Hwf Hwf2) as [Hwf2i _].
    destruct (extends_nth_old _ _ _ _ Hext Hn) as (en' & Hn' & Hx).
    assert (Hq : q <= length (branches p)).
    { apply Nat.lt_le_incl, nth_error_Some. congruence. }
    pose proof (extends_prefix _ _ q Hext Hq) as Hpre.
    assert (Hex' : entry_exploring en' = true) by (rewrite (ext_exploring _ _ Hx); exact Hex).
    destruct Hc as [Htodo|Hcur].
    - pose proof (ext_todo _ _ _ Hx Htodo) as Htodo'.
      destruct (step_todo _ _ _ _ Hwf2i Hn' Hex' Htodo')
        as (p' & Hs & en2 & Hn2 & Hex2 & Hc2 & Hpre2).
      rewrite Hs in Hfin |- *.
      destruct (IH p' (PathTerm.step_wf _ _ Hwfi Hs) (step_wf2 _ _ Hwf2i Hs) Hfin
                   q en2 c Hn2 Hex2 Hc2) as (j & ej & Hj & Hf & Hcj).
      exists (S j), ej. cbn [nth_error]. split; [exact Hj|]. split; [congruence|exact Hcj].
    - exists 0, (it p). cbn [nth_error]. split; [reflexivity|]. split; [exact Hpre|].
      unfold choices. rewrite (map_nth_error choice_of _ _ Hn').
      rewrite (ext_choice Hx), Hcur. reflexivity.
  Qed.
End Progress.

Theorem dfs_exhaustive :
  forall it n p,
    iter_ok it -> iter_ok2 it -> wf_path p -> wf2_path p -> fresh_path p ->
    finishes it n p = true ->
  forall k ek q c,
    nth_error (explore it n p) k = Some ek -> registered ek q c ->
    exists j ej, nth_error (explore it n p) j = Some ej /\
                 firstn q (choices ej) = firstn q (choices ek) /\
                 nth_error (choices ej) q = Some c.
Proof.
  intros it n p Hit Hit2 Hwf Hwf2 Hfresh Hfin k ek q c Hk Hreg.
  apply registered_reg in Hreg. destruct Hreg as (en & Hn & Hex & Hreg).
  destruct (explore_suffix it Hit Hit2 n p k ek Hwf Hwf2 Hfin Hk)
    as (n' & pk & Hwfk & Hwf2k & Hfink & Hek & Hsuf).
  destruct (Hit pk Hwfk) as [_ Hwfe]. destruct (Hit2 pk Hwfk Hwf2k) as [Hwf2e _].
  rewrite <- Hek in Hwfe, Hwf2e.
  assert (Hwfen : wf2_entry en).
  { unfold wf2_path in Hwf2e. rewrite Forall_forall in Hwf2e.
    apply Hwf2e. eapply nth_error_In; eauto. }
  destruct (reg_cases _ _ Hwfen Hreg) as [Hu|[Hcur|Htodo]].
  - (* used up: an earlier iteration *)
    destruct (visited_witness it n p Hit Hit2 Hwf Hwf2 Hfresh k ek q en c Hk Hn Hex Hu)
      as (j & ej & _ & Hj & Hf & Hc).
    exists j, ej. auto.
  - (* the decision of this very iteration *)
    exists k, ek. split; [exact Hk|]. split; [reflexivity|].
    unfold choices. rewrite (map_nth_error choice_of _ _ Hn), Hcur. reflexivity.
  - (* still to do: a later iteration *)
    destruct (step_todo _ _ _ _ Hwf2e Hn Hex Htodo)
      as (p' & Hs & en2 & Hn2 & Hex2 & Hc2 & Hpre2).
    cbn [finishes] in Hfink. rewrite <- Hek, Hs in Hfink.
    destruct (progress it Hit Hit2 n' p' (PathTerm.step_wf _ _ Hwfe Hs)
                (step_wf2 _ _ Hwf2e Hs) Hfink q en2 c Hn2 Hex2 Hc2)
      as (j & ej & Hj & Hf & Hc).
    exists (k + S j), ej. split; [|split; [congruence|exact Hc]].
    rewrite <- Hsuf. cbn [explore nth_error]. rewrite <- Hek, Hs. exact Hj.
Qed.

(* ------------------------------------------------------------------ *)
(* the concrete Path API keeps wf2 and appends only fresh entries      *)
(* ------------------------------------------------------------------ *)

Definition api_ok2 (p p' : path) : Prop :=
  wf2_path p -> wf2_path p' /\ Forall fresh_entry (new_entries p p').

Lemma api_same p p' : branches p' = branches p -> api_ok2 p p'.
Proof.
  intros Hb Hwf. unfold wf2_path, new_entries. rewrite Hb, skipn_all. split; [exact Hwf|constructor].
Qed.

Lemma api_marks p p' : Forall2 ext (branches p) (branches p') -> api_ok2 p p'.
Proof.
  intros Hb Hwf. split.
  - eapply Forall2_ext_wf2; eauto.
  - unfold new_entries. rewrite (Forall2_len _ _ _ _ _ Hb), skipn_all. constructor.
Qed.

Lemma api_push p p' e :
  branches p' = branches p ++ [e] -> wf2_entry e -> fresh_entry e -> api_ok2 p p'.
Proof.
  intros Hb He Hf Hwf. unfold wf2_path, new_entries. rewrite Hb. split.
  - apply Forall_app. split; [exact Hwf|]. constructor; [exact He|constructor].
  - rewrite skipn_app, skipn_all, Nat.sub_diag. cbn [skipn app].
    constructor; [exact Hf|constructor].
Qed.

Lemma push_load_wf2 p seed p' : push_load p seed = POk p' -> api_ok2 p p'.
Proof.
  intros H. destruct (push_load_cases _ _ _ H) as (_ & _ & ->).
  eapply api_push; [reflexivity|exact I|reflexivity].
Qed.

Lemma branch_load_wf2 p p' v : branch_load p = POk (p', v) -> api_ok2 p p'.
Proof.
  intros H. rewrite (branch_load_cases _ _ _ H). apply api_same. reflexivity.
Qed.

Lemma branch_spurious_wf2 p p' b : branch_spurious p = POk (p', b) -> api_ok2 p p'.
Proof.
  intros H. destruct (branch_spurious_cases _ _ _ H) as [(_ & ->)|(_ & _ & ->)].
  - apply api_same. reflexivity.
  - eapply api_push; [reflexivity|exact I|reflexivity].
Qed.

Lemma backtrack_wf2 p point tid p' : backtrack p point tid = POk p' -> api_ok2 p p'.
Proof.
  intros H. destruct (backtrack_marks _ _ _ _ H) as (_ & _ & _ & _ & _ & _ & Hbr).
  apply api_marks. exact Hbr.
Qed.

Lemma pad_to_count n l : count_active (pad_to n Disabled l) <= count_active l.
Proof.
  revert l; induction n as [|n IH]; intros l; cbn [pad_to].
  - unfold count_active at 1. cbn. lia.
  - destruct l as [|h t]; rewrite !count_active_cons.
    + specialize (IH []). cbn in *. lia.
    + specialize (IH t). lia.
Qed.

Lemma activate_first_yield_count l :
  count_active (activate_first_yield l) <= S (count_active l).
Proof.
  induction l as [|h t IH]; [cbn; lia|].
  cbn [activate_first_yield].
  destruct h; rewrite !count_active_cons; cbn [is_active tstat_eqb]; lia.
Qed.

Lemma new_threads_count seed :
  length (filter is_active seed) <= 1 -> count_active (new_threads seed) <= 1.
Proof.
  intros Hs. unfold new_threads. cbv zeta.
  pose proof (pad_to_count MAX_THREADS seed) as Hp. fold (count_active seed) in Hs.
  destruct (find_index is_active (pad_to MAX_THREADS Disabled seed)) eqn:Hf; [lia|].
  pose proof (activate_first_yield_count (pad_to MAX_THREADS Disabled seed)) as Ha.
  rewrite (find_index_none_count _ Hf) in Ha. exact Ha.
Qed.

(* wf2 holds for every seed (branch_thread itself rejects two Active
   threads); freshness needs a seed without Visited, which is what the
   scheduler passes (Disabled / Skip / Yield / Pending / Active) *)
Lemma branch_thread_wf2 p seed p' t :
  Forall (fun x => x <> Visited) seed ->
  branch_thread p seed = POk (p', t) -> api_ok2 p p'.
Proof.
  intros Hseed H.
  destruct (branch_thread_inv _ _ _ _ H) as [(_ & -> & _)|(_ & _ & _ & Hact & _ & -> & _)].
  - apply api_same. reflexivity.
  - eapply api_push; [reflexivity| |]; cbn [wf2_entry fresh_entry pushed_sched s_threads].
    + apply new_threads_count, Hact.
    + apply new_threads_Forall; [discriminate..|exact Hseed].
Qed.

Lemma branch_thread_wf2_only p seed p' t :
  branch_thread p seed = POk (p', t) -> wf2_path p -> wf2_path p'.
Proof.
  intros H Hwf.
  destruct (branch_thread_inv _ _ _ _ H) as [(_ & -> & _)|(_ & _ & _ & Hact & _ & -> & _)];
    [exact Hwf|].
  unfold wf2_path. cbn [branches set_pos set_branches]. apply Forall_app. split; [exact Hwf|].
  constructor; [|constructor]. cbn [wf2_entry pushed_sched s_threads].
  apply new_threads_count, Hact.
Qed.

(* explore_state / critical / skip_branch do not touch the stack *)
Lemma explore_state_wf2 p p' : explore_state p = POk p' -> api_ok2 p p'.
Proof.
  intros H. apply api_same.
  destruct (explore_state_cases _ _ H) as [(_ & ->)|(_ & _ & ->)]; reflexivity.
Qed.

Lemma critical_wf2 p p' : critical p = POk p' -> api_ok2 p p'.
Proof.
  intros H. apply api_same.
  destruct (critical_cases _ _ H) as [(_ & ->)|(_ & _ & ->)]; reflexivity.
Qed.

Lemma skip_branch_wf2 p : api_ok2 p (skip_branch p).
Proof. apply api_same. reflexivity. Qed.

(* ---- chaining API calls: the two facts compose along [extends] ---- *)

Lemma ext_threads_no_visited l l' :
  Forall2 ext_t l l' -> Forall (fun t => t <> Visited) l -> Forall (fun t => t <> Visited) l'.
Proof.
  apply Forall2_Forall. intros t t' [->|[_ ->]] Ht; [exact Ht|discriminate].
Qed.

Lemma ext_fresh en en' : ext en en' -> fresh_entry en -> fresh_entry en'.
Proof.
  intros H. destruct (ext_inv _ _ H) as [->|(s & th & -> & -> & _ & Hth)]; [auto|].
  cbn [fresh_entry s_threads]. apply ext_threads_no_visited. exact Hth.
Qed.

Lemma Forall2_ext_fresh l l' : Forall2 ext l l' -> Forall fresh_entry l -> Forall fresh_entry l'.
Proof. apply Forall2_Forall. exact ext_fresh. Qed.

Lemma new_entries_compose p p1 p2 :
  extends p p1 -> extends p1 p2 ->
  Forall fresh_entry (new_entries p p1) -> Forall fresh_entry (new_entries p1 p2) ->
  Forall fresh_entry (new_entries p p2).
Proof.
  intros H1 H2 Hf1 Hf2.
  destruct (extends_new _ _ H1) as (old1 & Hb1 & Hold1).
  destruct (extends_new _ _ H2) as (old2 & Hb2 & Hold2).
  rewrite Hb1 in Hold2.
  destruct (Forall2_app_inv_l _ _ Hold2) as (o2a & o2b & Ha & Hb & ->).
  unfold new_entries at 1. rewrite Hb2, <- app_assoc.
  rewrite (Forall2_len _ _ _ _ _ Hold1), (Forall2_len _ _ _ _ _ Ha).
  rewrite skipn_app, skipn_all, Nat.sub_diag. cbn [skipn app].
  apply Forall_app. split; [|exact Hf2]. eapply Forall2_ext_fresh; eauto.
Qed.

(* two consecutive API calls *)
Lemma api_ok2_compose p p1 p2 :
  extends p p1 -> extends p1 p2 -> api_ok2 p p1 -> api_ok2 p1 p2 -> api_ok2 p p2.
Proof.
  intros H1 H2 A1 A2 Hwf.
  destruct (A1 Hwf) as [Hwf1 Hf1]. destruct (A2 Hwf1) as [Hwf2 Hf2].
  split; [exact Hwf2|]. eapply new_entries_compose; eauto.
Qed.

(* path_new is fresh and wf2 *)
Lemma path_new_fresh mb b ex : fresh_path (path_new mb b ex) /\ wf2_path (path_new mb b ex).
Proof. split; constructor. Qed.

(* ---- remark on ELoad: the position bound is NOT l_pos < length l_vals ----
   push_load accepts an empty seed; branch_load then reads values[0] of the
   fixed-size array, i.e. 0.  The bound that does hold is the one below; it is
   not needed for exhaustiveness (an empty list registers no alternative). *)
Definition load_pos_ok (e : entry) : Prop :=
  match e with
  | ELoad l => l_pos l < length (l_vals l) \/ l_pos l = 0
  | _ => True
  end.

Lemma load_pos_ok_fresh e : fresh_entry e -> load_pos_ok e.
Proof. destruct e as [s|l|s]; cbn; auto. Qed.

Lemma load_pos_ok_advance e e' : advance_entry e = Some e' -> load_pos_ok e'.
Proof.
  intros H. destruct (advance_entry_inv _ _ H) as [|l _ Hlt|]; [exact I| |exact I].
  cbn [load_pos_ok l_pos l_vals]. left; exact Hlt.
Qed.

Lemma load_pos_ok_ext e e' : ext e e' -> load_pos_ok e -> load_pos_ok e'.
Proof.
  intros H. destruct (ext_inv _ _ H) as [->|(s & th & -> & -> & _)]; [auto|].
  intros _. exact I.
Qed.

Print Assumptions step_none_exhausted.
Print Assumptions exhausted_reg.
Print Assumptions popped_entries_exhausted.
Print Assumptions visited_witness.
Print Assumptions dfs_exhaustive.
Print Assumptions step_wf2.
Print Assumptions push_load_wf2.
Print Assumptions branch_load_wf2.
Print Assumptions branch_spurious_wf2.
Print Assumptions backtrack_wf2.
Print Assumptions branch_thread_wf2.
Print Assumptions api_ok2_compose.
