(* Executions of Ops.v and the one-cell machine: the frame of every
   micro-operation, the semantic growth step, and the run-level invariant from
   init_exec.

   HEADLINE.  [run_goodAt]: forall p pa a, if a is a declared atomic
   (get_atomic (init_exec p pa) a = Some _) and RunOK p pa a, then along every
   execution  steps (init_exec p pa) e  the atomic a still exists and
   GoodS (atomic a, pclocks e) -- the machine's full invariant of
   AtomicClosure.v -- holds ([GoodAt a e]).  Corollaries in every reachable
   state: [run_atomicity] (every live RMW store is strictly mo-after its live
   source, no live store strictly between), [run_never_none] (assert_ne!
   cannot fire), [run_atomic_exists].
   [RunOK p pa a]: at every access micro-operation on a executed in a state
   reachable from init_exec, [SideOK] holds:
     (i)   the index that choose_store answers for the candidate list of THIS
           access ([micro_seed]) is a candidate, if the list is not empty
           (exploration-level fact; AtomicRun3: automatic while the path is
           being extended.  The clause must not quantify over all candidate
           lists: a replayed entry answers its recorded index whatever the
           list, and a fresh entry for the empty list answers 0);
     (ii)  the ring of a is not full (at_cnt < MAX_ATOMIC_HISTORY);
     (iii) vle (t_rel t0) (t_caus t0) for the accessing thread -- an invariant
           of executions (t_rel is only ever set to a snapshot of t_caus),
           proved by the thread-side pass of AtomicRun2.v;
     (iv)  the accessing thread's index is < MAX_THREADS (the thread-count
           bound of spawn; AtomicRun2.v as well).

   PROVED (closed under the global context):
   1. The frame.  [acore s s']: same stores, count and mutating flag;
      [akeep a e e']; [exec_micro_akeep] / [exec_micro_akeep_ok]: EVERY
      micro-operation m with ~ acc_on a m (scheduling, every operation on other
      objects and other atomics, fences, spawn, termination ...) keeps the core
      of a (only the DPOR bookkeeping written by sched_note may change): the
      walk NotifyFacts.slot_tac for the object relation okeepA.
      [acc_on a m]: MLoadPost / MFuLoadPost / MStorePost / MRmwPost /
      MUnsyncLoad / MWithMut / MBoLoad / MBsLoad on a.
   2. BGrowTo.  [growto_goodS]: GoodS survives ANY change of the clock list
      that grows pointwise and stays bounded; [acore_goodS]; [pclocks e] = the
      clocks padded to MAX_THREADS entries (spawn is an ordinary growth step);
      [exec_growto]: clock_wf of the target and SyncMono's clock monotonicity
      give exactly such a step; [frame_step_goodS].
   3. [bstep_reclock], [access_step_padded]: an access step only looks at the
      accessing thread's clock.
   4. [coh a e e']: a stays, live slots stay live, no mo edge between live
      stores is lost, what a clock has seen it still sees.  [step_good_coh]:
      one micro-operation keeps [GoodAt a] and satisfies coh, given that it is
      a machine step if it is an access to a; [sched_step_good_coh] the same
      for one step of SyncMono.steps.  [step_goodAt], [steps_goodAt] (abstract
      form with [AccSide]), [steps_atomicity], [steps_never_none].
   5. The start.  [init_goodAt]: every declared atomic satisfies the invariant
      in init_exec (Check.create_object creates it with the all-zero clock: the
      initial store is the bottom store that i_key1 allows);
      ClockFacts.init_clock_wf and SyncMono.init_exec_track_ok give the rest.
   6. The access micro-operations.  With AtomicBridge.load_post_is_step (the
      load shared by MLoadPost, MFuLoadPost and the polls of block_on),
      [acc_step_is_bstep]: all EIGHT access micro-operations are steps of the
      generalised machine under [SideOK].
   7. [steps_goodAt_from] (invariant and coh along steps, under RunOK),
      [run_good_coh], [run_goodAt], [run_atomicity], [run_never_none],
      [run_atomic_exists].
   8. Coherence over executions: [steps_stable] (an mo edge between live
      stores is never lost), [steps_knows], [CoRR_CoWR_steps].

   (iii) and (iv) are invariants of the executions: AtomicRun2.v. *)
Require Import LV.Base LV.VV LV.VVFacts LV.Path LV.PathSpec LV.PathApi LV.Prog LV.Objects
               LV.Exec LV.Atomic LV.Ops LV.Check LV.SyncFacts LV.ExecFacts LV.SyncMono LV.NotifyFacts
               LV.ClockFacts LV.AtomicFacts LV.AtomicCoherence LV.AtomicCoRR LV.AtomicClosure LV.AtomicBridge.
From Coq Require Import List Arith Lia Bool.
Import ListNotations.

(* ================================================================== *)
(* 1. The frame: what every micro-operation that is not an access to the
      atomic a does to a                                                *)
(* ================================================================== *)

(* the part of an atomic_state the machine's invariant talks about *)
Definition acore (s s' : atomic_state) : Prop :=
  at_stores s' = at_stores s /\ at_cnt s' = at_cnt s /\ at_mutating s' = at_mutating s.

Lemma acore_refl s : acore s s.
Proof. repeat split. Qed.
Lemma acore_trans s1 s2 s3 : acore s1 s2 -> acore s2 s3 -> acore s1 s3.
Proof. intros (A1 & B1 & C1) (A2 & B2 & C2). repeat split; congruence. Qed.

Definition okeepA (o o' : object) : Prop :=
  match o with
  | OAtomic s => exists s', o' = OAtomic s' /\ acore s s'
  | _ => True
  end.

Lemma okeepA_refl o : okeepA o o.
Proof. destruct o; cbn [okeepA]; auto. eexists; split; [reflexivity|apply acore_refl]. Qed.

Definition akeep (a : nat) (e e' : exec) : Prop :=
  forall s, get_atomic e a = Some s ->
    exists s', get_atomic e' a = Some s' /\ acore s s'.

Lemma okeepA_ok : slot_ok okeepA.
Proof.
  split; try (intros; exact I).
  - apply okeepA_refl.
  - intros o1 o2 o3 H12 H23. destruct o1; cbn [okeepA] in *; auto.
    destruct H12 as (s2 & -> & H2). destruct H23 as (s3 & -> & H3). eauto using acore_trans.
  - intros o act tid pid v. destruct o; cbn [okeepA set_last_access]; auto.
    eexists; split; [reflexivity|]. repeat split.
Qed.

Lemma slot_akeep a e e' : slot okeepA a e e' -> akeep a e e'.
Proof.
  intros H s Hs. apply get_atomic_nth in Hs. destruct (H _ Hs) as (o' & Ho' & s' & -> & Hc).
  exists s'. split; [|exact Hc]. unfold get_atomic. rewrite Ho'. reflexivity.
Qed.

Ltac aside_obj := obj_at_slot; cbn [okeepA]; exact I.

Definition acc_on (a : nat) (m : micro) : Prop :=
  match m with
  | MLoadPost b _ _ | MFuLoadPost b _ _ _ _ | MStorePost b _ _ | MRmwPost b _ _ _
  | MUnsyncLoad b | MWithMut b _ | MBoLoad b _ _ _ _ _ | MBsLoad b _ _ _ _ _ _ => b = a
  | _ => False
  end.

(* every other micro-operation (scheduling, other objects, other atomics,
   spawn, fences ...) keeps the stores, the count and the mutating flag of a *)
Lemma exec_micro_akeep a e me m :
  track_ok e -> ~ acc_on a m -> akeep a e (res_exec (exec_micro e me m)).
Proof.
  (* for an access to another atomic b, Hm reads b <> a: the writes to slot b
     are closed by slot_upd_other_k *)
  intros Htr Hm. apply slot_akeep.
  destruct m; cbn [acc_on] in Hm; slot_tac okeepA_ok aside_obj.
Qed.

Lemma exec_micro_akeep_ok a e me m e' :
  track_ok e -> ~ acc_on a m -> exec_micro e me m = MOk e' -> akeep a e e'.
Proof.
  intros Htr Hm H. pose proof (exec_micro_akeep a e me m Htr Hm) as Hk. rewrite H in Hk. exact Hk.
Qed.

(* ================================================================== *)
(* 2. BGrowTo: the clocks grow pointwise and stay bounded                *)
(* ================================================================== *)

Theorem growto_goodS : forall s cs cs',
  GoodS (s, cs) -> length cs' = length cs ->
  (forall u, vle (clk cs u) (clk cs' u)) ->
  (forall t, t < length cs' -> t < length (clk cs' t)) ->
  (forall u t, u < length cs' -> t < length cs' -> vv_get (clk cs' u) t <= vv_get (clk cs' t) t) ->
  GoodS (s, cs').
Proof.
  intros s cs cs' [[own [rk [HI [HL [HC HSy]]]]] HS] Hlen Hg Hcl Hb. cbn [fst snd] in *.
  split; [|apply (@stamp_clock s cs cs' HS Hg)].
  exists own, rk. cbn [fst snd]. split; [|split; [exact HL | split; [exact HC | exact HSy]]].
  destruct HI. constructor; try assumption.
  - rewrite Hlen. assumption.
  - intros a Ha. rewrite Hlen. apply i_own. exact Ha.
  - intros a t Ha Ht. rewrite Hlen in Ht. pose proof (i_bmo a t Ha Ht). pose proof (Hg t t). lia.
  - intros a t Ha Ht. rewrite Hlen in Ht. pose proof (i_bsync a t Ha Ht). pose proof (Hg t t). lia.
Qed.

Theorem acore_goodS : forall s s' cs, GoodS (s, cs) -> acore s s' -> GoodS (s', cs).
Proof.
  intros s s' cs [[own [rk HG]] HS] (A & B & C). cbn [fst snd] in *.
  pose proof (@EqSt_same_stores s s' B C A) as HE.
  split; [exists own, rk; apply (EqSt_GoodO HE HG) | apply (EqSt_StampO HE HS)].
Qed.

(* the clocks of an execution state, one entry per possible thread *)
Definition pclocks (e : exec) : list vv := map (caus_of e) (seq 0 MAX_THREADS).

Lemma pclocks_length e : length (pclocks e) = MAX_THREADS.
Proof. unfold pclocks. rewrite map_length, seq_length. reflexivity. Qed.

Lemma clk_pclocks e u : u < MAX_THREADS -> clk (pclocks e) u = caus_of e u.
Proof.
  intros Hu. unfold clk, pclocks.
  rewrite (nth_indep _ vv_new (caus_of e 0)) by (rewrite map_length, seq_length; exact Hu).
  rewrite (map_nth (caus_of e) (seq 0 MAX_THREADS) 0 u). rewrite seq_nth by exact Hu. reflexivity.
Qed.

Lemma clk_pclocks_over e u : MAX_THREADS <= u -> clk (pclocks e) u = vv_new.
Proof. intros Hu. unfold clk. apply nth_overflow. rewrite pclocks_length. exact Hu. Qed.

(* clock_wf of the target and monotonicity give exactly a BGrowTo step *)
Theorem exec_growto : forall e e' s,
  clock_wf e' -> cmono e e' -> GoodS (s, pclocks e) -> GoodS (s, pclocks e').
Proof.
  intros e e' s Hcw Hm HG. apply (growto_goodS s (pclocks e) (pclocks e') HG).
  - rewrite !pclocks_length. reflexivity.
  - intros u. destruct (Nat.lt_ge_cases u MAX_THREADS) as [Hu|Hu].
    + rewrite !clk_pclocks by exact Hu. apply Hm.
    + rewrite !clk_pclocks_over by exact Hu. apply vle_refl.
  - intros t Ht. rewrite pclocks_length in Ht. rewrite clk_pclocks by exact Ht.
    unfold caus_of. destruct (get_thread e' t) as [th|] eqn:Hth.
    + destruct (proj1 Hcw t th Hth) as (_ & _ & Hl). lia.
    + unfold vv_new. rewrite repeat_length. exact Ht.
  - intros u t Hu Ht. rewrite pclocks_length in Hu, Ht. rewrite !clk_pclocks by assumption.
    apply (CWw_caus_of _ _ u Hcw t).
Qed.

(* ================================================================== *)
(* 3. One step of an execution                                          *)
(* ================================================================== *)

(* a micro-operation that is not an access to a: BGrowTo + frame *)
Theorem frame_step_goodS : forall a e me m e' s,
  track_ok e -> clock_wf e -> ~ acc_on a m -> exec_micro e me m = MOk e' ->
  get_atomic e a = Some s -> GoodS (s, pclocks e) ->
  exists s', get_atomic e' a = Some s' /\ acore s s' /\ GoodS (s', pclocks e').
Proof.
  intros a e me m e' s Htr Hcw Hna Hx Hs HG.
  destruct (exec_micro_akeep_ok a e me m e' Htr Hna Hx s Hs) as (s' & Hs' & Hac).
  exists s'. split; [exact Hs'|]. split; [exact Hac|].
  apply (acore_goodS s s' (pclocks e')); [|exact Hac].
  apply (exec_growto e e' s); [apply (exec_micro_clock_wf_ok e me m e' Hcw Hx)| |exact HG].
  destruct (exec_micro_mono_ok _ _ _ _ Hx) as (_ & Hc & _). exact Hc.
Qed.

(* popping the continuation (what [steps] does before every micro-operation) *)
Lemma pop_cont_frame : forall e me rest,
  pclocks (upd_thread e me (fun t => th_set_cont t rest)) = pclocks e /\
  (forall a, get_atomic (upd_thread e me (fun t => th_set_cont t rest)) a = get_atomic e a).
Proof.
  intros e me rest. split; [|intros a; reflexivity].
  unfold pclocks. apply map_ext. intros j. apply caus_of_upd_thread_keep. intros t. reflexivity.
Qed.

(* ---- an access step only looks at the accessing thread's own clock ---- *)
Definition access_bop (b : bop) : Prop :=
  match b with
  | BOp (XLoad _ _) | BStoreR _ _ _ | BRmwR _ _ _ _ _ | BUnsyncLoad | BWithMut _ => True
  | _ => False
  end.

Lemma bstep_reclock : forall s cs1 cs2 t b s' cs1',
  access_bop b -> t < length cs2 -> clk cs2 t = clk cs1 t ->
  bstep (s, cs1) t b = Some (s', cs1') ->
  exists c', cs1' = list_set cs1 t c' /\ bstep (s, cs2) t b = Some (s', list_set cs2 t c').
Proof.
  intros s cs1 cs2 t b s' cs1' Hb Ht2 Hclk H.
  assert (Hl2 : Nat.ltb t (length cs2) = true) by (apply Nat.ltb_lt; exact Ht2).
  destruct b as [[idx o|v o|idx f so fo|u]|v|rel v o|rel idx f so fo| |v]; cbn [access_bop] in Hb; try contradiction;
    cbn [bstep] in *.
  - (* load *)
    unfold mstep in *. rewrite Hl2. cbn [negb]. rewrite Hclk.
    destruct (negb (Nat.ltb t (length cs1))); [discriminate|].
    destruct (match_load_to_stores s t (vv_inc (clk cs1 t) t) None o) as [l|]; [|discriminate].
    destruct (existsb (Nat.eqb idx) l); [|discriminate].
    destruct (atomic_load_g RModel s t (vv_inc (clk cs1 t) t) idx o) as [[[s1 c1] v1]|p]; [|discriminate].
    inversion H. subst. exists c1. split; reflexivity.
  - (* store *)
    unfold store_stepR in *. rewrite Hl2. cbn [negb]. rewrite Hclk.
    destruct (negb (Nat.ltb t (length cs1))); [discriminate|].
    destruct (Nat.leb MAX_ATOMIC_HISTORY (at_cnt s)); [discriminate|]. cbv zeta in *.
    destruct (negb (vv_le rel (vv_inc (clk cs1 t) t))); [discriminate|].
    destruct (track_store s (vv_inc (clk cs1 t) t)) as [s1|p]; [|discriminate].
    inversion H. subst. eexists. split; reflexivity.
  - (* rmw *)
    unfold rmw_stepR in *. rewrite Hl2. cbn [negb]. rewrite Hclk.
    destruct (negb (Nat.ltb t (length cs1))); [discriminate|].
    destruct (Nat.leb MAX_ATOMIC_HISTORY (at_cnt s)); [discriminate|]. cbv zeta in *.
    destruct (negb (vv_le rel (vv_inc (clk cs1 t) t))); [discriminate|].
    destruct (match_rmw_to_stores s) as [l|]; [|discriminate].
    destruct (existsb (Nat.eqb idx) l); [|discriminate].
    destruct (atomic_rmw s t (vv_inc (clk cs1 t) t) rel idx so fo f) as [[[[s1 c1] pv] ok]|p]; [|discriminate].
    inversion H. subst. exists c1. split; reflexivity.
  - (* unsync load *)
    unfold unsync_load_step in *. rewrite Hl2. cbn [negb]. rewrite Hclk.
    destruct (negb (Nat.ltb t (length cs1))); [discriminate|]. cbv zeta in *.
    destruct (track_unsync_load s (vv_inc (clk cs1 t) t)) as [s1|p]; [|discriminate].
    inversion H. subst. eexists. split; reflexivity.
  - (* with_mut *)
    unfold with_mut_step in *. rewrite Hl2. cbn [negb]. rewrite Hclk.
    destruct (negb (Nat.ltb t (length cs1))); [discriminate|]. cbv zeta in *.
    destruct (track_unsync_mut s (vv_inc (clk cs1 t) t)) as [s1|p]; [|discriminate].
    match type of H with match track_unsync_mut ?S2 _ with _ => _ end = _ =>
      destruct (track_unsync_mut S2 (vv_inc (clk cs1 t) t)) as [s3|p]; [|discriminate] end.
    inversion H. subst. eexists. split; reflexivity.
Qed.

Lemma clk_clocks_caus : forall e j, clk (clocks e) j = caus_of e j.
Proof.
  intros e j. unfold clk, clocks, caus_of, get_thread.
  revert j. induction (e_threads e) as [|h r IH]; intros j; [destruct j; reflexivity|].
  destruct j as [|j]; cbn; [reflexivity | apply IH].
Qed.

Lemma pclocks_as_clk : forall e, pclocks e = map (clk (clocks e)) (seq 0 MAX_THREADS).
Proof. intros e. unfold pclocks. apply map_ext. intros j. symmetry. apply clk_clocks_caus. Qed.

Lemma pclocks_list_set : forall e e' me c',
  me < length (clocks e) -> me < MAX_THREADS ->
  clocks e' = list_set (clocks e) me c' -> pclocks e' = list_set (pclocks e) me c'.
Proof.
  intros e e' me c' Hme HmeT Hc. rewrite !pclocks_as_clk, Hc.
  apply (nth_ext _ _ vv_new vv_new).
  - rewrite list_set_length, !map_length. reflexivity.
  - intros k Hk. rewrite map_length, seq_length in Hk.
    assert (Hset : nth k (list_set (map (clk (clocks e)) (seq 0 MAX_THREADS)) me c') vv_new =
                   if Nat.eqb k me then c' else nth k (map (clk (clocks e)) (seq 0 MAX_THREADS)) vv_new).
    { apply list_set_nth. rewrite map_length, seq_length. exact HmeT. }
    rewrite Hset.
    assert (Hn : forall g, nth k (map g (seq 0 MAX_THREADS)) vv_new = g k).
    { intros g. rewrite (nth_indep _ vv_new (g 0)) by (rewrite map_length, seq_length; exact Hk).
      rewrite (map_nth g (seq 0 MAX_THREADS) 0 k). rewrite seq_nth by exact Hk. reflexivity. }
    rewrite !Hn. rewrite (clk_set (clocks e) me c' k Hme). reflexivity.
Qed.

(* an access step on (a, clocks e) is the same step on the padded clocks *)
Theorem access_step_padded : forall e e' me b s s',
  access_bop b -> me < MAX_THREADS -> me < length (clocks e) ->
  bstep (s, clocks e) me b = Some (s', clocks e') ->
  bstep (s, pclocks e) me b = Some (s', pclocks e').
Proof.
  intros e e' me b s s' Hb HmeT Hme H.
  assert (Hclk : clk (pclocks e) me = clk (clocks e) me).
  { rewrite clk_pclocks by exact HmeT. symmetry. apply clk_clocks_caus. }
  destruct (bstep_reclock s (clocks e) (pclocks e) me b s' (clocks e') Hb
              ltac:(rewrite pclocks_length; exact HmeT) Hclk H) as (c' & Hc & Hs).
  rewrite Hs. rewrite (pclocks_list_set e e' me c' Hme HmeT Hc). reflexivity.
Qed.

(* ================================================================== *)
(* 4. Runs: SyncMono.steps                                              *)
(* ================================================================== *)

Lemma acc_on_dec : forall a m, {acc_on a m} + {~ acc_on a m}.
Proof.
  intros a m. destruct m; cbn [acc_on]; try (right; intros H; exact H); apply Nat.eq_dec.
Qed.

(* what is assumed about the access micro-operations on a: each of them is a
   step of the generalised machine on (atomic a, map t_caus threads).  The
   lemmas AtomicBridge.MLoadPost_is_step, MFuLoadPost_is_step,
   MStorePost_is_step, MRmwPost_is_step, MUnsyncLoad_is_step, MWithMut_is_step
   prove exactly this for the six plain access micro-operations from: "the
   index replayed by choose_store is a candidate", "t_rel <= t_caus", "the ring
   is not full"; [acc_step_is_bstep] below covers all eight, the polls of
   block_on (MBoLoad / MBsLoad) included. *)
Definition AccSide (a : nat) : Prop :=
  forall e me m e1 s,
    clock_wf e -> track_ok e -> acc_on a m -> exec_micro e me m = MOk e1 ->
    get_atomic e a = Some s -> GoodS (s, pclocks e) ->
    exists s1 b, access_bop b /\ me < length (clocks e) /\ me < MAX_THREADS /\
                 get_atomic e1 a = Some s1 /\
                 bstep (s, clocks e) me b = Some (s1, clocks e1).

(* the invariant of the atomic a in an execution state *)
Definition GoodAt (a : nat) (e : exec) : Prop :=
  exists s, get_atomic e a = Some s /\ GoodS (s, pclocks e).

(* from e to e': the atomic a stays, live slots stay live, no mo edge between
   live stores is lost, and whatever a thread's clock has seen it still sees *)
Definition coh (a : nat) (e e' : exec) : Prop :=
  forall s, get_atomic e a = Some s ->
    exists s', get_atomic e' a = Some s' /\
      (forall x, x < at_cnt s -> x < at_cnt s') /\
      (forall x y, x < at_cnt s -> y < at_cnt s ->
         vv_lt (mo s x) (mo s y) = true -> vv_lt (mo s' x) (mo s' y) = true) /\
      (forall u i, u < MAX_THREADS -> i < at_cnt s ->
         is_seen_by_current (st_seen (get_store s i)) (caus_of e u) = true ->
         is_seen_by_current (st_seen (get_store s' i)) (caus_of e' u) = true).

Lemma coh_refl a e : coh a e e.
Proof. intros s Hs. exists s. split; [exact Hs|]. repeat split; auto. Qed.

Lemma coh_trans a e1 e2 e3 : coh a e1 e2 -> coh a e2 e3 -> coh a e1 e3.
Proof.
  intros H12 H23 s Hs. destruct (H12 s Hs) as (s2 & Hs2 & A2 & B2 & C2).
  destruct (H23 s2 Hs2) as (s3 & Hs3 & A3 & B3 & C3).
  exists s3. split; [exact Hs3|]. split; [auto|]. split.
  - intros x y Hx Hy H. apply B3; auto.
  - intros u i Hu Hi H. apply C3; auto.
Qed.

(* a step of the generalised machine on the padded clocks *)
Lemma bstep_coh : forall a e e1 me b s s1,
  get_atomic e a = Some s -> get_atomic e1 a = Some s1 -> GoodS (s, pclocks e) ->
  bstep (s, pclocks e) me b = Some (s1, pclocks e1) -> coh a e e1.
Proof.
  intros a e e1 me b s s1 Hs Hs1 HG Hstep s0 Hs0. rewrite Hs in Hs0. injection Hs0 as <-.
  exists s1. split; [exact Hs1|].
  assert (Hcnt : at_cnt s <= at_cnt s1).
  { destruct HG as [[own [rk HGO]] HS]. cbn [fst snd] in *.
    destruct (@bstep_out own rk s (pclocks e) me b s1 (pclocks e1) HGO HS Hstep)
      as [own' [rk' [_ [_ [[Hc _] _]]]]]. exact Hc. }
  split; [intros x Hx; lia|]. split.
  - intros x y Hx Hy Hlt.
    destruct (@bstep_stable (s, pclocks e) me b (s1, pclocks e1) x y HG Hstep Hx Hy Hlt) as (_ & _ & H).
    exact H.
  - intros u i Hu Hi Hk.
    assert (Hk0 : knows (s, pclocks e) u i).
    { unfold knows. cbn [fst snd]. rewrite clk_pclocks by exact Hu. exact Hk. }
    destruct (@bstep_knows (s, pclocks e) me b (s1, pclocks e1) u i HG Hstep Hi Hk0) as (_ & H).
    unfold knows in H. cbn [fst snd] in H. rewrite clk_pclocks in H by exact Hu. exact H.
Qed.

(* a micro-operation that is not an access to a *)
Lemma frame_coh : forall a e me m e1,
  track_ok e -> ~ acc_on a m -> exec_micro e me m = MOk e1 -> coh a e e1.
Proof.
  intros a e me m e1 Htr Hna Hx s Hs.
  destruct (exec_micro_akeep_ok a e me m e1 Htr Hna Hx s Hs) as (s' & Hs' & (A & B & C)).
  exists s'. split; [exact Hs'|].
  assert (Hget : forall k, get_store s' k = get_store s k) by (intros k; unfold get_store; rewrite A; reflexivity).
  split; [intros x Hx'; rewrite B; exact Hx'|]. split.
  - intros x y _ _ H. unfold mo. rewrite !Hget. exact H.
  - intros u i _ _ H. rewrite Hget.
    destruct (exec_micro_mono_ok _ _ _ _ Hx) as (_ & Hc & _).
    apply (seen_clock_mono _ _ _ (Hc u) H).
Qed.

Lemma pop_coh : forall a e me rest, coh a e (upd_thread e me (fun t => th_set_cont t rest)).
Proof.
  intros a e me rest s Hs. exists s. split; [exact Hs|]. split; [auto|]. split; [auto|].
  intros u i _ _ H. rewrite caus_of_upd_thread_keep by (intros t; reflexivity). exact H.
Qed.

Lemma step_good_coh : forall a e me m e1,
  clock_wf e -> track_ok e -> exec_micro e me m = MOk e1 -> GoodAt a e ->
  (forall s, get_atomic e a = Some s -> GoodS (s, pclocks e) -> acc_on a m ->
     exists s1 b, access_bop b /\ me < length (clocks e) /\ me < MAX_THREADS /\
                  get_atomic e1 a = Some s1 /\
                  bstep (s, clocks e) me b = Some (s1, clocks e1)) ->
  GoodAt a e1 /\ coh a e e1.
Proof.
  intros a e me m e1 Hcw Htr Hx (s & Hs & HG) Hacc.
  destruct (acc_on_dec a m) as [Ha|Hna].
  - destruct (Hacc s Hs HG Ha) as (s1 & b & Hb & Hme & HmeT & Hs1 & Hstep).
    pose proof (access_step_padded e e1 me b s s1 Hb HmeT Hme Hstep) as Hp. split.
    + exists s1. split; [exact Hs1|].
      apply (@bstep_goodS (s, pclocks e) me b (s1, pclocks e1) HG Hp).
    + apply (bstep_coh a e e1 me b s s1 Hs Hs1 HG Hp).
  - split; [|apply (frame_coh a e me m e1 Htr Hna Hx)].
    destruct (frame_step_goodS a e me m e1 s Htr Hcw Hna Hx Hs HG) as (s' & Hs' & _ & HG').
    exists s'. split; assumption.
Qed.

Theorem step_goodAt : forall a e me m e1,
  AccSide a ->
  clock_wf e -> track_ok e -> exec_micro e me m = MOk e1 -> GoodAt a e -> GoodAt a e1.
Proof.
  intros a e me m e1 Hacc Hcw Htr Hx HG.
  apply (step_good_coh a e me m e1 Hcw Htr Hx HG).
  intros s Hs HGs Ha. exact (Hacc e me m e1 s Hcw Htr Ha Hx Hs HGs).
Qed.

Lemma sched_step_good_coh : forall a e me m rest e1,
  let e0 := upd_thread e me (fun t => th_set_cont t rest) in
  clock_wf e -> track_ok e -> exec_micro e0 me m = MOk e1 -> GoodAt a e ->
  (forall s, clock_wf e0 -> track_ok e0 -> get_atomic e0 a = Some s -> GoodS (s, pclocks e0) ->
     acc_on a m ->
     exists s1 b, access_bop b /\ me < length (clocks e0) /\ me < MAX_THREADS /\
                  get_atomic e1 a = Some s1 /\
                  bstep (s, clocks e0) me b = Some (s1, clocks e1)) ->
  GoodAt a e1 /\ clock_wf e1 /\ track_ok e1 /\ coh a e e1.
Proof.
  intros a e me m rest e1 e0 Hcw Htr Hx (s & Hs & HG) Hacc.
  assert (Hcw0 : clock_wf e0).
  { apply (ck_upd_thread_k e e me (fun t => th_set_cont t rest)); [|apply ck_refl|exact Hcw].
    intros t. apply tstep_keep; reflexivity. }
  assert (Htr0 : track_ok e0) by (apply (track_ok_same e); [reflexivity | reflexivity | exact Htr]).
  destruct (pop_cont_frame e me rest) as [Hp0 Hg0]. fold e0 in Hp0, Hg0.
  assert (HG0 : GoodAt a e0).
  { exists s. split; [rewrite Hg0; exact Hs | rewrite Hp0; exact HG]. }
  destruct (step_good_coh a e0 me m e1 Hcw0 Htr0 Hx HG0 (fun s0 => Hacc s0 Hcw0 Htr0)) as [HG1 Hcoh].
  split; [exact HG1|]. split; [apply (exec_micro_clock_wf_ok _ me m e1 Hcw0 Hx)|].
  split; [apply (exec_micro_track_ok _ me m e1 Htr0 Hx)|].
  eapply coh_trans; [apply (pop_coh a e me rest)|exact Hcoh].
Qed.

(* along every execution the invariant of a is preserved *)
Theorem steps_goodAt : forall a,
  AccSide a ->
  forall e e', steps e e' -> clock_wf e -> track_ok e -> GoodAt a e ->
  GoodAt a e' /\ clock_wf e' /\ track_ok e'.
Proof.
  intros a Hacc e e' H. induction H as [e|e me t m rest e1 e2 Hact Ht Hc Hx Hs IH]; intros Hcw Htr HG.
  - split; [exact HG|]. split; assumption.
  - destruct (sched_step_good_coh a e me m rest e1 Hcw Htr Hx HG) as (HG1 & Hcw1 & Htr1 & _).
    + intros s Hcw0 Htr0 Hs0 HGs Ha. exact (Hacc _ me m e1 s Hcw0 Htr0 Ha Hx Hs0 HGs).
    + exact (IH Hcw1 Htr1 HG1).
Qed.

(* consequences in every state of the execution *)
Theorem steps_atomicity : forall a e s r sl sid,
  GoodAt a e -> get_atomic e a = Some s -> r < at_cnt s ->
  st_rmw_src (get_store s r) = Some (sl, sid) ->
  sl < at_cnt s /\ vv_lt (mo s sl) (mo s r) = true /\
  forall x, x < at_cnt s -> vv_lt (mo s sl) (mo s x) && vv_lt (mo s x) (mo s r) = false.
Proof.
  intros a e s r sl sid (s0 & Hs0 & HG) Hs Hr Hsrc. rewrite Hs in Hs0. injection Hs0 as <-.
  apply (@Good_atomicity (s, pclocks e) r sl sid (GoodS_Good HG) Hr Hsrc).
Qed.

Theorem steps_never_none : forall a e s,
  GoodAt a e -> get_atomic e a = Some s ->
  (forall t c ly o, match_load_to_stores s t c ly o <> None) /\ match_rmw_to_stores s <> None.
Proof.
  intros a e s (s0 & Hs0 & HG) Hs. rewrite Hs in Hs0. injection Hs0 as <-.
  apply (@Good_never_none (s, pclocks e) (GoodS_Good HG)).
Qed.


(* ================================================================== *)
(* 5. The start: init_exec                                              *)
(* ================================================================== *)

Lemma caus_of_init : forall p pa j, caus_of (init_exec p pa) j = vv_new.
Proof.
  intros p pa j. unfold caus_of, get_thread, init_exec. cbn [e_threads].
  destruct j as [|j]; cbn [nth_error]; [reflexivity | destruct j; reflexivity].
Qed.

Lemma create_objects_atomic : forall ds c r os a s,
  create_objects ds c r = inl os -> nth_error os a = Some (OAtomic s) ->
  exists v, atomic_new 0 c r v = inl s.
Proof.
  induction ds as [|d ds IH]; intros c r os a s Hc Hn.
  - cbn in Hc. inversion Hc. subst os. destruct a; discriminate.
  - cbn [create_objects] in Hc.
    destruct (create_object d c r) as [o|p] eqn:Ho; [|discriminate].
    destruct (create_objects ds c r) as [os'|p] eqn:Hos; [|discriminate].
    inversion Hc. subst os. destruct a as [|a]; cbn [nth_error] in Hn.
    + inversion Hn. subst o. destruct d as [v0| | | | | | | | | ]; cbn [create_object] in Ho; try discriminate.
      destruct (atomic_new 0 c r v0) as [s0|p] eqn:Hn0; [|discriminate].
      inversion Ho. subst s0. exists v0. exact Hn0.
    + apply (IH c r os' a s Hos Hn).
Qed.

(* every declared atomic satisfies the invariant in the initial state *)
Theorem init_goodAt : forall p pa a s,
  get_atomic (init_exec p pa) a = Some s -> GoodAt a (init_exec p pa).
Proof.
  intros p pa a s Hs. exists s. split; [exact Hs|].
  apply get_atomic_nth in Hs. unfold init_exec in Hs. cbn [e_objects] in Hs.
  destruct (create_objects (p_decls p) vv_new vv_new) as [os|pn] eqn:Hc;
    [|destruct a; discriminate].
  destruct (create_objects_atomic _ _ _ _ _ _ Hc Hs) as (v & Hv).
  rewrite atomic_new_eq in Hv. inversion Hv. subst s.
  apply atomic_new_goodS.
  - rewrite pclocks_length. unfold MAX_THREADS. lia.
  - rewrite pclocks_length. apply le_n.
  - rewrite clk_pclocks by (unfold MAX_THREADS; lia). apply caus_of_init.
  - right. intros q. apply vv_new_get.
  - intros t Ht. rewrite pclocks_length in Ht. rewrite clk_pclocks by exact Ht.
    rewrite caus_of_init. unfold vv_new. rewrite repeat_length. exact Ht.
  - intros u t Hu Ht. rewrite pclocks_length in Hu, Ht. rewrite !clk_pclocks by assumption.
    rewrite !caus_of_init, !vv_new_get. apply le_n.
Qed.

(* ================================================================== *)
(* 6. The access micro-operations, from hypotheses about the run         *)
(* ================================================================== *)

(* the candidate list that the access micro-operation m of thread me hands to
   choose_store (after its causality_inc), if it has a load half *)
Definition micro_seed (s : atomic_state) (me : nat) (t0 : thread) (m : micro)
  : option (option (list nat)) :=
  match m with
  | MLoadPost _ o _ =>
      Some (match_load_to_stores s me (vv_inc (t_caus t0) me) (t_last_yield t0) o)
  | MFuLoadPost _ _ _ _ fo =>
      Some (match_load_to_stores s me (vv_inc (t_caus t0) me) (t_last_yield t0) fo)
  | MRmwPost _ _ _ _ => Some (match_rmw_to_stores s)
  | MBoLoad _ _ _ _ _ _ | MBsLoad _ _ _ _ _ _ _ =>
      Some (match_load_to_stores s me (vv_inc (t_caus t0) me) (t_last_yield t0) Acquire)
  | _ => None
  end.

(* what is assumed, at the access micro-operation m of thread me on a in state e.
   The last clause is about the decision stack: the index that choose_store
   answers FOR THE CANDIDATE LIST OF THIS ACCESS is one of the candidates.
   (Quantifying over all candidate lists would be unsatisfiable: a replayed
   entry answers a recorded index whatever the list, and a fresh entry for the
   empty list answers 0.) *)
Definition SideOK (a : nat) (e : exec) (me : nat) (m : micro) : Prop :=
  me < MAX_THREADS /\
  (forall t0, get_thread e me = Some t0 -> vle (t_rel t0) (t_caus t0)) /\
  (forall s, get_atomic e a = Some s -> at_cnt s < MAX_ATOMIC_HISTORY) /\
  (forall s t0 seed e2 idx l,
     get_atomic e a = Some s -> get_thread e me = Some t0 -> micro_seed s me t0 m = Some seed ->
     choose_store (causality_inc e me) seed = (e2, inl idx) -> seed = Some l -> l <> [] -> In idx l).

(* all eight access micro-operations are steps of the generalised machine *)
Theorem acc_step_is_bstep : forall a e me m e1 s t0,
  acc_on a m -> get_thread e me = Some t0 -> get_atomic e a = Some s ->
  GoodS (s, pclocks e) -> SideOK a e me m -> exec_micro e me m = MOk e1 ->
  exists s1 b, access_bop b /\ me < length (clocks e) /\
               get_atomic e1 a = Some s1 /\
               bstep (s, clocks e) me b = Some (s1, clocks e1).
Proof.
  intros a e me m e1 s t0 Hacc Hth Hat HG (HmeT & Hrel & Hring & Hrep) Hx.
  destruct (@Good_never_none (s, pclocks e) (GoodS_Good HG)) as [Hnn Hnr]. cbn [fst] in Hnn, Hnr.
  pose proof (@mb_me e me t0 Hth) as Hme.
  pose proof (Hrel t0 Hth) as Hrel0. pose proof (Hring s Hat) as Hroom.
  assert (Hc1 : 1 <= at_cnt s).
  { destruct HG as [[own [rk [HI _]]] _]. cbn [fst] in HI. exact (i_cnt1 HI). }
  assert (HrepL : forall o e2 idx l,
            micro_seed s me t0 m = Some (match_load_to_stores s me (vv_inc (t_caus t0) me) (t_last_yield t0) o) ->
            choose_store (causality_inc e me)
              (match_load_to_stores s me (vv_inc (t_caus t0) me) (t_last_yield t0) o) = (e2, inl idx) ->
            match_load_to_stores s me (vv_inc (t_caus t0) me) (t_last_yield t0) o = Some l -> In idx l).
  { intros o e2 idx l H0 H1 H2. apply (Hrep s t0 _ e2 idx l Hat Hth H0 H1 H2).
    apply (candidates_nonempty _ _ _ _ _ _ H2 Hc1). }
  assert (HrepR : forall e2 idx l,
            micro_seed s me t0 m = Some (match_rmw_to_stores s) ->
            choose_store (causality_inc e me) (match_rmw_to_stores s) = (e2, inl idx) ->
            match_rmw_to_stores s = Some l -> In idx l).
  { intros e2 idx l H0 H1 H2. apply (Hrep s t0 _ e2 idx l Hat Hth H0 H1 H2).
    apply (rmw_candidates_nonempty _ _ H2 Hc1). }
  destruct m; cbn [acc_on] in Hacc; try contradiction; subst.
  - (* MLoadPost *)
    rewrite exec_micro_load_post in Hx.
    destruct (load_post e me a o) as [[e2 x]|[e2 p]] eqn:Hlp; [|discriminate].
    destruct (@load_post_is_step e me a o e2 x t0 s Hth Hat Hnn
                (fun e3 idx l H1 H2 => HrepL _ e3 idx l eq_refl H1 H2) Hlp) as (s1 & idx & H1 & H2).
    exists s1, (BOp (XLoad idx o)).
    assert (He : get_atomic e1 a = get_atomic e2 a /\ clocks e1 = clocks e2).
    { cbv zeta in Hx. destruct aw as [want|]; [destruct (N.eqb x want)|]; inversion Hx;
        rewrite ?ga_push_cont, ?clocks_push_cont, ga_log_op, clocks_log_op; split; reflexivity. }
    destruct He as [He1 He2]. rewrite He1, He2. repeat split; first [assumption | exact I].
  - (* MFuLoadPost *)
    rewrite exec_micro_fu_load_post in Hx.
    destruct (load_post e me a fo) as [[e2 x]|[e2 p]] eqn:Hlp; [|discriminate].
    destruct (@load_post_is_step e me a fo e2 x t0 s Hth Hat Hnn
                (fun e3 idx l H1 H2 => HrepL _ e3 idx l eq_refl H1 H2) Hlp) as (s1 & idx & H1 & H2).
    exists s1, (BOp (XLoad idx fo)). inversion Hx.
    rewrite ga_push_cont, clocks_push_cont. repeat split; first [assumption | exact I].
  - (* MStorePost *)
    destruct (@MStorePost_is_step e me a v o e1 t0 s Hth Hat Hroom Hrel0 Hx) as (s1 & H1 & H2).
    exists s1, (BStoreR (t_rel t0) v o). repeat split; first [assumption | exact I].
  - (* MRmwPost *)
    destruct (@MRmwPost_is_step e me a k so fo e1 t0 s Hth Hat Hroom Hrel0
                (fun e2 idx l H1 H2 => HrepR e2 idx l eq_refl H1 H2) Hnr Hx) as (s1 & idx & H1 & H2).
    exists s1, (BRmwR (t_rel t0) idx (rmw_fun k) so fo). repeat split; first [assumption | exact I].
  - (* MUnsyncLoad *)
    destruct (@MUnsyncLoad_is_step e me a e1 t0 s Hth Hat Hx) as (s1 & H1 & H2).
    exists s1, BUnsyncLoad. repeat split; first [assumption | exact I].
  - (* MWithMut *)
    destruct (@MWithMut_is_step e me a v e1 t0 s Hth Hat Hx) as (s1 & H1 & H2).
    exists s1, (BWithMut v). repeat split; first [assumption | exact I].
  - (* MBoLoad *)
    cbn [exec_micro] in Hx.
    destruct (load_post e me a Acquire) as [[e2 x]|[e2 p]] eqn:Hlp; [|discriminate].
    destruct (@load_post_is_step e me a Acquire e2 x t0 s Hth Hat Hnn
                (fun e3 idx l H1 H2 => HrepL _ e3 idx l eq_refl H1 H2) Hlp) as (s1 & idx & H1 & H2).
    exists s1, (BOp (XLoad idx Acquire)).
    assert (He : get_atomic e1 a = get_atomic e2 a /\ clocks e1 = clocks e2).
    { destruct (N.eqb x v); [|destruct first]; inversion Hx; split;
        first [apply ga_push_cont | apply clocks_push_cont]. }
    destruct He as [He1 He2]. rewrite He1, He2. repeat split; first [assumption | exact I].
  - (* MBsLoad *)
    cbn [exec_micro] in Hx.
    destruct (load_post e me a Acquire) as [[e2 x]|[e2 p]] eqn:Hlp; [|discriminate].
    destruct (@load_post_is_step e me a Acquire e2 x t0 s Hth Hat Hnn
                (fun e3 idx l H1 H2 => HrepL _ e3 idx l eq_refl H1 H2) Hlp) as (s1 & idx & H1 & H2).
    exists s1, (BOp (XLoad idx Acquire)).
    assert (He : get_atomic e1 a = get_atomic e2 a /\ clocks e1 = clocks e2).
    { destruct (N.eqb x v); inversion Hx; split;
        first [apply ga_push_cont | apply clocks_push_cont]. }
    destruct He as [He1 He2]. rewrite He1, He2. repeat split; first [assumption | exact I].
Qed.

(* ================================================================== *)
(* 7. The headline: executions from init_exec                           *)
(* ================================================================== *)

(* the hypotheses about the run: at every access micro-operation on a,
   executed in a state reachable from init_exec, SideOK holds *)
Definition RunOK (p : prog) (pa : path) (a : nat) : Prop :=
  forall e me t m rest,
    steps (init_exec p pa) e -> e_active e = Some me ->
    nth_error (e_threads e) me = Some t -> t_cont t = m :: rest -> acc_on a m ->
    SideOK a (upd_thread e me (fun t => th_set_cont t rest)) me m.

Lemma steps_goodAt_from : forall p pa a, RunOK p pa a ->
  forall e e', steps e e' -> steps (init_exec p pa) e -> clock_wf e -> track_ok e ->
  GoodAt a e -> GoodAt a e' /\ clock_wf e' /\ track_ok e' /\ coh a e e'.
Proof.
  intros p pa a Hok e e' H.
  induction H as [e|e me t m rest e1 e2 Hact Ht Hc Hx Hs IH]; intros Hreach Hcw Htr HG.
  - split; [exact HG|]. split; [exact Hcw|]. split; [exact Htr|apply coh_refl].
  - destruct (sched_step_good_coh a e me m rest e1 Hcw Htr Hx HG) as (HG1 & Hcw1 & Htr1 & Hcoh1).
    + intros s _ _ Hs0 HGs Ha.
      pose proof (Hok e me t m rest Hreach Hact Ht Hc Ha) as Hside.
      assert (Hth0 : get_thread (upd_thread e me (fun t => th_set_cont t rest)) me
                     = Some (th_set_cont t rest)).
      { rewrite get_thread_upd_thread_same. unfold get_thread. rewrite Ht. reflexivity. }
      destruct (acc_step_is_bstep a _ me m e1 s _ Ha Hth0 Hs0 HGs Hside Hx)
        as (s1 & b & Hb & Hme & Hs1 & Hstep).
      exists s1, b. split; [exact Hb|]. split; [exact Hme|]. split; [exact (proj1 Hside)|].
      split; assumption.
    + assert (Hreach1 : steps (init_exec p pa) e1).
      { eapply steps_trans; [exact Hreach|].
        eapply steps_step; [exact Hact|exact Ht|exact Hc|exact Hx|apply steps_refl]. }
      destruct (IH Hreach1 Hcw1 Htr1 HG1) as (HG2 & Hcw2 & Htr2 & Hcoh2).
      split; [exact HG2|]. split; [exact Hcw2|]. split; [exact Htr2|].
      exact (coh_trans a e e1 e2 Hcoh1 Hcoh2).
Qed.

Lemma run_good_coh : forall p pa a s0 e e',
  get_atomic (init_exec p pa) a = Some s0 -> RunOK p pa a ->
  steps (init_exec p pa) e -> steps e e' -> GoodAt a e' /\ coh a e e'.
Proof.
  intros p pa a s0 e e' Hs0 Hok Hr H.
  destruct (steps_goodAt_from p pa a Hok _ e Hr (steps_refl _) (init_clock_wf p pa)
              (init_exec_track_ok p pa) (init_goodAt p pa a s0 Hs0)) as (HG & Hcw & Htr & _).
  destruct (steps_goodAt_from p pa a Hok e e' H Hr Hcw Htr HG) as (HG' & _ & _ & Hcoh).
  split; assumption.
Qed.

(* HEADLINE: along every execution from init_exec, every declared atomic
   satisfies the machine's full invariant *)
Theorem run_goodAt : forall p pa a s0 e,
  get_atomic (init_exec p pa) a = Some s0 -> RunOK p pa a ->
  steps (init_exec p pa) e -> GoodAt a e.
Proof.
  intros p pa a s0 e Hs0 Hok H.
  exact (proj1 (run_good_coh p pa a s0 _ e Hs0 Hok (steps_refl _) H)).
Qed.

Theorem run_atomicity : forall p pa a s0 e s r sl sid,
  get_atomic (init_exec p pa) a = Some s0 -> RunOK p pa a -> steps (init_exec p pa) e ->
  get_atomic e a = Some s -> r < at_cnt s -> st_rmw_src (get_store s r) = Some (sl, sid) ->
  sl < at_cnt s /\ vv_lt (mo s sl) (mo s r) = true /\
  forall x, x < at_cnt s -> vv_lt (mo s sl) (mo s x) && vv_lt (mo s x) (mo s r) = false.
Proof.
  intros p pa a s0 e s r sl sid Hs0 Hok H Hs Hr Hsrc.
  apply (steps_atomicity a e s r sl sid (run_goodAt p pa a s0 e Hs0 Hok H) Hs Hr Hsrc).
Qed.

Theorem run_never_none : forall p pa a s0 e s,
  get_atomic (init_exec p pa) a = Some s0 -> RunOK p pa a -> steps (init_exec p pa) e ->
  get_atomic e a = Some s ->
  (forall t c ly o, match_load_to_stores s t c ly o <> None) /\ match_rmw_to_stores s <> None.
Proof.
  intros p pa a s0 e s Hs0 Hok H Hs.
  apply (steps_never_none a e s (run_goodAt p pa a s0 e Hs0 Hok H) Hs).
Qed.

(* the declared atomic stays where it is *)
Theorem run_atomic_exists : forall p pa a s0 e,
  get_atomic (init_exec p pa) a = Some s0 -> RunOK p pa a -> steps (init_exec p pa) e ->
  exists s, get_atomic e a = Some s.
Proof.
  intros p pa a s0 e Hs0 Hok H. destruct (run_goodAt p pa a s0 e Hs0 Hok H) as (s & Hs & _).
  exists s. exact Hs.
Qed.

(* ================================================================== *)
(* 8. Coherence over executions                                         *)
(* ================================================================== *)

(* an mo edge between live stores of a is never lost along an execution *)
Theorem steps_stable : forall p pa a s0 e e' s x y,
  get_atomic (init_exec p pa) a = Some s0 -> RunOK p pa a ->
  steps (init_exec p pa) e -> steps e e' ->
  get_atomic e a = Some s -> x < at_cnt s -> y < at_cnt s -> vv_lt (mo s x) (mo s y) = true ->
  exists s', get_atomic e' a = Some s' /\ x < at_cnt s' /\ y < at_cnt s' /\
             vv_lt (mo s' x) (mo s' y) = true.
Proof.
  intros p pa a s0 e e' s x y Hs0 Hok Hr H Hs Hx Hy Hlt.
  destruct (proj2 (run_good_coh p pa a s0 e e' Hs0 Hok Hr H) s Hs) as (s' & Hs' & A & B & _).
  exists s'. split; [exact Hs'|]. split; [apply A; exact Hx|]. split; [apply A; exact Hy|].
  apply B; assumption.
Qed.

(* what a thread's clock has seen, it sees for ever *)
Theorem steps_knows : forall p pa a s0 e e' s u i,
  get_atomic (init_exec p pa) a = Some s0 -> RunOK p pa a ->
  steps (init_exec p pa) e -> steps e e' ->
  get_atomic e a = Some s -> u < MAX_THREADS -> i < at_cnt s ->
  is_seen_by_current (st_seen (get_store s i)) (caus_of e u) = true ->
  exists s', get_atomic e' a = Some s' /\ i < at_cnt s' /\
             is_seen_by_current (st_seen (get_store s' i)) (caus_of e' u) = true.
Proof.
  intros p pa a s0 e e' s u i Hs0 Hok Hr H Hs Hu Hi Hk.
  destruct (proj2 (run_good_coh p pa a s0 e e' Hs0 Hok Hr H) s Hs) as (s' & Hs' & A & _ & C).
  exists s'. split; [exact Hs'|]. split; [apply A; exact Hi | apply C; assumption].
Qed.

(* CoRR / CoWR over executions: once thread t's clock has seen store j of a and
   i is mo-before j, store i is never again a candidate of a load (or an RMW) of
   t -- whatever last_yield and ordering, after any further steps of any threads *)
Theorem CoRR_CoWR_steps : forall p pa a s0 e e' s t i j,
  get_atomic (init_exec p pa) a = Some s0 -> RunOK p pa a ->
  steps (init_exec p pa) e -> steps e e' ->
  get_atomic e a = Some s -> t < MAX_THREADS -> i < at_cnt s -> j < at_cnt s ->
  vv_lt (mo s i) (mo s j) = true ->
  is_seen_by_current (st_seen (get_store s j)) (caus_of e t) = true ->
  exists s', get_atomic e' a = Some s' /\
    (forall ly o l, match_load_to_stores s' t (vv_inc (caus_of e' t) t) ly o = Some l -> ~ In i l) /\
    (forall l, match_rmw_to_stores s' = Some l -> ~ In i l).
Proof.
  intros p pa a s0 e e' s t i j Hs0 Hok Hr H Hs Ht Hi Hj Hlt Hk.
  destruct (run_good_coh p pa a s0 e e' Hs0 Hok Hr H) as [(s2 & Hs2 & HG2) Hcoh].
  destruct (Hcoh s Hs) as (s' & Hs' & A & B & C).
  exists s'. split; [exact Hs'|].
  pose proof (B i j Hi Hj Hlt) as Hlt'. pose proof (C t j Ht Hj Hk) as Hk'.
  pose proof (A j Hj) as Hj'.
  rewrite Hs' in Hs2. injection Hs2 as <-.
  assert (Hj7 : j < MAX_ATOMIC_HISTORY).
  { destruct HG2 as [[own [rk [HI _]]] _]. cbn [fst] in HI. pose proof (i_cnt7 HI). lia. }
  split.
  - intros ly o l Hm Hin.
    apply (coherence_write_read _ _ _ _ _ _ _ _ Hm Hj7 Hj' Hlt'); [|exact Hin].
    apply (seen_clock_mono _ _ _ (vle_inc (caus_of e' t) t) Hk').
  - intros l Hm Hin. apply (rmw_candidates_spec _ _ Hm i) in Hin. destruct Hin as (_ & _ & Hall).
    assert (Hne : j <> i) by (intros E; subst j; unfold mo in Hlt'; rewrite vv_lt_irrefl in Hlt'; discriminate).
    unfold mo in Hlt'. rewrite (Hall j Hj7 Hj' Hne) in Hlt'. discriminate.
Qed.

Print Assumptions exec_micro_akeep.
Print Assumptions growto_goodS.
Print Assumptions exec_growto.
Print Assumptions frame_step_goodS.
Print Assumptions access_step_padded.
Print Assumptions step_goodAt.
Print Assumptions steps_goodAt.
Print Assumptions steps_atomicity.
Print Assumptions steps_never_none.
Print Assumptions init_goodAt.
Print Assumptions load_post_is_step.
Print Assumptions acc_step_is_bstep.
Print Assumptions run_goodAt.
Print Assumptions run_atomicity.
Print Assumptions run_never_none.
Print Assumptions steps_stable.
Print Assumptions steps_knows.
Print Assumptions CoRR_CoWR_steps.
