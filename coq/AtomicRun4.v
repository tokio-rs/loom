(* AtomicRun4: a NON-VACUITY witness for the run theorems of AtomicRun /
   AtomicRun2 / AtomicRun3.

   1. A generic sound checker over a whole exploration: [explore_chk chk] runs
      every iteration (Check.run) and evaluates [chk] at every micro-operation
      it executes; [explore_chk_sound]: if it answers (true, true) then chk holds
      at every micro-operation of every state reachable (SyncMono.steps -- the
      executions are deterministic, so these are the states of the real run) in
      the iteration of every path of the exploration ([Explored]).
   2. [ring_chk a]: the ring of a has room at the accesses of a; hence
      [ring_checked_RunOK3], and with AtomicRun3.explore_rec [checked_RunOK2].
   3. For the concrete program AtomicRun3.p_sl (two threads, each a relaxed store
      and a relaxed load of atomic 0): [p_sl_all_good], [p_sl_atomicity],
      [p_sl_coherence] have NO hypothesis left except "pa is a path of the
      exploration" and "e is reachable in its iteration".  [p_sl_RunOK2] /
      [p_sl_RunOK]: the hypotheses of run_goodAt2 / run_goodAt hold for every
      such path, i.e. those theorems are not vacuous.
   5. The same for AtomicRun3.p_mp, which contains an RMW on atomic 0:
      [p_mp_all_good], [p_mp_atomicity], [p_mp_coherence]; [e_mp_rmw_store] /
      [p_mp_atomicity_instance]: a reachable state with a live RMW store, at
      which the atomicity statement is instantiated.
   4. [side_instance]: one concrete reachable access (thread 1's load in the
      first iteration) at which SideOK holds, with the replay clause
      instantiated on a non-empty candidate list. *)
From Coq Require Import List Arith Lia Bool NArith.
Import ListNotations.
From LV Require Import Base VV VVFacts Path PathSpec PathApi Prog Objects Exec Atomic Ops Check
  CheckFacts SyncFacts ExecFacts SyncMono NotifyFacts ClockFacts AtomicFacts AtomicCoherence
  AtomicCoRR AtomicClosure AtomicBridge AtomicRun AtomicRun2 AtomicRun3.

(* ================================================================== *)
(* 1. A generic checker                                                 *)
(* ================================================================== *)
Section Chk.
  Variable chk : exec -> nat -> micro -> bool.

  Fixpoint run_chk (fuel : nat) (e : exec) (ok : bool) : exec * iter_end * bool :=
    match fuel with
    | 0 => (e, IterFuel, ok)
    | S fuel' =>
        match e_active e with
        | None => (e, IterDone, ok)
        | Some me =>
            match nth_error (e_threads e) me with
            | None => (e, IterPanic (PanicModel 30), ok)
            | Some t =>
                match t_cont t with
                | [] => (e, IterPanic (PanicModel 31), ok)
                | m :: rest =>
                    let e1 := upd_thread e me (fun t => th_set_cont t rest) in
                    match exec_micro e1 me m with
                    | MOk e2 => run_chk fuel' e2 (ok && chk e1 me m)
                    | MFail e2 p => (e2, IterPanic p, ok && chk e1 me m)
                    end
                end
            end
        end
    end.

  Lemma run_chk_run : forall fuel e ok e' r ok',
    run_chk fuel e ok = (e', r, ok') -> run fuel e = (e', r).
  Proof.
    induction fuel as [|fuel IH]; intros e ok e' r ok' H; cbn [run_chk run] in *.
    - injection H as <- <- _. reflexivity.
    - destruct (e_active e) as [me|]; [|injection H as <- <- _; reflexivity].
      destruct (nth_error (e_threads e) me) as [t|]; [|injection H as <- <- _; reflexivity].
      destruct (t_cont t) as [|m rest]; [injection H as <- <- _; reflexivity|].
      cbv zeta in H. destruct (exec_micro _ me m) as [e2|e2 p].
      + eapply IH. exact H.
      + injection H as <- <- _. reflexivity.
  Qed.

  Lemma run_chk_ok_in : forall fuel e ok e' r,
    run_chk fuel e ok = (e', r, true) -> ok = true.
  Proof.
    induction fuel as [|fuel IH]; intros e ok e' r H; cbn [run_chk] in H.
    - injection H as _ _ ->. reflexivity.
    - destruct (e_active e) as [me|]; [|injection H as _ _ ->; reflexivity].
      destruct (nth_error (e_threads e) me) as [t|]; [|injection H as _ _ ->; reflexivity].
      destruct (t_cont t) as [|m rest]; [injection H as _ _ ->; reflexivity|].
      cbv zeta in H. destruct (exec_micro _ me m) as [e2|e2 p].
      + apply IH in H. apply andb_true_iff in H. tauto.
      + injection H as _ _ H. apply andb_true_iff in H. tauto.
  Qed.

  Theorem run_chk_sound : forall fuel e ok e' r,
    run_chk fuel e ok = (e', r, true) -> r <> IterFuel ->
    forall e1 me t m rest,
      steps e e1 -> e_active e1 = Some me -> nth_error (e_threads e1) me = Some t ->
      t_cont t = m :: rest ->
      chk (upd_thread e1 me (fun t => th_set_cont t rest)) me m = true.
  Proof.
    induction fuel as [|fuel IH]; intros e ok e' r H Hr e1 me t m rest Hs Hact Ht Hc;
      cbn [run_chk] in H.
    - injection H as _ <- _. contradiction.
    - destruct Hs as [e|e me0 t0 m0 rest0 e2 e3 Hact0 Ht0 Hc0 Hx0 Hs0].
      + rewrite Hact, Ht, Hc in H. cbv zeta in H.
        destruct (exec_micro _ me m) as [e2|e2 p].
        * apply run_chk_ok_in in H. apply andb_true_iff in H. tauto.
        * injection H as _ _ H. apply andb_true_iff in H. tauto.
      + rewrite Hact0, Ht0, Hc0 in H. cbv zeta in H. rewrite Hx0 in H.
        exact (IH _ _ _ _ H Hr e3 me t m rest Hs0 Hact Ht Hc).
  Qed.

  (* (verdict, finished) *)
  Fixpoint explore_chk (ifuel fuel : nat) (p : prog) (pa : path) (ok : bool) : bool * bool :=
    match ifuel with
    | 0 => (ok, false)
    | S ifuel' =>
        match run_chk fuel (init_exec p pa) ok with
        | (e, IterDone, ok') =>
            match step (e_path e) with
            | Some pa' => explore_chk ifuel' fuel p pa' ok'
            | None => (ok', true)
            end
        | (_, _, ok') => (ok', false)
        end
    end.

  Lemma explore_chk_ok_in : forall ifuel fuel p pa ok fin,
    explore_chk ifuel fuel p pa ok = (true, fin) -> ok = true.
  Proof.
    induction ifuel as [|ifuel IH]; intros fuel p pa ok fin H; cbn [explore_chk] in H.
    - injection H as -> _. reflexivity.
    - destruct (run_chk fuel (init_exec p pa) ok) as [[e r] ok1] eqn:Hr.
      assert (Hk : ok1 = true -> ok = true).
      { intros ->. exact (run_chk_ok_in _ _ _ _ _ Hr). }
      destruct r; try (injection H as -> _; auto).
      destruct (step (e_path e)) as [pa'|]; [|injection H as -> _; auto].
      apply Hk. exact (IH _ _ _ _ _ H).
  Qed.

  Theorem explore_chk_sound : forall ifuel fuel p pa0,
    explore_chk ifuel fuel p pa0 true = (true, true) ->
    forall pa, Explored fuel p pa0 pa ->
    forall e me t m rest,
      steps (init_exec p pa) e -> e_active e = Some me -> nth_error (e_threads e) me = Some t ->
      t_cont t = m :: rest ->
      chk (upd_thread e me (fun t => th_set_cont t rest)) me m = true.
  Proof.
    intros ifuel fuel p pa0 H pa Hex.
    assert (Hmain : exists k, explore_chk (S k) fuel p pa true = (true, true)).
    { induction Hex as [|pa e pa' Hex IH Hrun Hstep].
      - destruct ifuel as [|k]; [cbn in H; discriminate|]. exists k. exact H.
      - destruct IH as (k & He). cbn [explore_chk] in He.
        destruct (run_chk fuel (init_exec p pa) true) as [[e1 r1] ok2] eqn:Hr.
        pose proof (run_chk_run _ _ _ _ _ _ Hr) as Hrr. rewrite Hrun in Hrr.
        injection Hrr as <- <-. rewrite Hstep in He.
        pose proof (explore_chk_ok_in _ _ _ _ _ _ He) as ->.
        destruct k as [|k]; [cbn in He; discriminate|].
        exists k. exact He. }
    destruct Hmain as (k & He). cbn [explore_chk] in He.
    destruct (run_chk fuel (init_exec p pa) true) as [[e1 r1] ok2] eqn:Hr.
    assert (Hok2 : ok2 = true /\ r1 = IterDone).
    { destruct r1; try discriminate He.
      destruct (step (e_path e1)); [|injection He as ->; auto].
      split; [exact (explore_chk_ok_in _ _ _ _ _ _ He)|reflexivity]. }
    destruct Hok2 as [-> ->].
    intros e me t m rest Hs Hact Ht Hc.
    refine (run_chk_sound fuel (init_exec p pa) true e1 IterDone Hr _ e me t m rest Hs Hact Ht Hc).
    discriminate.
  Qed.
End Chk.

(* ================================================================== *)
(* 2. Ring room                                                         *)
(* ================================================================== *)
Definition acc_all_idx (m : micro) : option nat :=
  match m with
  | MLoadPost b _ _ | MFuLoadPost b _ _ _ _ | MStorePost b _ _ | MRmwPost b _ _ _
  | MUnsyncLoad b | MWithMut b _ | MBoLoad b _ _ _ _ _ | MBsLoad b _ _ _ _ _ _ => Some b
  | _ => None
  end.

Lemma acc_on_idx : forall a m, acc_on a m -> acc_all_idx m = Some a.
Proof. intros a m H. destruct m; cbn [acc_on] in H; try contradiction; subst; reflexivity. Qed.

Definition ring_chk (a : nat) (e1 : exec) (me : nat) (m : micro) : bool :=
  match acc_all_idx m with
  | Some b =>
      if Nat.eqb b a then
        match get_atomic e1 a with
        | Some s => Nat.ltb (at_cnt s) MAX_ATOMIC_HISTORY
        | None => true
        end
      else true
  | None => true
  end.

Theorem ring_checked_RunOK3 : forall a ifuel fuel p pa0 pa,
  explore_chk (ring_chk a) ifuel fuel p pa0 true = (true, true) ->
  Explored fuel p pa0 pa -> RunOK3 p pa a.
Proof.
  intros a ifuel fuel p pa0 pa H Hex e me t m rest s Hs Hact Ht Hc Ha Hg.
  pose proof (explore_chk_sound (ring_chk a) ifuel fuel p pa0 H pa Hex e me t m rest Hs Hact Ht Hc) as Hk.
  unfold ring_chk in Hk. rewrite (acc_on_idx a m Ha), Nat.eqb_refl in Hk.
  destruct (pop_cont_frame e me rest) as [_ Hg0]. rewrite Hg0, Hg in Hk.
  apply Nat.ltb_lt. exact Hk.
Qed.

Theorem checked_RunOK2 : forall a ifuel fuel p its n pa,
  explore_rec ifuel fuel p (initial_path (p_cfg p)) 0 0 true = (its, n, true, true) ->
  explore_chk (ring_chk a) ifuel fuel p (initial_path (p_cfg p)) true = (true, true) ->
  Explored fuel p (initial_path (p_cfg p)) pa -> RunOK2 p pa a.
Proof.
  intros a ifuel fuel p its n pa Hrec Hring Hex. apply RunOK3_RunOK2.
  - apply RecordedOK_ReplayOK.
    exact (proj1 (explore_rec_sound a ifuel fuel p _ 0 0 its n Hrec pa Hex)).
  - exact (ring_checked_RunOK3 a ifuel fuel p _ pa Hring Hex).
Qed.

(* ================================================================== *)
(* 3. p_sl: nothing left to assume                                      *)
(* ================================================================== *)
Lemma p_sl_ring_checked :
  explore_chk (ring_chk 0) 2000 2000 p_sl (initial_path cfgT) true = (true, true).
Proof. vm_compute. reflexivity. Qed.

Lemma p_sl_max_threads : max_threads (p_cfg p_sl) <= MAX_THREADS.
Proof. vm_compute. lia. Qed.

Lemma p_sl_atomic0 : forall pa, exists s0, get_atomic (init_exec p_sl pa) 0 = Some s0.
Proof. intros pa. eexists. reflexivity. Qed.

Theorem p_sl_RunOK2 : forall pa,
  Explored 2000 p_sl (initial_path cfgT) pa -> RunOK2 p_sl pa 0.
Proof.
  intros pa. exact (checked_RunOK2 0 2000 2000 p_sl 25 28 pa p_sl_checked p_sl_ring_checked).
Qed.

Theorem p_sl_RunOK : forall pa,
  Explored 2000 p_sl (initial_path cfgT) pa -> RunOK p_sl pa 0.
Proof. intros pa Hex. exact (RunOK2_RunOK p_sl pa 0 p_sl_max_threads (p_sl_RunOK2 pa Hex)). Qed.

(* every state of every iteration of the exploration of p_sl *)
Theorem p_sl_all_good : forall pa e,
  Explored 2000 p_sl (initial_path cfgT) pa -> steps (init_exec p_sl pa) e -> GoodAt 0 e.
Proof.
  intros pa e Hex Hs. pose proof (p_sl_atomic0 pa) as [s0 Hs0].
  exact (run_goodAt2 p_sl pa 0 s0 e p_sl_max_threads Hs0 (p_sl_RunOK2 pa Hex) Hs).
Qed.

Theorem p_sl_atomicity : forall pa e s r sl sid,
  Explored 2000 p_sl (initial_path cfgT) pa -> steps (init_exec p_sl pa) e ->
  get_atomic e 0 = Some s -> r < at_cnt s -> st_rmw_src (get_store s r) = Some (sl, sid) ->
  sl < at_cnt s /\ vv_lt (mo s sl) (mo s r) = true /\
  forall x, x < at_cnt s -> vv_lt (mo s sl) (mo s x) && vv_lt (mo s x) (mo s r) = false.
Proof.
  intros pa e s r sl sid Hex Hs. pose proof (p_sl_atomic0 pa) as [s0 Hs0].
  exact (run_atomicity2 p_sl pa 0 s0 e s r sl sid p_sl_max_threads Hs0 (p_sl_RunOK2 pa Hex) Hs).
Qed.

Theorem p_sl_coherence : forall pa e e' s t i j,
  Explored 2000 p_sl (initial_path cfgT) pa ->
  steps (init_exec p_sl pa) e -> steps e e' ->
  get_atomic e 0 = Some s -> t < MAX_THREADS -> i < at_cnt s -> j < at_cnt s ->
  vv_lt (mo s i) (mo s j) = true ->
  is_seen_by_current (st_seen (get_store s j)) (caus_of e t) = true ->
  exists s', get_atomic e' 0 = Some s' /\
    (forall ly o l, match_load_to_stores s' t (vv_inc (caus_of e' t) t) ly o = Some l -> ~ In i l) /\
    (forall l, match_rmw_to_stores s' = Some l -> ~ In i l).
Proof.
  intros pa e e' s t i j Hex. pose proof (p_sl_atomic0 pa) as [s0 Hs0].
  exact (CoRR_CoWR_steps2 p_sl pa 0 s0 e e' s t i j p_sl_max_threads Hs0 (p_sl_RunOK2 pa Hex)).
Qed.

(* the same for the begin path of every record of Builder::check *)
Theorem p_sl_check_all_good : forall ifuel recs fin ck r e,
  check ifuel 2000 p_sl = (recs, fin, ck) -> In r recs ->
  steps (init_exec p_sl (ir_begin r)) e -> GoodAt 0 e.
Proof.
  intros ifuel recs fin ck r e H Hin. apply p_sl_all_good.
  exact (check_records_Explored ifuel 2000 p_sl recs fin ck r H Hin).
Qed.

(* ================================================================== *)
(* 4. One concrete access                                               *)
(* ================================================================== *)
(* the state of the first iteration of p_sl after 17 micro-operations: thread 1
   is about to load atomic 0 (main has stored 1, thread 1 has stored 2) *)
Definition e17 : exec := fst (run 17 (init_exec p_sl (initial_path cfgT))).

Lemma run_fst_steps : forall fuel e r,
  snd (run fuel e) = r -> r = IterDone \/ r = IterFuel -> steps e (fst (run fuel e)).
Proof.
  intros fuel e r <- Hr.
  apply (run_steps fuel e _ (snd (run fuel e))); [apply surjective_pairing|exact Hr].
Qed.

Lemma e17_reachable : steps (init_exec p_sl (initial_path cfgT)) e17.
Proof. apply (run_fst_steps 17 _ IterFuel); [vm_compute; reflexivity|right; reflexivity]. Qed.

Definition t17 : thread :=
  match nth_error (e_threads e17) 1 with Some t => t | None => thread_new 0 [] end.
Definition rest17 : list micro := tl (t_cont t17).
Definition e17p : exec := upd_thread e17 1 (fun t => th_set_cont t rest17).

Lemma e17_active : e_active e17 = Some 1.
Proof. vm_compute. reflexivity. Qed.
Lemma e17_thread : nth_error (e_threads e17) 1 = Some t17.
Proof. vm_compute. reflexivity. Qed.
Lemma e17_cont : t_cont t17 = MLoadPost 0 Relaxed None :: rest17.
Proof. vm_compute. reflexivity. Qed.

Lemma e17_SideOK : SideOK 0 e17p 1 (MLoadPost 0 Relaxed None).
Proof.
  exact (p_sl_RunOK (initial_path cfgT) (Explored_first 2000 p_sl (initial_path cfgT))
           e17 1 t17 (MLoadPost 0 Relaxed None) rest17
           e17_reachable e17_active e17_thread e17_cont (eq_refl 0)).
Qed.

Lemma e17_concrete :
  exists s t0 l e2 idx,
    get_atomic e17p 0 = Some s /\ get_thread e17p 1 = Some t0 /\
    micro_seed s 1 t0 (MLoadPost 0 Relaxed None) = Some (Some l) /\
    2 <= length l /\
    choose_store (causality_inc e17p 1) (Some l) = (e2, inl idx) /\ In idx l /\
    at_cnt s = 3 /\ at_cnt s < MAX_ATOMIC_HISTORY.
Proof.
  do 5 eexists.
  split; [vm_compute; reflexivity|]. split; [vm_compute; reflexivity|].
  split; [vm_compute; reflexivity|]. split; [vm_compute; lia|].
  split; [vm_compute; reflexivity|]. split; [vm_compute; auto|].
  split; [vm_compute; reflexivity|vm_compute; lia].
Qed.

(* a reachable access at which SideOK holds and its clauses are not vacuous *)
Example side_instance :
  steps (init_exec p_sl (initial_path cfgT)) e17 /\
  e_active e17 = Some 1 /\ nth_error (e_threads e17) 1 = Some t17 /\
  t_cont t17 = MLoadPost 0 Relaxed None :: rest17 /\
  SideOK 0 e17p 1 (MLoadPost 0 Relaxed None) /\
  exists s t0 l e2 idx,
    get_atomic e17p 0 = Some s /\ get_thread e17p 1 = Some t0 /\
    micro_seed s 1 t0 (MLoadPost 0 Relaxed None) = Some (Some l) /\
    2 <= length l /\
    choose_store (causality_inc e17p 1) (Some l) = (e2, inl idx) /\ In idx l /\
    at_cnt s = 3 /\ at_cnt s < MAX_ATOMIC_HISTORY.
Proof.
  exact (conj e17_reachable (conj e17_active (conj e17_thread (conj e17_cont
           (conj e17_SideOK e17_concrete))))).
Qed.

(* ================================================================== *)
(* 5. p_mp: the same with an RMW                                        *)
(* ================================================================== *)
(* AtomicRun3.p_mp: main stores 1 to atomic 0 (relaxed), thread 1 does
   fetch_add(10, AcqRel) on atomic 0; both also load it.  Atomic 0 is the one
   the RMW acts on. *)
Lemma p_mp_ring_checked :
  explore_chk (ring_chk 0) 2000 2000 p_mp (initial_path cfgT) true = (true, true).
Proof. vm_compute. reflexivity. Qed.

Lemma p_mp_max_threads : max_threads (p_cfg p_mp) <= MAX_THREADS.
Proof. vm_compute. lia. Qed.

Lemma p_mp_atomic0 : forall pa, exists s0, get_atomic (init_exec p_mp pa) 0 = Some s0.
Proof. intros pa. eexists. reflexivity. Qed.

Theorem p_mp_RunOK2 : forall pa,
  Explored 2000 p_mp (initial_path cfgT) pa -> RunOK2 p_mp pa 0.
Proof.
  intros pa. exact (checked_RunOK2 0 2000 2000 p_mp 72 181 pa p_mp_checked p_mp_ring_checked).
Qed.

Theorem p_mp_RunOK : forall pa,
  Explored 2000 p_mp (initial_path cfgT) pa -> RunOK p_mp pa 0.
Proof. intros pa Hex. exact (RunOK2_RunOK p_mp pa 0 p_mp_max_threads (p_mp_RunOK2 pa Hex)). Qed.

Theorem p_mp_all_good : forall pa e,
  Explored 2000 p_mp (initial_path cfgT) pa -> steps (init_exec p_mp pa) e -> GoodAt 0 e.
Proof.
  intros pa e Hex Hs. pose proof (p_mp_atomic0 pa) as [s0 Hs0].
  exact (run_goodAt2 p_mp pa 0 s0 e p_mp_max_threads Hs0 (p_mp_RunOK2 pa Hex) Hs).
Qed.

Theorem p_mp_atomicity : forall pa e s r sl sid,
  Explored 2000 p_mp (initial_path cfgT) pa -> steps (init_exec p_mp pa) e ->
  get_atomic e 0 = Some s -> r < at_cnt s -> st_rmw_src (get_store s r) = Some (sl, sid) ->
  sl < at_cnt s /\ vv_lt (mo s sl) (mo s r) = true /\
  forall x, x < at_cnt s -> vv_lt (mo s sl) (mo s x) && vv_lt (mo s x) (mo s r) = false.
Proof.
  intros pa e s r sl sid Hex Hs. pose proof (p_mp_atomic0 pa) as [s0 Hs0].
  exact (run_atomicity2 p_mp pa 0 s0 e s r sl sid p_mp_max_threads Hs0 (p_mp_RunOK2 pa Hex) Hs).
Qed.

Theorem p_mp_coherence : forall pa e e' s t i j,
  Explored 2000 p_mp (initial_path cfgT) pa ->
  steps (init_exec p_mp pa) e -> steps e e' ->
  get_atomic e 0 = Some s -> t < MAX_THREADS -> i < at_cnt s -> j < at_cnt s ->
  vv_lt (mo s i) (mo s j) = true ->
  is_seen_by_current (st_seen (get_store s j)) (caus_of e t) = true ->
  exists s', get_atomic e' 0 = Some s' /\
    (forall ly o l, match_load_to_stores s' t (vv_inc (caus_of e' t) t) ly o = Some l -> ~ In i l) /\
    (forall l, match_rmw_to_stores s' = Some l -> ~ In i l).
Proof.
  intros pa e e' s t i j Hex. pose proof (p_mp_atomic0 pa) as [s0 Hs0].
  exact (CoRR_CoWR_steps2 p_mp pa 0 s0 e e' s t i j p_mp_max_threads Hs0 (p_mp_RunOK2 pa Hex)).
Qed.

(* the end state of the first iteration holds a live RMW store: slot 2 of atomic 0
   is the store half of the fetch_add, its source is slot 1 *)
Definition e_mp : exec := fst (run 2000 (init_exec p_mp (initial_path cfgT))).

Lemma e_mp_reachable : steps (init_exec p_mp (initial_path cfgT)) e_mp.
Proof. apply (run_fst_steps 2000 _ IterDone); [vm_compute; reflexivity|left; reflexivity]. Qed.

Lemma e_mp_rmw_store :
  exists s sid, get_atomic e_mp 0 = Some s /\ at_cnt s = 3 /\
                st_rmw_src (get_store s 2) = Some (1, sid).
Proof. do 2 eexists. split; [vm_compute; reflexivity|]. split; vm_compute; reflexivity. Qed.

(* so p_mp_atomicity has an instance: in a reachable state, a live RMW store
   sits directly after its source in the modification order *)
Example p_mp_atomicity_instance :
  exists s sid,
    steps (init_exec p_mp (initial_path cfgT)) e_mp /\
    get_atomic e_mp 0 = Some s /\ 2 < at_cnt s /\ st_rmw_src (get_store s 2) = Some (1, sid) /\
    1 < at_cnt s /\ vv_lt (mo s 1) (mo s 2) = true /\
    forall x, x < at_cnt s -> vv_lt (mo s 1) (mo s x) && vv_lt (mo s x) (mo s 2) = false.
Proof.
  destruct e_mp_rmw_store as (s & sid & Hs & Hc & Hsrc). exists s, sid.
  assert (H2 : 2 < at_cnt s) by lia.
  destruct (p_mp_atomicity _ e_mp s 2 1 sid (Explored_first 2000 p_mp _) e_mp_reachable Hs H2 Hsrc)
    as (A & B & C).
  auto 10 using e_mp_reachable.
Qed.

Print Assumptions explore_chk_sound.
Print Assumptions ring_checked_RunOK3.
Print Assumptions p_sl_ring_checked.
Print Assumptions p_sl_RunOK2.
Print Assumptions p_sl_RunOK.
Print Assumptions p_sl_all_good.
Print Assumptions p_sl_atomicity.
Print Assumptions p_sl_coherence.
Print Assumptions p_sl_check_all_good.
Print Assumptions side_instance.
Print Assumptions p_mp_ring_checked.
Print Assumptions p_mp_RunOK2.
Print Assumptions p_mp_RunOK.
Print Assumptions p_mp_all_good.
Print Assumptions p_mp_atomicity.
Print Assumptions p_mp_coherence.
Print Assumptions e_mp_rmw_store.
Print Assumptions p_mp_atomicity_instance.
