(* YieldFacts: yield scheduling (C18 "spin loops that yield make progress").

   ExecFacts (Part C) proves what schedule chooses GIVEN that it returns MOk.
   This file adds that it DOES return MOk when the path is traversed (not
   replaying), the DPOR loop succeeds and the path has room, and what the
   choice is in the two situations of a yielding thread.

   Contents
     1. the seed has at most one Active entry (seed_active_le1)
     2. branch_thread_succeeds: on a traversed path with room, a seed of at
        most MAX_THREADS entries with at most one Active entry and a path
        satisfying the preemption invariant c15_inv, branch_thread returns
        POk (_, seed_choice seed)
     3. schedule_succeeds: the corresponding statement for schedule
        (room = sched_room), schedule_total: every outcome of schedule under
        sched_room
     4. the seed when no thread is runnable (seed_no_runnable,
        seed_choice_no_runnable: the first Yielded thread is chosen)
     5. the state after rt::yield_now: yield_state, its threads
     6. C.1 yield_other_runnable, C.2 yield_alone_continues (and the general
        form yield_no_runnable_first_yielded), C.3 yield_others_reactivated,
        do_yield_* corollaries on exec_micro e me MYield

   DEVIATIONS from the requested statements: see the end of the file. *)
Require Import LV.Base LV.VV LV.VVFacts LV.Path LV.PathSpec LV.PathApi LV.Prog LV.Objects
               LV.Exec LV.Atomic LV.Ops LV.Check LV.SyncFacts LV.ExecFacts.
From Coq Require Import List Arith Lia Bool.
Import ListNotations.

(* ================================================================== *)
(* 1. The seed has at most one Active entry                            *)
(* ================================================================== *)

Lemma seed_class_inactive th : is_active (seed_class th) = false.
Proof.
  unfold seed_class. destruct (is_yield th); [reflexivity|].
  destruct (negb (is_runnable th)); reflexivity.
Qed.

Lemma seed_active_count l : forall k init,
  length (filter is_active (seed_loop (index_list_from k l) init)) <= 1 /\
  (forall j, init = Some j -> j < k ->
     filter is_active (seed_loop (index_list_from k l) init) = []).
Proof.
  induction l as [|h t IH]; intros k init; cbn [index_list_from seed_loop filter].
  - split; [cbn; lia|reflexivity].
  - fold (seed_class h).
    destruct init as [j|].
    + cbn [opt_nat_eqb]. destruct (IH (S k) (Some j)) as [IH1 IH2].
      destruct (Nat.eqb_spec j k) as [->|Hne].
      * change (is_active Active) with true. cbv iota.
        rewrite (IH2 k eq_refl (Nat.lt_succ_diag_r k)). split; [cbn; lia|].
        intros j Hj Hlt. injection Hj as <-. lia.
      * rewrite seed_class_inactive. split; [exact IH1|].
        intros j' Hj Hlt. injection Hj as <-. apply (IH2 j eq_refl). lia.
    + destruct (is_runnable h) eqn:Hr.
      * cbn [opt_nat_eqb]. rewrite Nat.eqb_refl. change (is_active Active) with true. cbv iota.
        destruct (IH (S k) (Some k)) as [_ IH2].
        rewrite (IH2 k eq_refl (Nat.lt_succ_diag_r k)). split; [cbn; lia|]. discriminate.
      * cbn [opt_nat_eqb]. rewrite seed_class_inactive.
        destruct (IH (S k) None) as [IH1 _]. split; [exact IH1|]. discriminate.
Qed.

Lemma seed_active_le1 l curr cur_th : length (filter is_active (sched_seed l curr cur_th)) <= 1.
Proof. unfold sched_seed, index_list. apply (proj1 (seed_active_count l 0 _)). Qed.

Lemma sched_seed_length l curr cur_th : length (sched_seed l curr cur_th) = length l.
Proof. unfold sched_seed, index_list. rewrite seed_loop_length. apply index_list_from_length. Qed.

(* ================================================================== *)
(* 2. branch_thread succeeds                                           *)
(* ================================================================== *)

Lemma get_sched_In b i s : get_sched b i = Some s -> In (ESched s) b.
Proof. intros H. apply get_sched_nth in H. eapply nth_error_In; exact H. Qed.

Lemma branch_thread_succeeds p seed :
  is_traversed p = true -> path_len_ok p = true ->
  length seed <= MAX_THREADS -> length (filter is_active seed) <= 1 -> c15_inv p ->
  exists p', branch_thread p seed = POk (p', seed_choice seed) /\
             is_traversed p' = true /\ length (branches p') = S (length (branches p)) /\
             cap p' = cap p /\ bound p' = bound p.
Proof.
  intros Htr Hlen Hseed Hact Hc15.
  assert (Hb : opt_le_bound (s_pre (pushed_sched p seed)) (bound p) = true).
  { unfold opt_le_bound. destruct (bound p) as [bd|] eqn:Hbd; [|reflexivity].
    apply Nat.leb_le. unfold pushed_sched. cbv zeta. cbn [s_pre].
    destruct (last_schedule p) as [i|]; [|lia].
    destruct (get_sched (branches p) i) as [ps|] eqn:Hps; [|lia].
    eapply preemptions_le_bound; [exact Hc15|exact Hbd|]. eapply get_sched_In; exact Hps. }
  pose proof (branch_thread_push p seed Htr Hlen Hseed Hact Hb) as H.
  rewrite (branch_thread_traversed _ _ _ _ Htr H) in H.
  eexists. split; [exact H|]. split; [apply traversed_push, Htr|].
  cbn [set_pos set_branches branches cap bound]. rewrite app_length, Nat.add_1_r. auto.
Qed.

(* ================================================================== *)
(* 3. schedule succeeds                                                *)
(* ================================================================== *)

(* "the path is traversed, the DPOR loop succeeds and the path has room" *)
Definition sched_room (e : exec) : Prop :=
  is_traversed (e_path e) = true /\
  (exists p1, dpor_loop (e_objects e) (index_list (e_threads e)) (e_path e) = POk p1) /\
  length (branches (e_path e)) < cap (e_path e) /\
  length (e_threads e) <= MAX_THREADS /\
  c15_inv (e_path e).

Lemma sched_room_prefix e curr cur_th :
  sched_room e -> e_active e = Some curr -> nth_error (e_threads e) curr = Some cur_th ->
  exists p1 p2,
    sched_prefix e curr cur_th p1 p2 (seed_choice (sched_seed (e_threads e) curr cur_th)).
Proof.
  intros (Htr & (p1 & Hd) & Hcap & Hmax & Hc15) Ha Hc.
  destruct (dpor_loop_shape _ _ _ _ Hd) as [Hpos Hlen].
  destruct (dpor_loop_ok _ _ _ _ Hd) as ((_ & Hcap1 & _) & _ & Hc1).
  destruct (branch_thread_succeeds p1 (sched_seed (e_threads e) curr cur_th)) as (p2 & Hb & _).
  - rewrite (dpor_loop_traversed _ _ _ _ Hd). exact Htr.
  - unfold path_len_ok. apply Nat.ltb_lt. rewrite Hlen, Hcap1. exact Hcap.
  - rewrite sched_seed_length. exact Hmax.
  - apply seed_active_le1.
  - auto.
  - exists p1, p2. unfold sched_prefix. auto.
Qed.

(* every outcome of schedule when there is room *)
Theorem schedule_total e curr cur_th :
  sched_room e -> e_active e = Some curr -> nth_error (e_threads e) curr = Some cur_th ->
  exists p1 p2,
    sched_prefix e curr cur_th p1 p2 (seed_choice (sched_seed (e_threads e) curr cur_th)) /\
    schedule e =
    sched_post (sched_base e p2 (seed_choice (sched_seed (e_threads e) curr cur_th))) curr (pos p1)
               (seed_choice (sched_seed (e_threads e) curr cur_th)).
Proof.
  intros Hroom Ha Hc. destruct (sched_room_prefix e curr cur_th Hroom Ha Hc) as (p1 & p2 & Hp).
  exists p1, p2. split; [exact Hp|]. destruct Hp as (_ & _ & Hd & Hb).
  rewrite schedule_unfold, Ha, Hc, Hd, Hb. reflexivity.
Qed.

(* if a thread can be chosen, schedule returns MOk and that thread is active *)
Theorem schedule_succeeds e curr cur_th nx :
  sched_room e -> e_active e = Some curr -> nth_error (e_threads e) curr = Some cur_th ->
  seed_choice (sched_seed (e_threads e) curr cur_th) = Some nx ->
  exists e2, schedule e = (MOk e2, negb (Nat.eqb curr nx)) /\ e_active e2 = Some nx.
Proof.
  intros Hroom Ha Hc Hch.
  destruct (schedule_total e curr cur_th Hroom Ha Hc) as (p1 & p2 & _ & Hs).
  rewrite Hch in Hs. rewrite Hs. unfold sched_post.
  destruct (seed_choice_sound _ _ _ _ Hc Hch) as (th & Hth & _).
  change (e_threads (sched_base e p2 (Some nx))) with (e_threads e). rewrite Hth.
  eexists. split; [reflexivity|]. cbn [e_active ex_set_threads]. rewrite sched_note_active. reflexivity.
Qed.

(* ================================================================== *)
(* 4. The seed when no thread is runnable                              *)
(* ================================================================== *)

Lemma pick_initial_no_runnable all l k init :
  Forall (fun t => is_runnable t = false) l ->
  pick_initial all (index_list_from k l) init = init.
Proof.
  intros H. revert k init. induction H as [|h t Hh Ht IH]; intros k init;
    cbn [index_list_from pick_initial]; [reflexivity|].
  rewrite Hh. cbn [negb]. apply IH.
Qed.

Lemma seed_no_runnable l curr cur_th :
  nth_error l curr = Some cur_th ->
  Forall (fun t => is_runnable t = false) l ->
  sched_seed l curr cur_th = map seed_class l.
Proof.
  intros Hc H. unfold sched_seed, sched_initial, index_list.
  rewrite (proj1 (Forall_forall _ _) H _ (nth_error_In _ _ Hc)).
  rewrite pick_initial_no_runnable by exact H.
  apply seed_loop_no_runnable. exact H.
Qed.

Lemma find_index_map_class l :
  Forall (fun t => is_runnable t = false) l ->
  find_index is_active (map seed_class l) = None /\
  find_index is_tyield (map seed_class l) = find_index is_yield l.
Proof.
  intros H. induction H as [|h t Hh Ht [IH1 IH2]]; cbn [map find_index]; [auto|].
  rewrite seed_class_inactive, IH1, IH2. cbn [option_map]. split; [reflexivity|].
  unfold seed_class. rewrite Hh. destruct (is_yield h); reflexivity.
Qed.

(* no runnable thread: the first Yielded thread (in index order) is chosen *)
Lemma seed_choice_no_runnable l curr cur_th :
  nth_error l curr = Some cur_th ->
  Forall (fun t => is_runnable t = false) l ->
  seed_choice (sched_seed l curr cur_th) = find_index is_yield l.
Proof.
  intros Hc H. rewrite (seed_no_runnable l curr cur_th Hc H). unfold seed_choice.
  destruct (find_index_map_class l H) as [-> ->]. reflexivity.
Qed.

Lemma find_index_le (A : Type) (f : A -> bool) l : forall n m y,
  find_index f l = Some n -> nth_error l m = Some y -> f y = true -> n <= m.
Proof.
  induction l as [|h t IH]; intros n m y Hf Hm Hy; [destruct m; discriminate|].
  cbn [find_index] in Hf. destruct (f h) eqn:Hh; [injection Hf as <-; lia|].
  destruct (find_index f t) as [n'|] eqn:Hf'; cbn [option_map] in Hf; [|discriminate].
  injection Hf as <-. destruct m as [|m]; cbn [nth_error] in Hm.
  - injection Hm as ->. congruence.
  - specialize (IH n' m y eq_refl Hm Hy). lia.
Qed.

(* ================================================================== *)
(* 5. The state after rt::yield_now                                    *)
(* ================================================================== *)

Definition yield_thread (me : nat) (t : thread) : thread := th_set_op (set_yield me t) None.
Definition yield_state (e : exec) (me : nat) : exec := upd_thread e me (yield_thread me).

Lemma do_yield_eq e me : do_yield e me = fst (schedule (yield_state e me)).
Proof. reflexivity. Qed.

Lemma exec_micro_yield e me : exec_micro e me MYield = fst (schedule (yield_state e me)).
Proof. reflexivity. Qed.

Lemma yield_state_me e me t :
  nth_error (e_threads e) me = Some t ->
  nth_error (e_threads (yield_state e me)) me = Some (yield_thread me t).
Proof.
  intros Ht. change (get_thread (yield_state e me) me = Some (yield_thread me t)).
  unfold yield_state. rewrite get_thread_upd_thread_same. unfold get_thread. rewrite Ht. reflexivity.
Qed.

Lemma yield_state_other e me i :
  i <> me -> nth_error (e_threads (yield_state e me)) i = nth_error (e_threads e) i.
Proof.
  intros Hne. change (get_thread (yield_state e me) i = get_thread e i).
  unfold yield_state. apply get_thread_upd_thread_other. auto.
Qed.

Lemma yield_thread_state me t :
  is_yield (yield_thread me t) = true /\ is_runnable (yield_thread me t) = false /\
  t_op (yield_thread me t) = None.
Proof. repeat split. Qed.

Lemma yield_state_length e me : length (e_threads (yield_state e me)) = length (e_threads e).
Proof. apply length_threads_upd_thread. Qed.

(* the side conditions, on the state the thread yields in.  The DPOR loop
   runs on the thread table AFTER set_yield: the yielding thread has no
   pending operation any more (t_op = None), the other threads are unchanged *)
Definition yield_room (e : exec) (me : nat) : Prop :=
  is_traversed (e_path e) = true /\
  (exists p1, dpor_loop (e_objects e) (index_list (e_threads (yield_state e me))) (e_path e) = POk p1) /\
  length (branches (e_path e)) < cap (e_path e) /\
  length (e_threads e) <= MAX_THREADS /\
  c15_inv (e_path e).

Lemma yield_room_sched e me : yield_room e me -> sched_room (yield_state e me).
Proof.
  intros (H1 & H2 & H3 & H4 & H5). unfold sched_room.
  change (e_path (yield_state e me)) with (e_path e).
  change (e_objects (yield_state e me)) with (e_objects e).
  rewrite yield_state_length. auto.
Qed.

(* ================================================================== *)
(* 6. The three statements                                             *)
(* ================================================================== *)

(* C.1: another thread can run: schedule succeeds and chooses a thread that
   was Runnable, hence not the yielding one *)
Theorem yield_other_runnable e me t i th :
  e_active e = Some me -> nth_error (e_threads e) me = Some t -> yield_room e me ->
  i <> me -> nth_error (e_threads e) i = Some th -> is_runnable th = true ->
  exists e2 nx thx,
    schedule (yield_state e me) = (MOk e2, true) /\
    e_active e2 = Some nx /\ nx <> me /\
    nth_error (e_threads e) nx = Some thx /\ is_runnable thx = true.
Proof.
  intros Ha Ht Hroom Hne Hi Hr.
  pose proof (yield_state_me e me t Ht) as Hme.
  assert (Hex : exists x, In x (e_threads (yield_state e me)) /\ is_runnable x = true).
  { exists th. split; [|exact Hr]. eapply nth_error_In. rewrite yield_state_other by exact Hne. exact Hi. }
  destruct (yielder_not_first _ _ _ Hme Hex) as (j & thj & _ & Hj & Hrj & _ & _ & _ & Hch).
  assert (Hjm : j <> me).
  { intros ->. rewrite Hme in Hj. injection Hj as <-. discriminate Hrj. }
  destruct (schedule_succeeds (yield_state e me) me _ j (yield_room_sched e me Hroom) Ha Hme Hch)
    as (e2 & Hs & Hact).
  exists e2, j, thj. rewrite Hs.
  replace (Nat.eqb me j) with false by (symmetry; apply Nat.eqb_neq; auto).
  split; [reflexivity|]. split; [exact Hact|]. split; [exact Hjm|].
  rewrite yield_state_other in Hj by exact Hjm. auto.
Qed.

(* C.2, general form: no other thread is Runnable: schedule succeeds and
   chooses the first Yielded thread in index order *)
Theorem yield_no_runnable_first_yielded e me t :
  e_active e = Some me -> nth_error (e_threads e) me = Some t -> yield_room e me ->
  (forall i th, i <> me -> nth_error (e_threads e) i = Some th -> is_runnable th = false) ->
  exists e2 nx,
    find_index is_yield (e_threads (yield_state e me)) = Some nx /\
    schedule (yield_state e me) = (MOk e2, negb (Nat.eqb me nx)) /\
    e_active e2 = Some nx /\ nx <= me.
Proof.
  intros Ha Ht Hroom Hnr.
  pose proof (yield_state_me e me t Ht) as Hme.
  assert (Hall : Forall (fun x => is_runnable x = false) (e_threads (yield_state e me))).
  { rewrite Forall_forall. intros x Hx. destruct (In_nth_error _ _ Hx) as (i & Hi).
    destruct (Nat.eq_dec i me) as [->|Hne].
    - rewrite Hme in Hi. injection Hi as <-. reflexivity.
    - rewrite yield_state_other in Hi by exact Hne. eapply Hnr; eassumption. }
  pose proof (seed_choice_no_runnable _ _ _ Hme Hall) as Hch.
  destruct (find_index is_yield (e_threads (yield_state e me))) as [nx|] eqn:Hfi.
  - destruct (schedule_succeeds (yield_state e me) me _ nx (yield_room_sched e me Hroom) Ha Hme Hch)
      as (e2 & Hs & Hact).
    exists e2, nx. split; [reflexivity|]. split; [exact Hs|]. split; [exact Hact|].
    (* the first yielded thread is at or before me *)
    exact (find_index_le _ is_yield _ nx me _ Hfi Hme eq_refl).
  - discriminate (find_index_None _ _ _ _ _ Hfi Hme).
Qed.

(* C.2: all other threads are blocked or terminated (none runnable, none
   yielded): the yielding thread continues; no false deadlock *)
Theorem yield_alone_continues e me t :
  e_active e = Some me -> nth_error (e_threads e) me = Some t -> yield_room e me ->
  (forall i th, i <> me -> nth_error (e_threads e) i = Some th ->
                is_runnable th = false /\ is_yield th = false) ->
  exists e2,
    schedule (yield_state e me) = (MOk e2, false) /\ e_active e2 = Some me /\
    exists t2, nth_error (e_threads e2) me = Some t2 /\ t_state t2 = Yielded /\ t_cont t2 = t_cont t.
Proof.
  intros Ha Ht Hroom Hoth.
  pose proof (yield_state_me e me t Ht) as Hme.
  destruct (yield_no_runnable_first_yielded e me t Ha Ht Hroom) as (e2 & nx & Hfi & Hs & Hact & _).
  { intros i th Hne Hi. exact (proj1 (Hoth i th Hne Hi)). }
  assert (Hnx : nx = me).
  { destruct (find_index_Some _ _ _ _ Hfi) as (x & Hx & Hyx).
    destruct (Nat.eq_dec nx me) as [Heq|Hne]; [exact Heq|].
    rewrite yield_state_other in Hx by exact Hne.
    rewrite (proj2 (Hoth nx x Hne Hx)) in Hyx. discriminate Hyx. }
  subst nx. rewrite Nat.eqb_refl in Hs. exists e2. split; [exact Hs|]. split; [exact Hact|].
  assert (Hs' : fst (schedule (yield_state e me)) = MOk e2) by (rewrite Hs; reflexivity).
  destruct (schedule_ok_inv _ _ Hs') as (curr & cur_th & p1 & p2 & next & _ & Hnext & _ & Hn).
  rewrite Hact in Hnext. subst next. destruct Hn as (nth_ & Hnth & Hth2).
  rewrite Hth2, nth_error_reactivate.
  assert (Hsn : exists t2, nth_error (e_threads (sched_note (sched_base (yield_state e me) p2 (Some me))
                                                   me (pos p1) nth_)) me = Some t2 /\
                           t_state t2 = Yielded /\ t_cont t2 = t_cont t).
  { rewrite Hme in Hnth. injection Hnth as <-. unfold sched_note.
    cbn [yield_thread t_op th_set_op]. eexists. split; [exact Hme|]. split; reflexivity. }
  destruct Hsn as (t2 & -> & Hst & Hct). cbn [option_map]. rewrite Nat.eqb_refl.
  cbn [negb]. rewrite andb_false_r. eauto.
Qed.

(* C.3: after any successful schedule that picks nx, every OTHER thread that
   was Yielded is Runnable again: it is eligible at the next scheduling point *)
Theorem yield_others_reactivated e e2 nx i th :
  fst (schedule e) = MOk e2 -> e_active e2 = Some nx ->
  i <> nx -> nth_error (e_threads e) i = Some th -> is_yield th = true ->
  exists th2, nth_error (e_threads e2) i = Some th2 /\ is_runnable th2 = true /\
              t_cont th2 = t_cont th /\ t_op th2 = t_op th.
Proof.
  intros Hs Hact Hne Hth Hy.
  destruct (yield_reactivated e e2 i th Hs Hth Hy) as [H _]; [congruence|].
  exists (set_runnable th). split; [exact H|]. repeat split.
Qed.

(* and no thread is left Yielded except possibly the chosen one *)
Theorem schedule_only_active_yielded e e2 nx i th2 :
  fst (schedule e) = MOk e2 -> e_active e2 = Some nx ->
  nth_error (e_threads e2) i = Some th2 -> is_yield th2 = true -> i = nx.
Proof.
  intros Hs Hact Hth2 Hy.
  destruct (schedule_ok_inv _ _ Hs) as (curr & cur_th & p1 & p2 & next & _ & Hnext & _ & Hn).
  rewrite Hact in Hnext. subst next. destruct Hn as (nth_ & _ & Hth).
  rewrite Hth, nth_error_reactivate in Hth2.
  destruct (nth_error _ i) as [x|]; cbn [option_map] in Hth2; [|discriminate].
  destruct (Nat.eqb_spec i nx) as [Heq|Hne]; [exact Heq|]. cbn [negb] in Hth2.
  rewrite andb_true_r in Hth2. destruct (is_yield x) eqn:Hx; injection Hth2 as <-.
  - discriminate Hy.
  - congruence.
Qed.

(* ---- the same on the micro-operation MYield ---- *)
Corollary do_yield_other_runnable e me t i th :
  e_active e = Some me -> nth_error (e_threads e) me = Some t -> yield_room e me ->
  i <> me -> nth_error (e_threads e) i = Some th -> is_runnable th = true ->
  exists e2 nx thx,
    exec_micro e me MYield = MOk e2 /\ e_active e2 = Some nx /\ nx <> me /\
    nth_error (e_threads e) nx = Some thx /\ is_runnable thx = true /\
    (* the yielding thread is Runnable again after the switch *)
    exists t2, nth_error (e_threads e2) me = Some t2 /\ is_runnable t2 = true.
Proof.
  intros Ha Ht Hroom Hne Hi Hr.
  destruct (yield_other_runnable e me t i th Ha Ht Hroom Hne Hi Hr)
    as (e2 & nx & thx & Hs & Hact & Hnx & Hthx & Hrx).
  exists e2, nx, thx. rewrite exec_micro_yield, Hs. cbn [fst].
  split; [reflexivity|]. split; [exact Hact|]. split; [exact Hnx|]. split; [exact Hthx|].
  split; [exact Hrx|].
  assert (Hs' : fst (schedule (yield_state e me)) = MOk e2) by (rewrite Hs; reflexivity).
  destruct (yield_others_reactivated _ e2 nx me _ Hs' Hact (not_eq_sym Hnx)
              (yield_state_me e me t Ht) eq_refl) as (t2 & H1 & H2 & _).
  eauto.
Qed.

Corollary do_yield_alone_continues e me t :
  e_active e = Some me -> nth_error (e_threads e) me = Some t -> yield_room e me ->
  (forall i th, i <> me -> nth_error (e_threads e) i = Some th ->
                is_runnable th = false /\ is_yield th = false) ->
  exists e2, exec_micro e me MYield = MOk e2 /\ e_active e2 = Some me.
Proof.
  intros Ha Ht Hroom Hoth.
  destruct (yield_alone_continues e me t Ha Ht Hroom Hoth) as (e2 & Hs & Hact & _).
  exists e2. rewrite exec_micro_yield, Hs. auto.
Qed.

Print Assumptions seed_active_le1.
Print Assumptions branch_thread_succeeds.
Print Assumptions schedule_total.
Print Assumptions schedule_succeeds.
Print Assumptions seed_choice_no_runnable.
Print Assumptions yield_other_runnable.
Print Assumptions yield_no_runnable_first_yielded.
Print Assumptions yield_alone_continues.
Print Assumptions yield_others_reactivated.
Print Assumptions schedule_only_active_yielded.
Print Assumptions do_yield_other_runnable.
Print Assumptions do_yield_alone_continues.

(* DEVIATIONS from the requested statements

   Y1  Side conditions (yield_room e me), on the state e in which the thread
       calls yield_now, with e' = yield_state e me =
       upd_thread e me (fun t => th_set_op (set_yield me t) None):
         - is_traversed (e_path e) = true;
         - the DPOR loop succeeds ON e' (the yielding thread has t_op = None
           there, so it does not take part; objects and path are those of e);
         - length (branches (e_path e)) < cap (e_path e)   ("room");
         - length (e_threads e) <= MAX_THREADS: branch_thread asserts it
           (PInternal 6) -- Execution::new_thread checks max_threads, which
           is at most MAX_THREADS in loom;
         - c15_inv (e_path e), the preemption invariant of PathApi:
           branch_thread asserts (PInternal 8) that the preemption count
           inherited from the previous Schedule entry is within the bound.
           It is trivial without a preemption bound and holds along the
           model's runs (ExecFacts.iteration_path_ok, PathApi.step_c15);
         - nth_error (e_threads e) me = Some t  (the active thread exists).
       The seed handed to branch_thread has at most one Active entry
       (seed_active_le1), so its PInternal 7 assertion never fires.
       schedule_total / schedule_succeeds are the general statements (any
       state with sched_room): schedule computes
       sched_post ... (seed_choice seed) and returns MOk whenever some thread
       is Runnable or Yielded.
   Y2  C.1 (yield_other_runnable) as requested; it also gives the returned
       flag (true: a switch).  do_yield_other_runnable adds that the yielding
       thread is Runnable again in e2.
   Y3  C.2 (yield_alone_continues) as requested ("all others blocked or
       terminated, none yielded"); the returned flag is false.  Note that the
       thread STAYS in state Yielded in e2: the final loop of schedule resets
       only the OTHER yielded threads (execution.rs: `th.is_yield() && Some(id)
       != next`), so at its next scheduling point it is still classified
       TYield and any thread that became runnable meanwhile goes first.
       The general form yield_no_runnable_first_yielded drops "none yielded":
       with no Runnable thread the FIRST Yielded thread in index order is
       chosen (nx <= me), which is another yielded thread if one with a
       smaller index exists.
   Y4  C.3 (yield_others_reactivated) needs no side condition at all (it is
       ExecFacts.yield_reactivated in the requested shape, plus: the
       continuation and the pending operation are untouched);
       schedule_only_active_yielded is the converse: after a successful
       schedule no thread other than the chosen one is Yielded. *)
