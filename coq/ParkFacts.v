(* ParkFacts: thread::park / Thread::unpark (rt::park, Thread::set_unparked,
   Set::unpark) after loom fix 91a3e2b: the park token is the separate thread
   field [t_token]; "parked" is [is_parked t] = Blocked with no pending
   operation.

   Contents
     0. tinv b Q e: "thread b exists and satisfies Q", a generic per-thread
        invariant; framing lemmas in continuation style for every helper of
        Ops.v and for schedule (the updates of the bare thread list:
        NotifyFacts.thr_at_*_k); exec_micro_tinv: ONE proof for all
        micro-operations ([destruct m; ti_tac], same structure as
        NotifyFacts.exec_micro_bw), parameterised by
          - who executes: [me <> b] or Q only looks at the token (self_ok),
          - m = MPark only by another thread,
          - the unpark targets of m (MUnpark, MCvNotify) do not contain b, or Q
            is kept by set_unparked (wake_ok).
     1. A.1 token_persists (+ _fail), tsteps, tsteps_invariant,
        tsteps_token_persists
     2. A.2 unpark_effect, set_unparked_cases, threads_unpark_exact,
        threads_unpark_effect (Set::unpark itself: reused by CondvarFacts)
     3. A.3 park_effect_token, park_effect_block, park_blocks
     4. A.4 no_lost_unpark; the safety half parked_stays_parked (all
        micro-operations: exec_micro_parked; sequences: parked_until_unpark),
        unpark_targets_spec, unpark_needed (converse reading), park_until_unpark
     5. concrete runs (vm_compute): park_then_unpark_run, unpark_then_park_run

   DEVIATIONS from the requested statements: see the end of the file. *)
Require Import LV.Base LV.VV LV.VVFacts LV.Path LV.PathSpec LV.PathApi LV.Prog LV.Objects
               LV.Exec LV.Atomic LV.Ops LV.Check LV.SyncFacts LV.ExecFacts LV.SyncMono
               LV.NotifyFacts.
From Coq Require Import List Arith Lia Bool.
Import ListNotations.

(* ================================================================== *)
(* 0. A generic per-thread invariant                                   *)
(* ================================================================== *)

(* the threads that micro-operation m unparks (Set::unpark) in state e *)
Definition unpark_targets (e : exec) (m : micro) : list nat :=
  match m with
  | MUnpark bd => match body_tid e bd with Some tid => [tid] | None => [] end
  | MCvNotify c all =>
      match nth_error (e_objects e) c with
      | Some (OCondvar s) => if all then cv_waiters s else firstn 1 (cv_waiters s)
      | _ => []
      end
  | _ => []
  end.

Lemma pend_act obj a t : pending_on_act obj a t = true -> pending_on obj t = true.
Proof.
  unfold pending_on_act, pending_on. destruct (t_op t); [|discriminate].
  intros H. apply andb_true_iff in H. tauto.
Qed.

Lemma pend_and obj t x : pending_on obj t && x = true -> pending_on obj t = true.
Proof. intros H. apply andb_true_iff in H. tauto. Qed.

Section TInv.
Variable b : nat.
Variable Q : thread -> Prop.

(* NotifyFacts.thr_at b Q: the lemmas on the updates of the thread list are there *)
Definition tinv (e : exec) : Prop := exists t, nth_error (e_threads e) b = Some t /\ Q t.

(* Q only looks at the park token *)
Definition self_ok : Prop := forall t t', t_token t' = t_token t -> Q t -> Q t'.
(* Q survives an unpark *)
Definition wake_ok : Prop := self_ok /\ qpres Q set_unparked.

(* what the scheduler and the wake-ups / blockings aimed at the threads with a
   pending operation on an object do *)
Hypothesis Q_dpor : forall v, qpres Q (fun t => th_set_dpor t v).
Hypothesis Q_react : forall t, Q t -> is_yield t = true -> Q (set_runnable t).
Hypothesis Q_wake : forall m t, Q t -> pending_on m t = true -> Q (set_runnable t).
Hypothesis Q_block : forall m t, Q t -> pending_on m t = true -> Q (set_blocked t).
Hypothesis Q_notified : forall m c t, Q t -> pending_on m t = true -> Q (thread_notified t c).

Lemma qpres_thread_unpark c : wake_ok -> qpres Q (fun t => thread_unpark t c).
Proof.
  intros [Hs Hu] t Hq. unfold thread_unpark. apply Hu. eapply Hs; [|exact Hq]. reflexivity.
Qed.

Lemma tinv_threads_unpark_k e me id : wake_ok \/ id <> b -> tinv e -> tinv (threads_unpark e me id).
Proof.
  intros Hw H. unfold threads_unpark. destruct (Nat.eqb id me) eqn:E.
  - apply Nat.eqb_eq in E. subst id. apply thr_at_upd_thread_k; [|exact H].
    destruct Hw as [[_ Hu]|Hne]; [right; exact Hu|left; exact Hne].
  - apply thr_at_upd_thread_k; [|exact H].
    destruct Hw as [Hw|Hne]; [right; apply qpres_thread_unpark, Hw|left; exact Hne].
Qed.

Lemma tinv_fold_unpark_k me l : wake_ok \/ ~ In b l -> forall e,
  tinv e -> tinv (fold_left (fun e t => threads_unpark e me t) l e).
Proof.
  intros Hw. induction l as [|x l IH]; intros e H; cbn [fold_left]; [exact H|].
  apply IH.
  - destruct Hw as [Hw|Hn]; [left; exact Hw|right]. intros Hi. apply Hn. right. exact Hi.
  - apply tinv_threads_unpark_k; [|exact H].
    destruct Hw as [Hw|Hn]; [left; exact Hw|right]. intros ->. apply Hn. left. reflexivity.
Qed.

Lemma schedule_tinv e : tinv e -> tinv (res_exec (fst (schedule e))).
Proof. exact (schedule_thr_at b Q e Q_dpor Q_react). Qed.

(* an update of the executing thread that leaves the token alone *)
Ltac tok_eq :=
  cbv beta;
  repeat match goal with
         | |- context [match ?x with _ => _ end] => destruct x
         end;
  reflexivity.

Ltac own Hme :=
  let Hne := fresh "Hne" in
  let Hs := fresh "Hs" in
  let t := fresh "t" in
  let Ht := fresh "Ht" in
  destruct Hme as [Hne|Hs];
  [left; exact Hne
  |right; intros t Ht; eapply Hs; [|exact Ht]; tok_eq].

(* park: only by another thread *)
Lemma do_park_tinv e me : me <> b -> tinv e -> tinv (res_exec (do_park e me)).
Proof.
  intros Hmb H. unfold do_park. destruct (get_thread e me) as [t|]; [|exact H].
  destruct (t_token t); cbn [res_exec].
  - apply thr_at_upd_thread_k; [left; exact Hmb|exact H].
  - apply schedule_tinv. apply thr_at_upd_thread_k; [left; exact Hmb|exact H].
Qed.

Lemma release_lock_tinv e me m : tinv e -> tinv (release_lock e me m).
Proof.
  intros H. unfold release_lock. destruct (get_mutex e m) as [s|]; [|exact H].
  cbv zeta. rewrite e_active_upd_object. destruct (e_active e); [|exact H].
  apply thr_at_map_others_k; [intros t Hq Hp; eapply Q_wake; eassumption|].
  exact H.
Qed.

Lemma tinv_set_caus_k e me v : me <> b \/ self_ok -> tinv e -> tinv (set_caus e me v).
Proof. intros Hme. apply thr_at_upd_thread_k. own Hme. Qed.

Lemma post_acquire_tinv e me m : me <> b \/ self_ok -> tinv e -> tinv (fst (post_acquire e me m)).
Proof.
  intros Hme H. unfold post_acquire. destruct (get_mutex e m) as [s|]; [|exact H].
  destruct (is_some (mx_lock s)); cbn [fst]; [exact H|].
  apply thr_at_map_others_k; [intros t Hq Hp; eapply Q_block; [exact Hq|eapply pend_and; exact Hp]|].
  apply tinv_set_caus_k; [exact Hme|]. exact H.
Qed.

Lemma post_acquire_read_tinv e me r :
  me <> b \/ self_ok -> tinv e -> tinv (fst (post_acquire_read e me r)).
Proof.
  intros Hme H. unfold post_acquire_read. destruct (get_rw e r) as [s|]; [|exact H].
  destruct (rw_lock s) as [[rs|x]|]; cbn [fst]; try exact H.
  all: apply thr_at_map_others_k;
    [intros t Hq Hp; eapply Q_block; [exact Hq|eapply pend_act; exact Hp]|];
    apply tinv_set_caus_k; [exact Hme|]; exact H.
Qed.

Lemma post_acquire_write_tinv e me r :
  me <> b \/ self_ok -> tinv e -> tinv (fst (post_acquire_write e me r)).
Proof.
  intros Hme H. unfold post_acquire_write. destruct (get_rw e r) as [s|]; [|exact H].
  destruct (rw_lock s) as [lk|]; cbn [fst]; try exact H.
  apply thr_at_map_others_k;
    [intros t Hq Hp; eapply Q_block; [exact Hq|]|].
  - apply andb_true_iff in Hp. destruct Hp as [Hp _]. eapply pend_and; exact Hp.
  - apply tinv_set_caus_k; [exact Hme|]; exact H.
Qed.

Lemma release_read_tinv e me r : tinv e -> tinv (res_exec (release_read e me r)).
Proof.
  intros H. unfold release_read. destruct (get_rw e r) as [s|]; [|exact H].
  cbv zeta. destruct (rw_lock s) as [[rs|x]|]; cbn [res_exec]; try exact H.
  destruct (set_remove me rs); cbn [res_exec]; [|exact H].
  apply thr_at_map_others_k; [intros t Hq Hp; eapply Q_wake; eassumption|]. exact H.
Qed.

Lemma release_write_tinv e me r : tinv e -> tinv (res_exec (release_write e me r)).
Proof.
  intros H. unfold release_write. destruct (get_rw e r) as [s|]; [|exact H].
  cbn [res_exec].
  apply thr_at_map_others_k; [intros t Hq Hp; eapply Q_wake; eassumption|]. exact H.
Qed.

Lemma choose_store_tinv e seed : tinv e -> tinv (fst (choose_store e seed)).
Proof. destruct (choose_store_frame e seed) as (H1 & _). apply thr_at_same_k. exact H1. Qed.

Ltac mo_side :=
  let t := fresh "t" in
  let Hq := fresh "Hq" in
  let Hp := fresh "Hp" in
  intros t Hq Hp;
  first [ eapply Q_wake; [exact Hq|exact Hp]
        | eapply Q_notified; [exact Hq|exact Hp]
        | eapply Q_block; [exact Hq|first [exact Hp|eapply pend_act; exact Hp|eapply pend_and; exact Hp]] ].

Ltac tclose_step Hme :=
  match goal with
  | |- thr_at b Q ?x => change (tinv x)  | H : tinv ?x |- tinv ?x => exact H
  | H : tinv _ -> tinv ?x |- tinv ?x => apply H
  | |- tinv (log_op _ _ _) => apply thr_at_log_op_k
  | |- tinv (log_poll _ _) => apply thr_at_log_poll_k
  | |- tinv (release_lock _ _ _) => apply release_lock_tinv
  | |- tinv (map_others _ _ _ _) => apply thr_at_map_others_k; [mo_side|]
  | |- tinv (ex_set_threads ?e (e_threads ?e ++ _)) => apply thr_at_append_threads_k
  | |- tinv ?x => let e := under_thread_update x in apply (thr_at_upd_thread_k b Q e); [own Hme|]
  | |- tinv ?x =>
      let e := match x with
               | upd_object ?e _ _ => e
               | ex_set_objects ?e _ => e
               | _ => under_setter x
               | _ => under_h_setter x
               end in
      apply (thr_at_same_k b Q e); [reflexivity|]
  end.

Ltac tclose Hme := cbn [res_exec lp_exec]; repeat tclose_step Hme.

Ltac tinv_sched := apply schedule_tinv.

Ltac tinv_frame0 Hme H t :=
  lazymatch t with
  | post_acquire ?e ?me ?m => pose proof (post_acquire_tinv e me m Hme) as H
  | post_acquire_read ?e ?me ?m => pose proof (post_acquire_read_tinv e me m Hme) as H
  | post_acquire_write ?e ?me ?m => pose proof (post_acquire_write_tinv e me m Hme) as H
  | release_read ?e ?me ?m => pose proof (release_read_tinv e me m) as H
  | release_write ?e ?me ?m => pose proof (release_write_tinv e me m) as H
  | choose_store ?e ?s => pose proof (choose_store_tinv e s) as H
  end.

Lemma load_post_tinv e me a o :
  me <> b \/ self_ok -> tinv e -> tinv (lp_exec (load_post e me a o)).
Proof.
  intros Hme H0. unfold load_post.
  repeat walk_step tinv_sched ltac:(fun H t => tinv_frame0 Hme H t). all: tclose Hme.
Qed.

Ltac tinv_frame Hme H t :=
  lazymatch t with
  | load_post ?e ?me ?a ?o => pose proof (load_post_tinv e me a o Hme) as H
  | _ => tinv_frame0 Hme H t
  end.

Ltac ti_tac Hme :=
  cbn [exec_micro]; unfold lift_path, mbind; cbv beta iota;
  repeat walk_step tinv_sched ltac:(fun H t => tinv_frame Hme H t); tclose Hme.

(* every micro-operation keeps "thread b satisfies Q", provided that
   - the executing thread is not b, or Q only looks at the token;
   - MPark is executed by another thread;
   - m does not unpark b, or Q survives an unpark *)
Lemma exec_micro_tinv e me m :
  me <> b \/ self_ok -> (m = MPark -> me <> b) ->
  wake_ok \/ ~ In b (unpark_targets e m) ->
  tinv e -> tinv (res_exec (exec_micro e me m)).
Proof.
  intros Hme Hpk Hw H0.
  destruct m;
    try match goal with
        | |- tinv (res_exec (exec_micro _ _ MPark)) => idtac
        | |- tinv (res_exec (exec_micro _ _ (MCvNotify _ _))) => idtac
        | |- tinv (res_exec (exec_micro _ _ (MUnpark _))) => idtac
        | |- _ => clear Hpk Hw; ti_tac Hme
        end.
  - (* MPark *)
    cbn [exec_micro]. apply do_park_tinv; [apply Hpk; reflexivity|exact H0].
  - (* MCvNotify *)
    cbn [exec_micro unpark_targets] in *.
    destruct (nth_error (e_objects e) c) as [[| | | |s| | | |]|]; cbn [res_exec]; try exact H0.
    destruct all.
    + apply thr_at_log_op_k. apply tinv_fold_unpark_k; [exact Hw|].
      match goal with |- tinv (upd_object ?E _ _) => apply (thr_at_same_k b Q E); [reflexivity|] end.
      exact H0.
    + destruct (cv_waiters s) as [|w rest]; cbn [res_exec].
      * apply thr_at_log_op_k, H0.
      * apply thr_at_log_op_k. apply (tinv_fold_unpark_k me [w]); [exact Hw|].
        match goal with |- tinv (upd_object ?E _ _) => apply (thr_at_same_k b Q E); [reflexivity|] end.
        exact H0.
  - (* MUnpark *)
    cbn [exec_micro unpark_targets] in *.
    destruct (body_tid e b0) as [tid|]; cbn [res_exec]; [|exact H0].
    apply thr_at_log_op_k. apply (tinv_fold_unpark_k me [tid]); [exact Hw|exact H0].
Qed.

End TInv.

(* ================================================================== *)
(* 1. A.1: the park token persists                                     *)
(* ================================================================== *)

Definition has_token (t : thread) : Prop := t_token t = true.

Lemma t_token_set_unparked t : t_token t = true -> t_token (set_unparked t) = true.
Proof.
  intros H. unfold set_unparked. destruct (is_parked t); [exact H|].
  destruct (is_terminated t); [exact H|reflexivity].
Qed.

Lemma has_token_self_ok : self_ok has_token.
Proof. intros t t' E H. unfold has_token in *. congruence. Qed.

Lemma has_token_wake_ok : wake_ok has_token.
Proof. split; [apply has_token_self_ok|]. intros t H. apply t_token_set_unparked, H. Qed.

(* all micro-operations, also for the state carried by a panic: thread b keeps
   its token unless b itself executes MPark *)
Lemma exec_micro_token b e me m :
  (me = b -> m <> MPark) ->
  tinv b has_token e -> tinv b has_token (res_exec (exec_micro e me m)).
Proof.
  intros Hpk. apply exec_micro_tinv.
  - intros v t H. exact H.
  - intros t H _. exact H.
  - intros m0 t H _. exact H.
  - intros m0 t H _. exact H.
  - intros m0 c t H _. exact H.
  - right. apply has_token_self_ok.
  - intros -> ->. apply Hpk; reflexivity.
  - left. apply has_token_wake_ok.
Qed.

Theorem token_persists : forall b e me m e' t,
  get_thread e b = Some t -> t_token t = true ->
  (me = b -> m <> MPark) ->
  exec_micro e me m = MOk e' ->
  exists t', get_thread e' b = Some t' /\ t_token t' = true.
Proof.
  intros b e me m e' t Ht Htk Hpk Hx.
  assert (H0 : tinv b has_token e) by (exists t; split; assumption).
  pose proof (exec_micro_token b e me m Hpk H0) as H1. rewrite Hx in H1. exact H1.
Qed.

(* the same for the state carried by a panic *)
Theorem token_persists_fail : forall b e me m e' pn t,
  get_thread e b = Some t -> t_token t = true ->
  (me = b -> m <> MPark) ->
  exec_micro e me m = MFail e' pn ->
  exists t', get_thread e' b = Some t' /\ t_token t' = true.
Proof.
  intros b e me m e' pn t Ht Htk Hpk Hx.
  assert (H0 : tinv b has_token e) by (exists t; split; assumption).
  pose proof (exec_micro_token b e me m Hpk H0) as H1. rewrite Hx in H1. exact H1.
Qed.

(* sequences: any thread executes a micro-operation allowed by P (which may
   look at the state: the unpark targets depend on it); the runtime pops the
   continuation of a thread (Check.run does both in one go) *)
Inductive tsteps (P : exec -> nat -> micro -> Prop) : exec -> exec -> Prop :=
  | ts_refl e : tsteps P e e
  | ts_micro e me m e1 e2 :
      P e me m -> exec_micro e me m = MOk e1 -> tsteps P e1 e2 -> tsteps P e e2
  | ts_pop e me rest e2 :
      tsteps P (upd_thread e me (fun t => th_set_cont t rest)) e2 -> tsteps P e e2.

Lemma tsteps_trans P e1 e2 e3 : tsteps P e1 e2 -> tsteps P e2 e3 -> tsteps P e1 e3.
Proof.
  intros H12 H23. induction H12 as [e|e me m e1 e2 Hp Hx Hs IH|e me rest e2 Hs IH]; [exact H23| |].
  - eapply ts_micro; eauto.
  - eapply ts_pop; eauto.
Qed.

Lemma tsteps_weaken (P P' : exec -> nat -> micro -> Prop) e e' :
  (forall e me m, P e me m -> P' e me m) -> tsteps P e e' -> tsteps P' e e'.
Proof.
  intros HPQ H. induction H as [e|e me m e1 e2 Hp Hx Hs IH|e me rest e2 Hs IH].
  - apply ts_refl.
  - eapply ts_micro; eauto.
  - eapply ts_pop; eauto.
Qed.

Lemma tsteps_invariant (P : exec -> nat -> micro -> Prop) (I : exec -> Prop) :
  (forall e me m e1, P e me m -> exec_micro e me m = MOk e1 -> I e -> I e1) ->
  (forall e me rest, I e -> I (upd_thread e me (fun t => th_set_cont t rest))) ->
  forall e e', tsteps P e e' -> I e -> I e'.
Proof.
  intros Hmicro Hpop e e' H. induction H as [e|e me m e1 e2 Hp Hx Hs IH|e me rest e2 Hs IH]; eauto.
Qed.

(* the steps of the runtime (SyncMono.steps) are such sequences, with the
   condition read on the popped state *)
Lemma steps_tsteps e e' : steps e e' -> tsteps (fun _ _ _ => True) e e'.
Proof.
  intros H. induction H as [e|e me t m rest e1 e2 Ha Ht Hc Hx Hs IH]; [apply ts_refl|].
  eapply ts_pop, ts_micro; eauto.
Qed.

(* no step is b's own MPark *)
Definition not_own_park (b : nat) : exec -> nat -> micro -> Prop :=
  fun _ me m => ~ (me = b /\ m = MPark).

Theorem tsteps_token_persists : forall b e e' t,
  get_thread e b = Some t -> t_token t = true ->
  tsteps (not_own_park b) e e' ->
  exists t', get_thread e' b = Some t' /\ t_token t' = true.
Proof.
  intros b e e' t Ht Htk Hs.
  assert (H0 : tinv b has_token e) by (exists t; split; assumption).
  revert H0. apply (tsteps_invariant _ (tinv b has_token)) with (3 := Hs); 
    [|intros e0 me rest H0; apply thr_at_upd_thread_k; [right; intros t0 Hq; exact Hq|exact H0]].
  intros e0 me m e1 Hp Hx H0. assert (Hpk : me = b -> m <> MPark) by (intros E1 E2; apply Hp; auto).
  pose proof (exec_micro_token b e0 me m Hpk H0) as H1. rewrite Hx in H1. exact H1.
Qed.

(* ================================================================== *)
(* 2. A.2: the exact effect of MUnpark                                 *)
(* ================================================================== *)

Lemma set_unparked_cases t :
  (is_parked t = true /\ set_unparked t = set_runnable t) \/
  (is_parked t = false /\ is_terminated t = true /\ set_unparked t = t) \/
  (is_parked t = false /\ is_terminated t = false /\ set_unparked t = th_set_token t true).
Proof.
  unfold set_unparked. destruct (is_parked t); [left; auto|right].
  destruct (is_terminated t); [left; auto|right; auto].
Qed.

Lemma parked_not_terminated t : is_parked t = true -> is_terminated t = false.
Proof.
  unfold is_parked, is_blocked, is_terminated. destruct (t_state t); cbn; congruence.
Qed.

(* what Set::unpark(b) executed by a does to thread b *)
Definition unparked_by (e : exec) (a b : nat) : thread -> thread :=
  if Nat.eqb b a then set_unparked else fun t => thread_unpark t (caus_of e a).

Lemma threads_unpark_exact e a b : threads_unpark e a b = upd_thread e b (unparked_by e a b).
Proof.
  unfold threads_unpark, unparked_by. destruct (Nat.eqb b a) eqn:E; [|reflexivity].
  apply Nat.eqb_eq in E. subst b. reflexivity.
Qed.

Lemma exec_micro_unpark e a bd b :
  body_tid e bd = Some b ->
  exec_micro e a (MUnpark bd) = MOk (log_op (threads_unpark e a b) a RUnit).
Proof. intros Hb. cbn [exec_micro]. rewrite Hb. reflexivity. Qed.

Lemma get_thread_log_op e me r j : get_thread (log_op e me r) j = get_thread e j.
Proof. unfold get_thread. rewrite e_threads_log_op. reflexivity. Qed.

(* the fields of a thread other than state, clock and token *)
Definition same_rest (t t' : thread) : Prop :=
  t_op t' = t_op t /\ t_rel t' = t_rel t /\ t_dpor t' = t_dpor t /\
  t_last_yield t' = t_last_yield t /\ t_yield_count t' = t_yield_count t /\
  t_cont t' = t_cont t /\ t_body t' = t_body t /\ t_pc t' = t_pc t /\
  t_guards t' = t_guards t /\ t_tls t' = t_tls t.

(* the components of the state other than the thread table and the log *)
Definition same_frame (e e' : exec) : Prop :=
  e_objects e' = e_objects e /\ e_path e' = e_path e /\ e_active e' = e_active e /\
  e_seqcst e' = e_seqcst e /\ e_max_threads e' = e_max_threads e /\ e_h e' = e_h e /\
  e_spawned e' = e_spawned e /\ e_joined e' = e_joined e /\ e_bodies e' = e_bodies e /\
  e_lazy e' = e_lazy e /\ length (e_threads e') = length (e_threads e).

Lemma same_frame_log_op e me r : same_frame e (log_op e me r).
Proof. unfold log_op. destruct (get_thread e me); repeat split. Qed.

(* what an unpark does to the state, the token and the other fields of its target *)
Definition unpark_result (t t' : thread) : Prop :=
  (if is_parked t then t_state t' = Runnable /\ t_token t' = t_token t
   else if is_terminated t then t_state t' = Terminated /\ t_token t' = t_token t
   else t_state t' = t_state t /\ t_token t' = true) /\
  same_rest t t'.

Lemma unparked_by_result e a b t : unpark_result t (unparked_by e a b t).
Proof.
  unfold unpark_result, same_rest, unparked_by, thread_unpark, set_unparked, is_parked, is_blocked,
    is_terminated.
  destruct t as [st op ca re dp ly yc co bo pc gu tl tk].
  cbn [t_state t_op t_token th_set_caus].
  destruct (Nat.eqb b a); destruct st; destruct op; cbn; repeat split.
Qed.

(* Set::unpark(b) executed by thread a, exactly *)
Lemma threads_unpark_effect e a b t :
  get_thread e b = Some t ->
  exists t',
    get_thread (threads_unpark e a b) b = Some t' /\
    unpark_result t t' /\
    t_caus t' = (if Nat.eqb b a then t_caus t else vv_join (t_caus t) (caus_of e a)) /\
    vle (caus_of e a) (caus_of (threads_unpark e a b) b) /\
    (forall j, j <> b -> get_thread (threads_unpark e a b) j = get_thread e j).
Proof.
  intros Ht. rewrite threads_unpark_exact. exists (unparked_by e a b t).
  assert (Hg : get_thread (upd_thread e b (unparked_by e a b)) b = Some (unparked_by e a b t))
    by (rewrite get_thread_upd_thread_same, Ht; reflexivity).
  assert (Hc : t_caus (unparked_by e a b t) =
               (if Nat.eqb b a then t_caus t else vv_join (t_caus t) (caus_of e a))).
  { unfold unparked_by. destruct (Nat.eqb b a);
      [apply t_caus_set_unparked|apply t_caus_thread_unpark]. }
  split; [exact Hg|]. split; [apply unparked_by_result|]. split; [exact Hc|]. split.
  - unfold caus_of at 2. rewrite Hg, Hc. destruct (Nat.eqb b a) eqn:E.
    + apply Nat.eqb_eq in E. subst b. unfold caus_of. rewrite Ht. apply vle_refl.
    + apply vle_join_r.
  - intros j Hj. apply get_thread_upd_thread_other. congruence.
Qed.

Lemma same_frame_threads_unpark e a b : same_frame e (threads_unpark e a b).
Proof.
  rewrite threads_unpark_exact. unfold same_frame. repeat split. apply length_threads_upd_thread.
Qed.

Lemma same_frame_trans e1 e2 e3 : same_frame e1 e2 -> same_frame e2 e3 -> same_frame e1 e3.
Proof.
  unfold same_frame.
  intros (A1 & A2 & A3 & A4 & A5 & A6 & A7 & A8 & A9 & A10 & A11)
         (B1 & B2 & B3 & B4 & B5 & B6 & B7 & B8 & B9 & B10 & B11).
  repeat split; congruence.
Qed.

Theorem unpark_effect : forall e a bd b t e',
  body_tid e bd = Some b -> get_thread e b = Some t ->
  exec_micro e a (MUnpark bd) = MOk e' ->
  exists t',
    get_thread e' b = Some t' /\
    (if is_parked t then t_state t' = Runnable /\ t_token t' = t_token t
     else if is_terminated t then t_state t' = Terminated /\ t_token t' = t_token t
     else t_state t' = t_state t /\ t_token t' = true) /\
    t_caus t' = (if Nat.eqb b a then t_caus t else vv_join (t_caus t) (caus_of e a)) /\
    vle (caus_of e a) (caus_of e' b) /\
    same_rest t t' /\
    (forall j, j <> b -> get_thread e' j = get_thread e j) /\
    same_frame e e'.
Proof.
  intros e a bd b t e' Hb Ht Hx. rewrite (exec_micro_unpark e a bd b Hb) in Hx.
  injection Hx as <-.
  destruct (threads_unpark_effect e a b t Ht) as (t' & Hg & [Hr1 Hr2] & Hc & Hv & Ho).
  exists t'. rewrite get_thread_log_op. split; [exact Hg|]. split; [exact Hr1|].
  split; [exact Hc|]. split; [rewrite caus_of_log_op; exact Hv|]. split; [exact Hr2|]. split.
  - intros j Hj. rewrite get_thread_log_op. apply Ho, Hj.
  - eapply same_frame_trans; [apply same_frame_threads_unpark|apply same_frame_log_op].
Qed.

(* the three cases, one by one *)
Corollary unpark_wakes_parked : forall e a bd b t e',
  body_tid e bd = Some b -> get_thread e b = Some t -> is_parked t = true ->
  exec_micro e a (MUnpark bd) = MOk e' ->
  exists t', get_thread e' b = Some t' /\ t_state t' = Runnable /\ t_token t' = t_token t /\
             vle (caus_of e a) (caus_of e' b).
Proof.
  intros e a bd b t e' Hb Ht Hp Hx.
  destruct (unpark_effect e a bd b t e' Hb Ht Hx) as (t' & Hg & Hc & _ & Hv & _).
  rewrite Hp in Hc. exists t'. tauto.
Qed.

Corollary unpark_stores_token : forall e a bd b t e',
  body_tid e bd = Some b -> get_thread e b = Some t ->
  is_parked t = false -> is_terminated t = false ->
  exec_micro e a (MUnpark bd) = MOk e' ->
  exists t', get_thread e' b = Some t' /\ t_state t' = t_state t /\ t_token t' = true /\
             t_op t' = t_op t /\ vle (caus_of e a) (caus_of e' b).
Proof.
  intros e a bd b t e' Hb Ht Hp Htm Hx.
  destruct (unpark_effect e a bd b t e' Hb Ht Hx) as (t' & Hg & Hc & _ & Hv & Hr & _).
  rewrite Hp, Htm in Hc. exists t'. destruct Hr as (Hop & _). tauto.
Qed.

Corollary unpark_terminated_untouched : forall e a bd b t e',
  body_tid e bd = Some b -> get_thread e b = Some t -> is_terminated t = true ->
  exec_micro e a (MUnpark bd) = MOk e' ->
  exists t', get_thread e' b = Some t' /\ t_state t' = Terminated /\ t_token t' = t_token t /\
             same_rest t t'.
Proof.
  intros e a bd b t e' Hb Ht Htm Hx.
  destruct (unpark_effect e a bd b t e' Hb Ht Hx) as (t' & Hg & Hc & _ & _ & Hr & _).
  assert (Hp : is_parked t = false).
  { destruct (is_parked t) eqn:E; [|reflexivity]. apply parked_not_terminated in E. congruence. }
  rewrite Hp, Htm in Hc. exists t'. tauto.
Qed.

(* ================================================================== *)
(* 3. A.3: the exact effect of MPark                                   *)
(* ================================================================== *)

(* with a token: the token is consumed, nothing else happens (no scheduling) *)
Theorem park_effect_token : forall e me t,
  get_thread e me = Some t -> t_token t = true ->
  exec_micro e me MPark = MOk (upd_thread e me (fun t => th_set_token t false)).
Proof. intros e me t Ht Htk. cbn [exec_micro]. unfold do_park. rewrite Ht, Htk. reflexivity. Qed.

(* without a token: the thread becomes Blocked with no pending operation, and
   the scheduler is called *)
Theorem park_effect_block : forall e me t,
  get_thread e me = Some t -> t_token t = false ->
  exec_micro e me MPark =
  fst (schedule (upd_thread e me (fun t => th_set_op (set_blocked t) None))).
Proof. intros e me t Ht Htk. cbn [exec_micro]. unfold do_park. rewrite Ht, Htk. reflexivity. Qed.

(* "parked": Blocked, no pending operation -- and no token *)
Definition parkedQ (t : thread) : Prop := is_parked t = true /\ t_token t = false.
Definition parked (b : nat) (e : exec) : Prop := tinv b parkedQ e.

Lemma parked_op_none t : is_parked t = true -> t_op t = None.
Proof. unfold is_parked. destruct (t_op t); [rewrite andb_false_r; discriminate|reflexivity]. Qed.

Lemma parked_not_pending m t : is_parked t = true -> pending_on m t = true -> False.
Proof. intros Hp. unfold pending_on. rewrite (parked_op_none t Hp). discriminate. Qed.

Lemma parked_not_yield t : is_parked t = true -> is_yield t = true -> False.
Proof. unfold is_parked, is_blocked, is_yield. destruct (t_state t); cbn; discriminate. Qed.

Lemma schedule_parked b e : parked b e -> parked b (res_exec (fst (schedule e))).
Proof.
  apply schedule_tinv.
  - intros v t H. exact H.
  - intros t [H _] Hy. destruct (parked_not_yield t H Hy).
Qed.

(* the blocking park really blocks: the thread is parked (and, when the path is
   traversed, another thread is resumed) *)
Theorem park_blocks : forall e me t e',
  get_thread e me = Some t -> t_token t = false ->
  exec_micro e me MPark = MOk e' ->
  parked me e' /\ (is_traversed (e_path e) = true -> e_active e' <> Some me).
Proof.
  intros e me t e' Ht Htk Hx. rewrite (park_effect_block e me t Ht Htk) in Hx.
  set (e0 := upd_thread e me (fun t => th_set_op (set_blocked t) None)) in *.
  assert (Ht0 : nth_error (e_threads e0) me = Some (th_set_op (set_blocked t) None)).
  { change (get_thread e0 me = Some (th_set_op (set_blocked t) None)).
    unfold e0. rewrite get_thread_upd_thread_same, Ht. reflexivity. }
  split.
  - assert (H0 : parked me e0).
    { exists (th_set_op (set_blocked t) None). split; [exact Ht0|]. split; [reflexivity|exact Htk]. }
    pose proof (schedule_parked me e0 H0) as H1. rewrite Hx in H1. exact H1.
  - intros Htr Ha.
    exact (blocked_not_scheduled e0 e' me _ me Hx Htr Ht0 eq_refl Ha eq_refl).
Qed.

(* ================================================================== *)
(* 4. A.4: no lost unpark; a parked thread is woken by an unpark only  *)
(* ================================================================== *)

Theorem no_lost_unpark : forall e a bd b t e1,
  body_tid e bd = Some b -> get_thread e b = Some t ->
  exec_micro e a (MUnpark bd) = MOk e1 ->
  (* b was parked: it is Runnable now *)
  (is_parked t = true /\
   exists t1, get_thread e1 b = Some t1 /\ t_state t1 = Runnable /\ t_token t1 = t_token t) \/
  (* b had exited *)
  is_terminated t = true \/
  (* otherwise the unpark is stored: whatever happens next, as long as b does not
     park, the token is there and b's next park consumes it without blocking *)
  (is_parked t = false /\ is_terminated t = false /\
   forall e2, tsteps (not_own_park b) e1 e2 ->
     exists t2, get_thread e2 b = Some t2 /\ t_token t2 = true /\
       exec_micro e2 b MPark = MOk (upd_thread e2 b (fun t => th_set_token t false))).
Proof.
  intros e a bd b t e1 Hb Ht Hx.
  destruct (is_parked t) eqn:Hp.
  - left. split; [reflexivity|].
    destruct (unpark_wakes_parked e a bd b t e1 Hb Ht Hp Hx) as (t1 & H1 & H2 & H3 & _). eauto.
  - destruct (is_terminated t) eqn:Htm; [right; left; reflexivity|]. right; right.
    split; [reflexivity|]. split; [reflexivity|]. intros e2 Hs.
    destruct (unpark_stores_token e a bd b t e1 Hb Ht Hp Htm Hx) as (t1 & H1 & _ & H3 & _).
    destruct (tsteps_token_persists b e1 e2 t1 H1 H3 Hs) as (t2 & Hg2 & Htk2).
    exists t2. split; [exact Hg2|]. split; [exact Htk2|]. apply (park_effect_token e2 b t2 Hg2 Htk2).
Qed.

(* the safety half, all micro-operations: a parked thread stays parked (and
   without a token) under every micro-operation of another thread that does
   not unpark it: not MUnpark of b, not a Condvar notify that pops b *)
Lemma exec_micro_parked b e me m :
  me <> b -> ~ In b (unpark_targets e m) ->
  parked b e -> parked b (res_exec (exec_micro e me m)).
Proof.
  intros Hmb Hw. apply exec_micro_tinv.
  - intros v t H. exact H.
  - intros t [H _] Hy. destruct (parked_not_yield t H Hy).
  - intros m0 t [H _] Hp. destruct (parked_not_pending m0 t H Hp).
  - intros m0 t [H _] Hp. destruct (parked_not_pending m0 t H Hp).
  - intros m0 c t [H _] Hp. destruct (parked_not_pending m0 t H Hp).
  - left. exact Hmb.
  - intros _. exact Hmb.
  - right. exact Hw.
Qed.

Theorem parked_stays_parked : forall b e me m e' t,
  get_thread e b = Some t -> is_parked t = true -> t_token t = false ->
  me <> b -> ~ In b (unpark_targets e m) ->
  exec_micro e me m = MOk e' ->
  exists t', get_thread e' b = Some t' /\ is_parked t' = true /\ t_token t' = false.
Proof.
  intros b e me m e' t Ht Hp Htk Hmb Hw Hx.
  assert (H0 : parked b e) by (exists t; split; [exact Ht|split; assumption]).
  pose proof (exec_micro_parked b e me m Hmb Hw H0) as H1. rewrite Hx in H1.
  destruct H1 as (t' & Ht' & Hp' & Htk'). eauto.
Qed.

(* what the unpark targets are *)
Lemma unpark_targets_spec e m b :
  In b (unpark_targets e m) <->
  (exists bd, m = MUnpark bd /\ body_tid e bd = Some b) \/
  (exists c s, m = MCvNotify c true /\ nth_error (e_objects e) c = Some (OCondvar s) /\
               In b (cv_waiters s)) \/
  (exists c s rest, m = MCvNotify c false /\ nth_error (e_objects e) c = Some (OCondvar s) /\
               cv_waiters s = b :: rest).
Proof.
  split.
  - intros H. destruct m; cbn [unpark_targets] in H; try destruct H.
    + destruct (nth_error (e_objects e) c) as [[| | | |s| | | |]|] eqn:Hc; try destruct H.
      destruct all.
      * right; left. eauto.
      * right; right. destruct (cv_waiters s) as [|w rest] eqn:Hq; [destruct H|].
        destruct H as [->|[]]. eauto 6.
    + left. destruct (body_tid e b0) as [tid|] eqn:Hb; [|destruct H].
      destruct H as [->|[]]. eauto.
  - intros [(bd & -> & Hb)|[(c & s & -> & Hc & Hi)|(c & s & rest & -> & Hc & Hq)]];
      cbn [unpark_targets].
    + rewrite Hb. left. reflexivity.
    + rewrite Hc. exact Hi.
    + rewrite Hc, Hq. left. reflexivity.
Qed.

(* the converse reading: if a micro-operation of another thread ends the
   parked state of b, it was an unpark of b *)
Theorem unpark_needed : forall b e me m e',
  parked b e -> me <> b -> exec_micro e me m = MOk e' -> ~ parked b e' ->
  In b (unpark_targets e m).
Proof.
  intros b e me m e' H0 Hmb Hx Hn.
  destruct (in_dec Nat.eq_dec b (unpark_targets e m)) as [Hi|Hi]; [exact Hi|].
  exfalso. apply Hn. pose proof (exec_micro_parked b e me m Hmb Hi H0) as H1.
  rewrite Hx in H1. exact H1.
Qed.

(* sequences: other threads execute anything that does not unpark b *)
Definition no_unpark_of (b : nat) : exec -> nat -> micro -> Prop :=
  fun e me m => me <> b /\ ~ In b (unpark_targets e m).

Theorem parked_until_unpark : forall b e e',
  parked b e -> tsteps (no_unpark_of b) e e' -> parked b e'.
Proof.
  intros b e e' H0 Hs. revert H0.
  apply (tsteps_invariant _ (parked b)) with (3 := Hs); 
    [|intros e0 me rest H0; apply thr_at_upd_thread_k; [right; intros t0 Hq; exact Hq|exact H0]].
  intros e0 me m e1 [Hmb Hw] Hx H0.
  pose proof (exec_micro_parked b e0 me m Hmb Hw H0) as H1. rewrite Hx in H1. exact H1.
Qed.

(* the whole scenario: b parks without a token; it stays parked while nobody
   unparks it; an unpark by a makes it Runnable, token still clear, and b has
   acquired a's clock *)
Theorem park_until_unpark : forall e b t e1 e2 a bd e3,
  get_thread e b = Some t -> t_token t = false ->
  exec_micro e b MPark = MOk e1 ->
  tsteps (no_unpark_of b) e1 e2 ->
  body_tid e2 bd = Some b -> exec_micro e2 a (MUnpark bd) = MOk e3 ->
  parked b e2 /\
  exists t3, get_thread e3 b = Some t3 /\ t_state t3 = Runnable /\ t_token t3 = false /\
             vle (caus_of e2 a) (caus_of e3 b).
Proof.
  intros e b t e1 e2 a bd e3 Ht Htk Hpk Hs Hb Hx.
  destruct (park_blocks e b t e1 Ht Htk Hpk) as [H1 _].
  pose proof (parked_until_unpark b e1 e2 H1 Hs) as H2. split; [exact H2|].
  destruct H2 as (t2 & Ht2 & Hp2 & Htk2).
  destruct (unpark_wakes_parked e2 a bd b t2 e3 Hb Ht2 Hp2 Hx) as (t3 & Hg3 & Hs3 & Htk3 & Hv).
  exists t3. rewrite Htk3, Htk2. auto.
Qed.

(* ================================================================== *)
(* 5. Concrete runs (non-vacuity)                                      *)
(* ================================================================== *)

Definition cfgP : config := mkConfig 5 1000 None None None false.

(* main: spawn t1; lock; unlock; park; join      t1: unpark(main) *)
Definition p_park : prog := mkProg cfgP [DMutex]
  [[ISpawn 1; ILock 0; IUnlock 0; IPark; IJoin 1]; [IUnpark 0]].

Definition park_state (n : nat) : exec := fst (run n (init_exec p_park (initial_path cfgP))).

(* (state, pending operation, token) of every thread *)
Definition tview (e : exec) : list (tstate * option operation * bool) :=
  map (fun t => (t_state t, t_op t, t_token t)) (e_threads e).

(* first schedule: main parks first (it blocks: no token), t1's unpark wakes it *)
Example park_then_unpark_run :
  snd (run 1000 (init_exec p_park (initial_path cfgP))) = IterDone /\
  tview (park_state 9) = [(Blocked, None, false); (Runnable, None, false)] /\
  e_active (park_state 9) = Some 1 /\
  tview (park_state 11) = [(Runnable, None, false); (Runnable, None, false)].
Proof. vm_compute. repeat split; reflexivity. Qed.

(* the other order: t1 unparks main right after the spawn; the token survives
   main's lock / unlock (a scheduling point, a lock word update, a release with
   its wake-ups) and main's park consumes it without blocking *)
Definition tok_state : exec := res_exec (exec_micro (park_state 2) 1 (MUnpark 0)).

Example unpark_then_park_run :
  tview tok_state = [(Runnable, None, true); (Runnable, None, false)] /\
  (* up to main's MPark: Begin, Branch, LockPost, Begin, Unlock, Begin *)
  tview (fst (run 6 tok_state)) =
    [(Runnable, Some (mkOp 0 AOpaque), true); (Runnable, None, false)] /\
  (* MPark: token consumed, main still Runnable and still the active thread *)
  tview (fst (run 7 tok_state)) =
    [(Runnable, Some (mkOp 0 AOpaque), false); (Runnable, None, false)] /\
  e_active (fst (run 7 tok_state)) = Some 0.
Proof. vm_compute. repeat split; reflexivity. Qed.

Print Assumptions exec_micro_tinv.
Print Assumptions exec_micro_token.
Print Assumptions token_persists.
Print Assumptions token_persists_fail.
Print Assumptions tsteps_token_persists.
Print Assumptions threads_unpark_effect.
Print Assumptions unpark_effect.
Print Assumptions unpark_wakes_parked.
Print Assumptions unpark_stores_token.
Print Assumptions unpark_terminated_untouched.
Print Assumptions park_effect_token.
Print Assumptions park_effect_block.
Print Assumptions park_blocks.
Print Assumptions no_lost_unpark.
Print Assumptions exec_micro_parked.
Print Assumptions parked_stays_parked.
Print Assumptions unpark_targets_spec.
Print Assumptions unpark_needed.
Print Assumptions parked_until_unpark.
Print Assumptions park_until_unpark.
Print Assumptions park_then_unpark_run.
Print Assumptions unpark_then_park_run.

(* DEVIATIONS from the requested statements

   P1  MUnpark carries a BODY index bd; the thread unparked is
       body_tid e bd = Some b.  All statements about MUnpark have that
       hypothesis.
   P2  token_persists (A.1): as requested, for EVERY micro-operation of EVERY
       thread (b itself included) other than b's own MPark; it needs no side
       condition (no track_ok: only the thread table matters).  It is proved
       for the state carried by a panic as well (token_persists_fail), and
       over sequences (tsteps_token_persists; tsteps is larger than
       SyncMono.steps, see steps_tsteps).
   P3  unpark_effect (A.2): "Terminated threads are untouched" is true for the
       state, the token and every other field EXCEPT the clock: Thread::unpark
       joins the unparker's clock into the target before looking at its state,
       so a terminated (or any) target's t_caus becomes
       vv_join (t_caus t) (caus_of e a) when a <> b.  When a thread unparks
       ITSELF (a = b) no clock is joined (Set::unpark special-cases it); the
       requested vle (caus_of e a) (caus_of e' b) then holds trivially.  For a
       parked target the theorem says "the token is unchanged"; it is false
       whenever the thread got parked through MPark (park_blocks establishes
       [parked] = is_parked /\ token clear, exec_micro_parked keeps it), see
       park_until_unpark.
   P4  parked_stays_parked (A.4, safety half): a parked thread is made Runnable
       by MUnpark of it -- AND by a Condvar notify that pops it from a waiter
       queue (MCvNotify c false with b at the front, MCvNotify c true with b
       anywhere in the queue): Condvar::wait parks through the same rt::park
       and Condvar::notify_* wakes through the same Set::unpark.  The exact
       exclusion is [~ In b (unpark_targets e m)] (unpark_targets_spec spells
       it out); unpark_needed is the converse reading.  Nothing else wakes a
       parked thread: releases of locks, sends, Notify posts and the exit
       notification only touch threads with a pending operation on their
       object, the scheduler only resets Yielded threads (the D5 / D11 sites).
       Hypothesis me <> b: the parked thread itself executes nothing
       (park_blocks: it is Blocked and, on a traversed path, not scheduled).
   P5  no_lost_unpark: the disjunction is  parked (now Runnable, token as
       before)  \/  terminated  \/  (running / yielded / blocked on an object:
       the token is set, persists over every sequence of steps without b's own
       MPark, and b's next MPark is exactly "clear the token": no blocking, no
       scheduling call). *)
