(* TlsFacts: thread_local! / lazy_static! bookkeeping over whole runs.

   Contents
     0. the TLS/lazy "view" of a state: tsig (body, initialised keys and the
        MLazyGetY / MLazyFinishY micro-operations still in the continuation
        of every thread), inits (the LInitTls / LInitLazy / LDropLazy entries
        of the log), e_lazy, e_bodies; veq (same view)
     1. framing lemmas in continuation style for every helper of Ops.v and
        for schedule
     2. tstep e e': the five ways in which a micro-operation other than
        MLazyGetY / MLazyFinishY can change the view (nothing, spawn, first
        use of a thread-local, initialisation of a lazy static, shutdown of
        the registry); exec_micro_tstep
        ([destruct m; tl_tac], MSpawn / MSpawnW / MTlsWith / MLazyGet /
        MLazyDrop / MDropLocals by hand);
        ystep e e': the four outcomes of a step of Scheduler::run that
        executes MLazyGetY / MLazyFinishY (lazy static with a yielding
        initialiser), pop included: getY_ystep, finY_ystep; getY_init_ok
        (the initialiser itself cannot panic)
     3. the invariant tl_inv and its preservation: tstep_inv, ystep_inv,
        exec_micro_inv, step_inv, steps_inv, run_inv, init_exec_inv;
        expand_prog_ykeys (the only such micro-operation of an expanded
        program is MLazyGetY 2)
     4. thread-locals: run_tls_nodup, run_tls_count, tls_init_le_threads,
        tls_init_once, tls_init_twice (the counterexample to the statement
        without side condition)
     5. lazy statics: run_lazy_nodup = lazy_registered_once,
        run_lazy_balance, run_lazy_balance_shut, run_lazy_all_dropped,
        run_lazy_count / lazy_init_once (keys other than 2),
        lazy_yielding_init_runs_twice (the counterexample for key 2),
        lazy_none_stays, steps_lazy_none, lazy_get_after_shutdown,
        lazy_get_acquires, lazy_init_publishes, lazy_finish_publishes,
        lazy_handover_global, lazyY_handover_global

   DEVIATIONS from the requested statements: see the end of the file. *)
Require Import LV.Base LV.VV LV.VVFacts LV.Path LV.PathSpec LV.PathApi LV.Prog LV.Objects
               LV.Exec LV.Atomic LV.Ops LV.Check LV.SyncFacts LV.ExecFacts LV.SyncMono.
From Coq Require Import List Arith Lia Bool.
Import ListNotations.

(* ================================================================== *)
(* 0. The view                                                         *)
(* ================================================================== *)

(* the lazy-static micro-operations with a yielding initialiser that a
   continuation still holds: (false, k) for MLazyGetY k (an access not yet
   begun), (true, k) for MLazyFinishY k _ (an initialiser of k in flight: its
   value is built, LInitLazy k is logged, the registration is still to come) *)
Definition ykey (m : micro) : list (bool * nat) :=
  match m with
  | MLazyGetY k => [(false, k)]
  | MLazyFinishY k _ => [(true, k)]
  | _ => []
  end.
Definition ykeys (c : list micro) : list (bool * nat) := flat_map ykey c.

Lemma ykeys_app a b : ykeys (a ++ b) = ykeys a ++ ykeys b.
Proof. unfold ykeys. apply flat_map_app. Qed.

Definition tview : Type := nat * (list nat * list (bool * nat)).
Definition bt (t : thread) : tview := (t_body t, (t_tls t, ykeys (t_cont t))).
Definition tsig (e : exec) : list tview := map bt (e_threads e).

Definition is_init (l : logline) : bool :=
  match l with LInitTls _ _ | LInitLazy _ | LDropLazy _ => true | _ => false end.
Definition inits (e : exec) : list logline := filter is_init (e_log e).

Definition veq (e0 e : exec) : Prop :=
  tsig e = tsig e0 /\ inits e = inits e0 /\ e_lazy e = e_lazy e0 /\ e_bodies e = e_bodies e0.

Lemma veq_refl e : veq e e.
Proof. repeat split. Qed.

Lemma veq_trans e0 e1 e2 : veq e0 e1 -> veq e1 e2 -> veq e0 e2.
Proof. intros (A1 & A2 & A3 & A4) (B1 & B2 & B3 & B4). repeat split; congruence. Qed.

Lemma veq_k e0 e e' : veq e e' -> veq e0 e -> veq e0 e'.
Proof. intros H1 H0. eapply veq_trans; eassumption. Qed.

(* ================================================================== *)
(* 1. Framing                                                          *)
(* ================================================================== *)

Lemma veq_same e e' :
  e_threads e' = e_threads e -> e_log e' = e_log e -> e_lazy e' = e_lazy e ->
  e_bodies e' = e_bodies e -> veq e e'.
Proof. intros Ht Hl Hz Hb. unfold veq, tsig, inits. rewrite Ht, Hl, Hz, Hb. auto. Qed.

Lemma veq_same_k e0 e e' :
  e_threads e' = e_threads e -> e_log e' = e_log e -> e_lazy e' = e_lazy e ->
  e_bodies e' = e_bodies e -> veq e0 e -> veq e0 e'.
Proof. intros Ht Hl Hz Hb. apply veq_k, veq_same; assumption. Qed.

(* the conditions are about a variable state, so that checking them does not
   depend on the size of e *)
Lemma veq_frame_k (g : exec -> exec) e0 e :
  (forall s, e_threads (g s) = e_threads s) -> (forall s, e_log (g s) = e_log s) ->
  (forall s, e_lazy (g s) = e_lazy s) -> (forall s, e_bodies (g s) = e_bodies s) ->
  veq e0 e -> veq e0 (g e).
Proof. intros H1 H2 H3 H4. apply veq_same_k; auto. Qed.

Lemma map_bt_list_upd l i f : (forall t, bt (f t) = bt t) -> map bt (list_upd l i f) = map bt l.
Proof.
  intros Hf. unfold list_upd. destruct (nth_error l i) as [x|] eqn:Hx; [|reflexivity].
  rewrite map_list_set, Hf. apply list_set_id. rewrite nth_error_map, Hx. reflexivity.
Qed.

Lemma map_bt_mapi_from g : (forall id t, bt (g id t) = bt t) ->
  forall l k, map bt (mapi_from k g l) = map bt l.
Proof.
  intros Hg. induction l as [|h t IH]; intros k; cbn [mapi_from map]; [reflexivity|].
  rewrite Hg, IH. reflexivity.
Qed.

Lemma veq_set_threads e ths : map bt ths = map bt (e_threads e) -> veq e (ex_set_threads e ths).
Proof. intros H. unfold veq, tsig, inits. cbn [ex_set_threads e_threads e_log e_lazy e_bodies]. auto. Qed.

Lemma veq_upd_thread_k e0 e i f :
  (forall t, bt (f t) = bt t) -> veq e0 e -> veq e0 (upd_thread e i f).
Proof. intros Hf. apply veq_k. apply veq_set_threads. apply map_bt_list_upd, Hf. Qed.

(* pushing micro-operations other than MLazyGetY / MLazyFinishY *)
Lemma veq_push_cont_k e0 e me ms : ykeys ms = [] -> veq e0 e -> veq e0 (push_cont e me ms).
Proof.
  intros Hy. unfold push_cont. apply veq_upd_thread_k. intros t.
  unfold bt, th_set_cont. cbn [t_body t_tls t_cont]. rewrite ykeys_app, Hy. reflexivity.
Qed.

Ltac yk_tac :=
  cbv zeta;
  repeat match goal with
         | |- context [if ?c then _ else _] => destruct c
         | |- context [match ?x with _ => _ end] => destruct x
         end; reflexivity.

Lemma veq_mapi_k e0 e g :
  (forall id t, bt (g id t) = bt t) -> veq e0 e ->
  veq e0 (ex_set_threads e (mapi g (e_threads e))).
Proof. intros Hg. apply veq_k. apply veq_set_threads. apply map_bt_mapi_from, Hg. Qed.

Lemma veq_map_others_k e0 e me p f :
  (forall t, bt (f t) = bt t) -> veq e0 e -> veq e0 (map_others e me p f).
Proof.
  intros Hf. unfold map_others. apply veq_mapi_k. intros id t.
  destruct (negb (Nat.eqb id me) && p t); [apply Hf|reflexivity].
Qed.

Lemma filter_app_none (A : Type) (f : A -> bool) l l' :
  (forall x, In x l -> f x = false) -> filter f (l ++ l') = filter f l'.
Proof.
  induction l as [|h t IH]; intros H; cbn [app filter]; [reflexivity|].
  rewrite (H h (or_introl eq_refl)). apply IH. intros x Hx. apply H. right. exact Hx.
Qed.

Lemma veq_log_k e0 e l :
  (forall x, In x l -> is_init x = false) -> veq e0 e -> veq e0 (ex_set_log e (l ++ e_log e)).
Proof.
  intros Hl. apply veq_k. unfold veq, tsig, inits. cbn [ex_set_log e_threads e_log e_lazy e_bodies].
  rewrite filter_app_none by exact Hl. auto.
Qed.

Lemma veq_log1_k e0 e x :
  is_init x = false -> veq e0 e -> veq e0 (ex_set_log e (x :: e_log e)).
Proof.
  intros Hx. apply (veq_log_k e0 e [x]). intros y [<-|[]]. exact Hx.
Qed.

Lemma veq_log_op_k e0 e me r : veq e0 e -> veq e0 (log_op e me r).
Proof.
  intros H. unfold log_op. destruct (get_thread e me); [|exact H]. apply veq_log1_k; [reflexivity|exact H].
Qed.

Lemma veq_log_poll_k e0 e me : veq e0 e -> veq e0 (log_poll e me).
Proof.
  intros H. unfold log_poll. destruct (get_thread e me); [|exact H]. apply veq_log1_k; [reflexivity|exact H].
Qed.

Ltac bt_tac :=
  intros; unfold bt, thread_notified, thread_unpark, set_unparked, set_runnable, set_blocked;
  repeat match goal with
         | |- context [if ?c then _ else _] => destruct c
         | |- context [match ?x with _ => _ end] => destruct x
         end; reflexivity.

Lemma veq_threads_unpark_k e0 e me id : veq e0 e -> veq e0 (threads_unpark e me id).
Proof.
  intros H. unfold threads_unpark. destruct (Nat.eqb id me); (apply veq_upd_thread_k; [bt_tac|exact H]).
Qed.

Lemma veq_fold_unpark_k me l : forall e0 e,
  veq e0 e -> veq e0 (fold_left (fun e t => threads_unpark e me t) l e).
Proof.
  induction l as [|x l IH]; intros e0 e H; cbn [fold_left]; [exact H|].
  apply IH, veq_threads_unpark_k, H.
Qed.

Lemma schedule_veq_k e0 e : veq e0 e -> veq e0 (res_exec (fst (schedule e))).
Proof.
  apply (schedule_ind (veq e0)).
  - intros e1 p. apply veq_same_k; reflexivity.
  - intros e1 a. apply veq_same_k; reflexivity.
  - intros e1 nx dv. apply veq_upd_thread_k. bt_tac.
  - intros e1 i act tid pid dv. apply veq_same_k; reflexivity.
  - intros e1 nx. unfold reactivate. apply veq_mapi_k. bt_tac.
Qed.

Lemma schedule_veq e : veq e (res_exec (fst (schedule e))).
Proof. apply schedule_veq_k, veq_refl. Qed.

Lemma veq_upd_object_k e0 e i f : veq e0 e -> veq e0 (upd_object e i f).
Proof. apply veq_same_k; reflexivity. Qed.

Lemma release_lock_veq_k e0 e me m : veq e0 e -> veq e0 (release_lock e me m).
Proof.
  intros H. unfold release_lock. destruct (get_mutex e m) as [s|]; [|exact H]. cbv zeta.
  destruct (e_active _).
  - apply veq_map_others_k; [bt_tac|]. apply veq_upd_object_k, veq_upd_object_k, H.
  - apply veq_upd_object_k, H.
Qed.

Lemma choose_store_veq e seed : veq e (fst (choose_store e seed)).
Proof.
  unfold choose_store.
  repeat match goal with
         | |- context [match ?x with _ => _ end] =>
             lazymatch x with
             | context [match _ with _ => _ end] => fail
             | _ => destruct x
             end
         end; cbn [fst]; first [apply veq_refl|apply veq_same; reflexivity].
Qed.

(* ================================================================== *)
(* 2. One micro-operation                                              *)
(* ================================================================== *)

(* [veq_frame_at e]: the goal is [veq e0 x], and x applies to e a helper that
   writes neither the threads, the log, the lazy statics nor the bodies *)
Ltac veq_frame_at e :=
  lazymatch goal with
  | |- veq _ ?x =>
      lazymatch eval pattern e in x with
      | ?g _ => apply (veq_frame_k g); [(intro; reflexivity)..|]
      end
  end.

Ltac vclose_step :=
  match goal with
  | |- veq ?e ?e => apply veq_refl
  | H : veq ?E ?x |- veq _ ?x => apply (veq_trans _ E x); [|exact H]
  | |- veq _ (log_op _ _ _) => apply veq_log_op_k
  | |- veq _ (log_poll _ _) => apply veq_log_poll_k
  | |- veq _ (release_lock _ _ _) => apply release_lock_veq_k
  | |- veq _ (threads_unpark _ _ _) => apply veq_threads_unpark_k
  | |- veq _ (fold_left _ _ _) => apply veq_fold_unpark_k
  | |- veq _ (map_others _ _ _ _) => apply veq_map_others_k; [bt_tac|]
  | |- veq _ (set_caus _ _ _) => apply veq_upd_thread_k; [bt_tac|]
  | |- veq _ (push_cont _ _ _) => apply veq_push_cont_k; [yk_tac|]
  | |- veq _ (push_guard _ _ _ _) => apply veq_upd_thread_k; [bt_tac|]
  | |- veq _ (drop_guard _ _ _ _) => apply veq_upd_thread_k; [bt_tac|]
  | |- veq _ (causality_inc _ _) => apply veq_upd_thread_k; [bt_tac|]
  | |- veq _ (upd_thread _ _ _) => apply veq_upd_thread_k; [bt_tac|]
  | |- veq _ (ex_set_log ?e (_ :: e_log ?e)) => apply veq_log1_k; [reflexivity|]
  | |- veq _ (upd_object ?e _ _) => veq_frame_at e
  | |- veq _ (ex_set_objects ?e _) => veq_frame_at e
  | |- veq _ ?x => let e := under_setter x in veq_frame_at e
  | |- veq _ ?x => let e := under_h_setter x in veq_frame_at e
  end.

Ltac vclose := cbn [res_exec lp_exec]; repeat vclose_step.

Lemma post_acquire_veq e me m : veq e (fst (post_acquire e me m)).
Proof.
  unfold post_acquire. destruct (get_mutex e m) as [s|]; [|apply veq_refl].
  destruct (is_some (mx_lock s)); cbn [fst]; vclose.
Qed.

Lemma post_acquire_read_veq e me r : veq e (fst (post_acquire_read e me r)).
Proof.
  unfold post_acquire_read. destruct (get_rw e r) as [s|]; [|apply veq_refl].
  destruct (rw_lock s) as [[rs|x]|]; cbn [fst]; vclose.
Qed.

Lemma post_acquire_write_veq e me r : veq e (fst (post_acquire_write e me r)).
Proof.
  unfold post_acquire_write. destruct (get_rw e r) as [s|]; [|apply veq_refl].
  destruct (rw_lock s) as [lk|]; cbn [fst]; vclose.
Qed.

Lemma release_read_veq e me r : veq e (res_exec (release_read e me r)).
Proof.
  unfold release_read. destruct (get_rw e r) as [s|]; [|apply veq_refl]. cbv zeta.
  destruct (rw_lock s) as [[rs|x]|]; cbn [res_exec]; try apply veq_refl.
  destruct (set_remove me rs); vclose.
Qed.

Lemma release_write_veq e me r : veq e (res_exec (release_write e me r)).
Proof. unfold release_write. destruct (get_rw e r) as [s|]; [|apply veq_refl]. vclose. Qed.

Ltac veq_sched := apply schedule_veq_k.

Ltac veq_frame0 H t :=
  lazymatch t with
  | post_acquire ?e ?me ?m => pose proof (post_acquire_veq e me m) as H
  | post_acquire_read ?e ?me ?m => pose proof (post_acquire_read_veq e me m) as H
  | post_acquire_write ?e ?me ?m => pose proof (post_acquire_write_veq e me m) as H
  | release_read ?e ?me ?m => pose proof (release_read_veq e me m) as H
  | release_write ?e ?me ?m => pose proof (release_write_veq e me m) as H
  | choose_store ?e ?s => pose proof (choose_store_veq e s) as H
  end.

Ltac vstep := walk_step veq_sched veq_frame0.

Lemma load_post_veq e me a o : veq e (lp_exec (load_post e me a o)).
Proof. unfold load_post. repeat vstep. all: vclose. Qed.

Ltac veq_frame H t :=
  lazymatch t with
  | load_post ?e ?me ?a ?o => pose proof (load_post_veq e me a o) as H
  | _ => veq_frame0 H t
  end.

Ltac vstep' := walk_step veq_sched veq_frame.

Ltac tl_tac :=
  cbn [exec_micro]; unfold lift_path, mbind; cbv beta iota;
  repeat vstep'; vclose.

(* the micro-operations that do not touch the view *)
Definition view_neutral (m : micro) : Prop :=
  match m with
  | MSpawn _ | MSpawnW _ _ _ | MTlsWith _ | MLazyGet _ | MLazyGetY _ | MLazyFinishY _ _ | MLazyDrop => False
  | _ => True
  end.

Lemma in_rev_map_not_init (A : Type) (g : A -> logline) l :
  (forall a, is_init (g a) = false) -> forall x, In x (rev (map g l)) -> is_init x = false.
Proof.
  intros Hg x Hx. apply in_rev in Hx. apply in_map_iff in Hx. destruct Hx as (a & <- & _). apply Hg.
Qed.

Lemma exec_micro_veq e me m : view_neutral m -> veq e (res_exec (exec_micro e me m)).
Proof.
  intros Hm.
  destruct m; cbn [view_neutral] in Hm; try contradiction;
    try match goal with
        | |- veq _ (res_exec (exec_micro _ _ MDropLocals)) => idtac
        | |- _ => clear Hm; tl_tac
        end.
  (* MDropLocals *)
  cbn [exec_micro]. destruct (get_thread e me) as [th|]; cbn [res_exec]; [|apply veq_refl].
  cbv zeta. destruct (existsb (Nat.eqb 2) (t_tls th) && negb (existsb (Nat.eqb 0) (t_tls th)));
    cbn [res_exec]; [apply veq_refl|].
  apply veq_log_k; [|apply veq_refl].
  intros x Hx. apply in_rev in Hx. apply in_flat_map in Hx. destruct Hx as (k & _ & Hx).
  apply in_app_or in Hx. destruct Hx as [Hx|[<-|[]]]; [|reflexivity].
  destruct (Nat.eqb k 2); [destruct Hx as [<-|[]]; reflexivity|destruct Hx].
Qed.

(* ---- the view-changing steps ---- *)

(* the keys (below 8) whose values the shutdown destroys *)
Definition dkeys (lz : list (nat * (nat * vv))) : list nat :=
  filter (fun k => existsb (fun x => Nat.eqb (fst x) k) lz) (seq 0 8).

Inductive tstep (e e' : exec) : Prop :=
  | ts_same : veq e e' -> tstep e e'
  | ts_spawn b :
      tsig e' = tsig e ++ [(b, ([], ykeys (nth b (e_bodies e) [])))] -> inits e' = inits e ->
      e_lazy e' = e_lazy e -> e_bodies e' = e_bodies e -> tstep e e'
  | ts_tls i b l y k :
      nth_error (tsig e) i = Some (b, (l, y)) -> ~ In k l ->
      tsig e' = list_set (tsig e) i (b, (l ++ [k], y)) ->
      inits e' = LInitTls k b :: inits e -> e_lazy e' = e_lazy e -> e_bodies e' = e_bodies e ->
      tstep e e'
  | ts_lazy lz k x :
      e_lazy e = Some lz -> ~ In k (map fst lz) -> e_lazy e' = Some (lz ++ [(k, x)]) ->
      inits e' = LInitLazy k :: inits e -> tsig e' = tsig e -> e_bodies e' = e_bodies e ->
      tstep e e'
  | ts_drop lz :
      e_lazy e = Some lz -> e_lazy e' = None ->
      inits e' = rev (map LDropLazy (dkeys lz)) ++ inits e -> tsig e' = tsig e ->
      e_bodies e' = e_bodies e -> tstep e e'.

Lemma tstep_veq e1 e1' e e' : veq e e1 -> veq e1' e' -> tstep e1 e1' -> tstep e e'.
Proof.
  intros (U1 & U2 & U3 & U4) (V1 & V2 & V3 & V4) H.
  destruct H as [Hv|b H1 H2 H3 H4|i b l y k H1 H2 H3 H4 H5 H6|lz k x H1 H2 H3 H4 H5 H6|lz H1 H2 H3 H4 H5].
  - apply ts_same. destruct Hv as (W1 & W2 & W3 & W4). repeat split; congruence.
  - apply ts_spawn with (b := b); congruence.
  - apply ts_tls with (i := i) (b := b) (l := l) (y := y) (k := k); try assumption; congruence.
  - apply ts_lazy with (lz := lz) (k := k) (x := x); try assumption; congruence.
  - apply ts_drop with (lz := lz); congruence.
Qed.

Lemma tstep_veq_r e e1 e' : tstep e e1 -> veq e1 e' -> tstep e e'.
Proof. intros H V. exact (tstep_veq e e1 e e' (veq_refl e) V H). Qed.

Lemma tstep_veq_l e e1 e' : veq e e1 -> tstep e1 e' -> tstep e e'.
Proof. intros V H. exact (tstep_veq e1 e' e e' V (veq_refl e') H). Qed.

Lemma existsb_eqb_false k l : existsb (Nat.eqb k) l = false -> ~ In k l.
Proof.
  intros H Hin. assert (Ht : existsb (Nat.eqb k) l = true).
  { apply existsb_exists. exists k. split; [exact Hin|apply Nat.eqb_refl]. }
  congruence.
Qed.

Lemma existsb_eqb_true k l : existsb (Nat.eqb k) l = true -> In k l.
Proof.
  intros H. apply existsb_exists in H. destruct H as (x & Hx & He).
  apply Nat.eqb_eq in He. subst x. exact Hx.
Qed.

Lemma find_key_none (B : Type) k (lz : list (nat * B)) :
  find (fun x => Nat.eqb (fst x) k) lz = None -> ~ In k (map fst lz).
Proof.
  intros H Hin. apply in_map_iff in Hin. destruct Hin as (x & Hx & Hin).
  pose proof (find_none _ _ H x Hin) as Hf. cbv beta in Hf. rewrite Hx, Nat.eqb_refl in Hf. discriminate.
Qed.

Lemma find_key_some (B : Type) k (lz : list (nat * B)) x :
  find (fun x => Nat.eqb (fst x) k) lz = Some x -> In k (map fst lz).
Proof.
  intros H. apply find_some in H. destruct H as [Hin Hk]. apply Nat.eqb_eq in Hk. subst k.
  apply in_map. exact Hin.
Qed.

(* the waker substitution of block_on does not touch the lazy-static micro-operations *)
Lemma ykeys_subst_waker n k c : forall u, ykeys (subst_waker n k u c) = ykeys c.
Proof.
  induction c as [|m c IH]; intros u; [reflexivity|].
  destruct m; cbn [subst_waker]; try (change (ykeys (?a :: ?b)) with (ykey a ++ ykeys b); rewrite IH; reflexivity).
  - destruct u; change (ykeys (?a :: ?b)) with (ykey a ++ ykeys b); rewrite IH; reflexivity.
  - destruct u; change (ykeys (?a :: ?b)) with (ykey a ++ ykeys b); rewrite IH; reflexivity.
Qed.

Lemma append_thread_tstep e e0 nt b :
  veq e e0 -> bt nt = (b, ([], ykeys (nth b (e_bodies e) []))) ->
  tstep e (ex_set_threads e0 (e_threads e0 ++ [nt])).
Proof.
  intros (V1 & V2 & V3 & V4) Hnt. apply ts_spawn with (b := b); [|assumption..].
  unfold tsig at 1. cbn [ex_set_threads e_threads]. rewrite map_app. cbn [map]. rewrite Hnt.
  fold (tsig e0). rewrite V1. reflexivity.
Qed.

Lemma spawn_tstep e me b : tstep e (res_exec (exec_micro e me (MSpawn b))).
Proof.
  cbn [exec_micro]. cbv zeta.
  match goal with |- context [ex_set_objects e ?l] => set (e0 := ex_set_objects e l) end.
  assert (H0 : veq e e0) by (apply veq_same; reflexivity).
  destruct (negb (Nat.ltb (length (e_threads e0)) (e_max_threads e0))); cbn [res_exec]; [apply ts_same, H0|].
  match goal with |- context [ex_set_threads e0 (e_threads e0 ++ [?t])] =>
    apply tstep_veq_r with (e1 := ex_set_threads e0 (e_threads e0 ++ [t]));
      [apply (append_thread_tstep e e0 t b H0); reflexivity|vclose] end.
Qed.

Lemma spawnw_tstep e me b n k : tstep e (res_exec (exec_micro e me (MSpawnW b n k))).
Proof.
  cbn [exec_micro]. cbv zeta.
  match goal with |- context [ex_set_objects e ?l] => set (e0 := ex_set_objects e l) end.
  assert (H0 : veq e e0) by (apply veq_same; reflexivity).
  destruct (negb (Nat.ltb (length (e_threads e0)) (e_max_threads e0))); cbn [res_exec]; [apply ts_same, H0|].
  match goal with |- context [ex_set_threads e0 (e_threads e0 ++ [?t])] =>
    apply tstep_veq_r with (e1 := ex_set_threads e0 (e_threads e0 ++ [t]));
      [apply (append_thread_tstep e e0 t b H0)|vclose] end.
  unfold bt, th_set_dpor, th_set_caus, thread_new. cbn [t_body t_tls t_cont].
  rewrite ykeys_subst_waker. reflexivity.
Qed.

(* MTlsWith *)
Lemma tls_with_tstep e me k : tstep e (res_exec (exec_micro e me (MTlsWith k))).
Proof.
  cbn [exec_micro]. destruct (get_thread e me) as [t|] eqn:Ht; cbn [res_exec]; [|apply ts_same, veq_refl].
  destruct (existsb (Nat.eqb k) (t_tls t)) eqn:Hk; cbn [res_exec].
  - apply ts_same. vclose.
  - match goal with |- tstep _ (log_op ?E _ _) => eapply tstep_veq_r with (e1 := E); [|vclose] end.
    apply ts_tls with (i := me) (b := t_body t) (l := t_tls t) (y := ykeys (t_cont t)) (k := k).
    + unfold tsig. rewrite nth_error_map. unfold get_thread in Ht. rewrite Ht. reflexivity.
    + apply existsb_eqb_false, Hk.
    + unfold tsig, upd_thread. cbn [ex_set_threads ex_set_log e_threads].
      unfold list_upd. unfold get_thread in Ht. rewrite Ht. rewrite map_list_set. reflexivity.
    + reflexivity.
    + reflexivity.
    + reflexivity.
Qed.

Lemma filter_all_true (A : Type) (f : A -> bool) l : (forall x, In x l -> f x = true) -> filter f l = l.
Proof.
  induction l as [|h t IH]; intros H; cbn [filter]; [reflexivity|].
  rewrite (H h (or_introl eq_refl)). f_equal. apply IH. intros x Hx. apply H. right. exact Hx.
Qed.

(* MLazyDrop *)
Lemma lazy_drop_tstep e me : tstep e (res_exec (exec_micro e me MLazyDrop)).
Proof.
  cbn [exec_micro]. destruct (e_lazy e) as [lz|] eqn:Hl; cbn [res_exec]; [|apply ts_same, veq_refl].
  apply ts_drop with (lz := lz); try reflexivity; [exact Hl|].
  unfold inits. cbn [ex_set_lazy ex_set_log e_log]. rewrite filter_app. f_equal.
  apply filter_all_true. intros x Hx. apply in_rev in Hx. apply in_map_iff in Hx.
  destruct Hx as (a & <- & _). reflexivity.
Qed.

(* MLazyGet: the tail after the registry lookup (the read of the cell) *)
Definition lazy_tail (e : exec) (me ci k : nat) : mres :=
  let e := causality_inc e me in
  match get_cell e ci with
  | None => MFail e (PanicModel 25)
  | Some s =>
      if ce_writing s then MFail e PanicCellWriting
      else match cell_track_read s (caus_of e me) with
           | inr p => MFail e p
           | inl s1 =>
               match cell_track_read s1 (caus_of e me) with
               | inr p => MFail e p
               | inl s2 => MOk (log_op (upd_object e ci (fun _ => OCell s2)) me (RVal (N.of_nat (41 + k))))
               end
           end
  end.

Lemma lazy_tail_veq e me ci k : veq e (res_exec (lazy_tail e me ci k)).
Proof. unfold lazy_tail. cbv zeta. repeat vstep. all: vclose. Qed.

(* the registry lookup / initialisation *)
Definition lazy_lookup (e : exec) (me k : nat) (lz : list (nat * (nat * vv))) : (exec * nat) + panic :=
  match find (fun x => Nat.eqb (fst x) k) lz with
  | Some (_, (ci, sy)) => inl (set_caus e me (sync_load (caus_of e me) sy Acquire), ci)
  | None =>
      let e := ex_set_log e (LInitLazy k :: e_log e) in
      let ci := length (e_objects e) in
      let e := ex_set_objects e (e_objects e ++ [OCell (cell_new (caus_of e me))]) in
      let e := causality_inc e me in
      match get_cell e ci with
      | None => inr (PanicModel 25)
      | Some s =>
          match cell_track_write s (caus_of e me) with
          | inr p => inr p
          | inl s1 =>
              match cell_track_write s1 (caus_of e me) with
              | inr p => inr p
              | inl s2 =>
                  let e := upd_object e ci (fun _ => OCell s2) in
                  let sy := sync_store vv_new (caus_of e me) (rel_of e me) AcqRel in
                  let e := ex_set_lazy e (Some (lz ++ [(k, (ci, sy))])) in
                  inl (set_caus e me (sync_load (caus_of e me) sy Acquire), ci)
              end
          end
      end
  end.

Lemma exec_micro_lazy_get e me k :
  exec_micro e me (MLazyGet k) =
  match e_lazy e with
  | None => MFail e PanicLazyShutdown
  | Some lz =>
      match lazy_lookup e me k lz with
      | inr p => MFail e p
      | inl (e1, ci) => lazy_tail e1 me ci k
      end
  end.
Proof. reflexivity. Qed.

Lemma lazy_lookup_tstep e me k lz e1 ci :
  e_lazy e = Some lz -> lazy_lookup e me k lz = inl (e1, ci) ->
  (exists sy, find (fun x => Nat.eqb (fst x) k) lz = Some (k, (ci, sy)) /\
              e1 = set_caus e me (sync_load (caus_of e me) sy Acquire)) \/
  (find (fun x => Nat.eqb (fst x) k) lz = None /\
   exists sy, e_lazy e1 = Some (lz ++ [(k, (ci, sy))]) /\
              inits e1 = LInitLazy k :: inits e /\ tsig e1 = tsig e /\ e_bodies e1 = e_bodies e /\
              vle (caus_of e me) sy).
Proof.
  intros Hl H. unfold lazy_lookup in H.
  destruct (find (fun x => Nat.eqb (fst x) k) lz) as [[k' [ci' sy]]|] eqn:Hf.
  - left. injection H as <- <-. exists sy. split; [|reflexivity].
    apply find_some in Hf. destruct Hf as [_ Hk]. cbn [fst] in Hk. apply Nat.eqb_eq in Hk. subst k'.
    reflexivity.
  - right. split; [reflexivity|]. cbv zeta in H.
    repeat match type of H with
           | match ?x with _ => _ end = _ => destruct x eqn:?; try discriminate H
           end.
    injection H as <- <-. eexists. split; [reflexivity|]. split; [|split; [|split]].
    + unfold inits. reflexivity.
    + unfold tsig. cbn [set_caus upd_thread ex_set_threads ex_set_lazy upd_object ex_set_objects
                          causality_inc ex_set_log e_threads].
      rewrite !map_bt_list_upd by bt_tac. reflexivity.
    + reflexivity.
    + eapply vle_trans; [|apply sync_store_rel; reflexivity].
      rewrite caus_of_upd_object.
      match goal with |- vle _ (caus_of ?E me) => assert (Hm : mono e E) end.
      { mclose. eapply mono_trans;
          [|exact (mono_append_objects (ex_set_log e (LInitLazy k :: e_log e)) _)].
        apply mono_same; reflexivity. }
      destruct Hm as (_ & Hc & _). apply Hc.
Qed.

Lemma lazy_get_tstep e me k : tstep e (res_exec (exec_micro e me (MLazyGet k))).
Proof.
  rewrite exec_micro_lazy_get. destruct (e_lazy e) as [lz|] eqn:Hl; cbn [res_exec]; [|apply ts_same, veq_refl].
  destruct (lazy_lookup e me k lz) as [[e1 ci]|p] eqn:Hlk; cbn [res_exec]; [|apply ts_same, veq_refl].
  eapply tstep_veq_r; [|apply lazy_tail_veq].
  destruct (lazy_lookup_tstep e me k lz e1 ci Hl Hlk) as [(sy & _ & ->)|(Hf & sy & H1 & H2 & H3 & H4 & _)].
  - apply ts_same. vclose.
  - eapply ts_lazy; try eassumption. apply find_key_none, Hf.
Qed.

(* every micro-operation but the two of a yielding initialiser *)
Theorem exec_micro_tstep e me m : ykey m = [] -> tstep e (res_exec (exec_micro e me m)).
Proof.
  intros Hy.
  destruct m; try discriminate Hy; try (apply ts_same, exec_micro_veq; exact I);
    first [ apply spawn_tstep | apply spawnw_tstep | apply tls_with_tstep
          | apply lazy_get_tstep | apply lazy_drop_tstep ].
Qed.

(* ---- MLazyGetY / MLazyFinishY: the steps of Scheduler::run that execute them ----
   The micro-operation is taken off the continuation (which changes the view)
   and executed; the four outcomes, as changes of the view of thread i:
     yk_skip   MLazyGetY k finds the registry shut (panic) or k registered
               (continues with MLazyGet k)
     yk_init   MLazyGetY k runs the initialiser: LInitLazy k is logged and
               MLazyFinishY k _ is pushed behind the yield
     yk_reg    MLazyFinishY k _ registers k (nobody else did meanwhile)
     yk_lose   MLazyFinishY k _ finds k registered by another thread, or the
               registry shut: the value built by this thread is dropped *)
Inductive ykind (k : nat) (lzo : option (list (nat * (nat * vv)))) :
  bool -> list (bool * nat) -> list logline -> option (list (nat * (nat * vv))) -> Prop :=
  | yk_skip : ykind k lzo false [] [] lzo
  | yk_init : ykind k lzo false [(true, k)] [LInitLazy k] lzo
  | yk_reg lz x : lzo = Some lz -> ~ In k (map fst lz) -> ykind k lzo true [] [] (Some (lz ++ [(k, x)]))
  | yk_lose : match lzo with Some lz => In k (map fst lz) | None => True end ->
              ykind k lzo true [] [LDropLazy k] lzo.

(* thread i gives up the head (f, k) of its keys for the keys ny; the lines li
   are logged and the registry becomes lzo' *)
Inductive ystep (e e' : exec) : Prop :=
  | ys i b l f k y ny li lzo' :
      nth_error (tsig e) i = Some (b, (l, (f, k) :: y)) -> ykind k (e_lazy e) f ny li lzo' ->
      tsig e' = list_set (tsig e) i (b, (l, ny ++ y)) -> inits e' = li ++ inits e ->
      e_lazy e' = lzo' -> e_bodies e' = e_bodies e -> ystep e e'.

Lemma ystep_veq_r e e1 e' : ystep e e1 -> veq e1 e' -> ystep e e'.
Proof.
  intros [i b l f k y ny li lzo' H1 HK H2 H3 H4 H5] (V1 & V2 & V3 & V4).
  apply ys with (1 := H1) (2 := HK); congruence.
Qed.

Lemma pop_view e me t m rest :
  nth_error (e_threads e) me = Some t -> t_cont t = m :: rest ->
  nth_error (tsig e) me = Some (t_body t, (t_tls t, ykey m ++ ykeys rest)) /\
  tsig (upd_thread e me (fun t => th_set_cont t rest)) =
  list_set (tsig e) me (t_body t, (t_tls t, ykeys rest)).
Proof.
  intros Ht Hc. split.
  - unfold tsig. rewrite nth_error_map, Ht. cbn [option_map]. unfold bt. rewrite Hc. reflexivity.
  - unfold tsig, upd_thread, list_upd. cbn [ex_set_threads e_threads]. rewrite Ht, map_list_set. reflexivity.
Qed.

Lemma tsig_push_cont e me ms b l y :
  nth_error (tsig e) me = Some (b, (l, y)) ->
  tsig (push_cont e me ms) = list_set (tsig e) me (b, (l, ykeys ms ++ y)).
Proof.
  intros H. unfold tsig in *. rewrite nth_error_map in H.
  destruct (nth_error (e_threads e) me) as [t|] eqn:Ht; [|discriminate H].
  cbn [option_map] in H. unfold bt in H. injection H as H1 H2 H3.
  unfold push_cont, upd_thread, list_upd. cbn [ex_set_threads e_threads].
  rewrite Ht, map_list_set. unfold bt at 2, th_set_cont. cbn [t_body t_tls t_cont].
  rewrite ykeys_app, H1, H2, H3. reflexivity.
Qed.

Lemma list_set_list_set (A : Type) (l : list A) i x y : list_set (list_set l i x) i y = list_set l i y.
Proof.
  revert i; induction l as [|h t IH]; intros [|i]; cbn [list_set]; try reflexivity.
  rewrite IH. reflexivity.
Qed.

Lemma nth_error_tsig_lt e me x : nth_error (tsig e) me = Some x -> me < length (tsig e).
Proof. intros H. apply nth_error_Some. rewrite H. discriminate. Qed.

(* the initialiser of MLazyGetY cannot fail: the cell is new *)
Lemma getY_init_ok e me k lz :
  e_lazy e = Some lz -> find (fun x => Nat.eqb (fst x) k) lz = None ->
  exists e1 ci, exec_micro e me (MLazyGetY k) = MOk (push_cont e1 me [MYield; MLazyFinishY k ci]) /\
                veq (ex_set_log e (LInitLazy k :: e_log e)) e1.
Proof.
  intros Hl Hf. cbn [exec_micro]. rewrite Hl, Hf. cbv zeta.
  set (e0 := ex_set_log e (LInitLazy k :: e_log e)).
  set (c0 := caus_of e0 me).
  set (e1 := causality_inc (ex_set_objects e0 (e_objects e0 ++ [OCell (cell_new c0)])) me).
  assert (Hg : get_cell e1 (length (e_objects e0)) = Some (cell_new c0)).
  { unfold get_cell, e1, causality_inc, upd_thread. cbn [ex_set_threads ex_set_objects e_objects].
    rewrite nth_error_app2 by apply Nat.le_refl. rewrite Nat.sub_diag. reflexivity. }
  rewrite Hg.
  assert (Hc : vle c0 (caus_of e1 me)).
  { pose proof (mono_causality_inc_k _ _ me
                  (mono_refl (ex_set_objects e0 (e_objects e0 ++ [OCell (cell_new c0)])))) as Hm.
    destruct Hm as (_ & Hcm & _). exact (Hcm me). }
  unfold cell_track_write at 1. unfold cell_new at 1 2. cbn [ce_write ce_read ce_reading ce_writing].
  rewrite (proj2 (vv_ahead_none (caus_of e1 me) c0) Hc).
  unfold cell_track_write, cell_new. cbn [ce_write ce_read ce_reading ce_writing].
  rewrite (proj2 (vv_ahead_none (caus_of e1 me) (vv_join c0 (caus_of e1 me)))
             (vle_join_lub _ _ _ Hc (vle_refl _))).
  rewrite (proj2 (vv_ahead_none (caus_of e1 me) c0) Hc).
  eexists. eexists. split; [reflexivity|].
  unfold e1. vclose.
Qed.

(* MLazyGetY k, from the state in which it heads thread me's continuation *)
Lemma getY_ystep e me t k rest :
  nth_error (e_threads e) me = Some t -> t_cont t = MLazyGetY k :: rest ->
  ystep e (res_exec (exec_micro (upd_thread e me (fun t => th_set_cont t rest)) me (MLazyGetY k))).
Proof.
  intros Ht Hc.
  set (ep := upd_thread e me (fun t => th_set_cont t rest)).
  destruct (pop_view e me t _ rest Ht Hc) as [Hn Hp]. cbn [ykey app] in Hn. fold ep in Hp.
  assert (Hskip : ystep e ep).
  { exact (ys e ep me _ _ _ _ _ _ _ _ Hn (yk_skip k _) Hp eq_refl eq_refl eq_refl). }
  destruct (e_lazy ep) as [lz|] eqn:Hl.
  - destruct (find (fun x => Nat.eqb (fst x) k) lz) as [x|] eqn:Hf.
    + cbn [exec_micro]. rewrite Hl, Hf. cbn [res_exec].
      eapply ystep_veq_r; [exact Hskip|]. vclose.
    + destruct (getY_init_ok ep me k lz Hl Hf) as (e1 & ci & -> & Hv). cbn [res_exec].
      destruct Hv as (V1 & V2 & V3 & V4).
      assert (Hn1 : nth_error (tsig e1) me = Some (t_body t, (t_tls t, ykeys rest))).
      { rewrite V1. change (tsig (ex_set_log ep (LInitLazy k :: e_log ep))) with (tsig ep).
        rewrite Hp. apply nth_error_list_set_same. eapply nth_error_tsig_lt. exact Hn. }
      apply ys with (1 := Hn) (2 := yk_init k _).
      * rewrite (tsig_push_cont e1 me _ _ _ _ Hn1). rewrite V1.
        change (tsig (ex_set_log ep (LInitLazy k :: e_log ep))) with (tsig ep).
        rewrite Hp, list_set_list_set. reflexivity.
      * change (inits (push_cont e1 me [MYield; MLazyFinishY k ci])) with (inits e1). rewrite V2. reflexivity.
      * change (e_lazy (push_cont e1 me [MYield; MLazyFinishY k ci])) with (e_lazy e1). exact V3.
      * change (e_bodies (push_cont e1 me [MYield; MLazyFinishY k ci])) with (e_bodies e1). rewrite V4. reflexivity.
  - cbn [exec_micro]. rewrite Hl. cbn [res_exec]. exact Hskip.
Qed.

(* MLazyFinishY k ci, likewise *)
Lemma finY_ystep e me t k ci rest :
  nth_error (e_threads e) me = Some t -> t_cont t = MLazyFinishY k ci :: rest ->
  ystep e (res_exec (exec_micro (upd_thread e me (fun t => th_set_cont t rest)) me (MLazyFinishY k ci))).
Proof.
  intros Ht Hc.
  set (ep := upd_thread e me (fun t => th_set_cont t rest)).
  destruct (pop_view e me t _ rest Ht Hc) as [Hn Hp]. cbn [ykey app] in Hn. fold ep in Hp.
  cbn [exec_micro]. destruct (e_lazy ep) as [lz|] eqn:Hl.
  - destruct (find (fun x => Nat.eqb (fst x) k) lz) as [x|] eqn:Hf; cbn [res_exec].
    + match goal with |- ystep _ (push_cont ?E _ _) => eapply ystep_veq_r with (e1 := E); [|vclose] end.
      apply ys with (1 := Hn) (ny := []) (li := [LDropLazy k]) (lzo' := e_lazy e);
        [apply yk_lose|exact Hp|reflexivity..].
      change (e_lazy e) with (e_lazy ep). rewrite Hl. eapply find_key_some. exact Hf.
    + match goal with |- ystep _ (push_cont ?E _ _) => eapply ystep_veq_r with (e1 := E); [|vclose] end.
      eapply ys with (1 := Hn) (ny := []) (li := []);
        [apply yk_reg; [exact Hl|apply find_key_none; exact Hf]|exact Hp|reflexivity..].
  - cbn [res_exec].
    apply ys with (1 := Hn) (ny := []) (li := [LDropLazy k]) (lzo' := e_lazy e);
      [apply yk_lose|exact Hp|reflexivity..].
    change (e_lazy e) with (e_lazy ep). rewrite Hl. exact I.
Qed.

(* ================================================================== *)
(* 3. The invariant                                                    *)
(* ================================================================== *)

Definition is_tls (k b : nat) (x : logline) : bool :=
  match x with LInitTls k' b' => Nat.eqb k' k && Nat.eqb b' b | _ => false end.
Definition is_lazy (k : nat) (x : logline) : bool :=
  match x with LInitLazy k' => Nat.eqb k' k | _ => false end.
Definition is_ldrop (k : nat) (x : logline) : bool :=
  match x with LDropLazy k' => Nat.eqb k' k | _ => false end.

(* number of LInitTls k b (resp. LInitLazy k, LDropLazy k) entries of a log *)
Definition cnt_tls (k b : nat) (l : list logline) : nat := length (filter (is_tls k b) l).
Definition cnt_lazy (k : nat) (l : list logline) : nat := length (filter (is_lazy k) l).
Definition cnt_ldrop (k : nat) (l : list logline) : nat := length (filter (is_ldrop k) l).

(* thread entry (body, (keys, _)) counts for (k, b) *)
Definition hit (k b : nat) (x : tview) : bool :=
  Nat.eqb (fst x) b && existsb (Nat.eqb k) (fst (snd x)).

(* the lazy-static micro-operations held by all continuations; pendf k: the
   number of initialisers of k in flight (MLazyFinishY k _ in a continuation) *)
Definition ysel (x : tview) : list (bool * nat) := snd (snd x).
Definition yall (ts : list tview) : list (bool * nat) := flat_map ysel ts.
Definition is_pf (k : nat) (x : bool * nat) : bool := fst x && Nat.eqb (snd x) k.
Definition pendf (k : nat) (ts : list tview) : nat := length (filter (is_pf k) (yall ts)).

(* 1 if k is registered *)
Definition reg (k : nat) (lz : list (nat * (nat * vv))) : nat :=
  if existsb (Nat.eqb k) (map fst lz) then 1 else 0.

(* k is the key of a yielding lazy static of the program *)
Definition bmention (k : nat) (bodies : list (list micro)) : Prop :=
  exists c x, In c bodies /\ In x (ykeys c) /\ snd x = k.

(* the balance: initialisers run = registered + values dropped + in flight.
   After the shutdown the registered values of the keys below 8 have been
   dropped too (MLazyDrop logs those keys only). *)
Definition lazy_inv (lzo : option (list (nat * (nat * vv)))) (l : list logline) (ts : list tview) : Prop :=
  match lzo with
  | Some lz => NoDup (map fst lz) /\
               forall k, cnt_lazy k l = reg k lz + cnt_ldrop k l + pendf k ts
  | None => forall k, cnt_ldrop k l + pendf k ts <= cnt_lazy k l /\
                      cnt_lazy k l <= cnt_ldrop k l + pendf k ts + 1 /\
                      (k < 8 -> cnt_lazy k l = cnt_ldrop k l + pendf k ts)
  end.

(* the keys without yielding initialiser: nothing is dropped before the
   shutdown; at most one initialisation ever *)
Definition lazy_inv1 (lzo : option (list (nat * (nat * vv)))) (l : list logline)
           (bodies : list (list micro)) : Prop :=
  forall k, ~ bmention k bodies ->
    match lzo with Some _ => cnt_ldrop k l = 0 | None => cnt_lazy k l <= 1 end.

Definition tl_inv (e : exec) : Prop :=
  Forall (fun x => NoDup (fst (snd x))) (tsig e) /\
  (forall k b, cnt_tls k b (inits e) = length (filter (hit k b) (tsig e))) /\
  lazy_inv (e_lazy e) (inits e) (tsig e) /\
  lazy_inv1 (e_lazy e) (inits e) (e_bodies e) /\
  (forall c x, In c (e_bodies e) -> In x (ykeys c) -> fst x = false) /\
  (forall x, In x (yall (tsig e)) -> bmention (snd x) (e_bodies e)).

Lemma filter_filter_imp (A : Type) (f g : A -> bool) l :
  (forall x, f x = true -> g x = true) -> filter f (filter g l) = filter f l.
Proof.
  intros H. induction l as [|h t IH]; cbn [filter]; [reflexivity|].
  destruct (g h) eqn:Hg; cbn [filter].
  - rewrite IH. reflexivity.
  - destruct (f h) eqn:Hf; [rewrite (H h Hf) in Hg; discriminate|exact IH].
Qed.

Lemma cnt_tls_inits k b e : cnt_tls k b (inits e) = cnt_tls k b (e_log e).
Proof.
  unfold cnt_tls, inits. rewrite filter_filter_imp; [reflexivity|].
  intros [] H; cbn in *; congruence.
Qed.

Lemma cnt_lazy_inits k e : cnt_lazy k (inits e) = cnt_lazy k (e_log e).
Proof.
  unfold cnt_lazy, inits. rewrite filter_filter_imp; [reflexivity|].
  intros [] H; cbn in *; congruence.
Qed.

Lemma cnt_ldrop_inits k e : cnt_ldrop k (inits e) = cnt_ldrop k (e_log e).
Proof.
  unfold cnt_ldrop, inits. rewrite filter_filter_imp; [reflexivity|].
  intros [] H; cbn in *; congruence.
Qed.

Lemma veq_inv e e' : veq e e' -> tl_inv e -> tl_inv e'.
Proof. intros (V1 & V2 & V3 & V4). unfold tl_inv. rewrite V1, V2, V3, V4. auto. Qed.

Lemma NoDup_snoc (A : Type) (l : list A) x : NoDup l -> ~ In x l -> NoDup (l ++ [x]).
Proof.
  intros Hl Hx. apply NoDup_rev in Hl. rewrite <- (rev_involutive (l ++ [x])).
  apply NoDup_rev. rewrite rev_app_distr. cbn [rev app]. constructor; [|exact Hl].
  rewrite <- in_rev. exact Hx.
Qed.

Lemma existsb_snoc k l x : existsb (Nat.eqb k) (l ++ [x]) = existsb (Nat.eqb k) l || Nat.eqb k x.
Proof. rewrite existsb_app. cbn [existsb]. rewrite orb_false_r. reflexivity. Qed.

(* ---- the continuations' keys under a change of one thread's view ---- *)
Lemma yall_list_set ts : forall i x x', nth_error ts i = Some x ->
  exists pre post, yall ts = pre ++ ysel x ++ post /\ yall (list_set ts i x') = pre ++ ysel x' ++ post.
Proof.
  induction ts as [|h t IH]; intros [|i] x x' H; cbn [nth_error] in H; try discriminate H.
  - injection H as ->. exists [], (yall t). split; reflexivity.
  - destruct (IH i x x' H) as (pre & post & E1 & E2). exists (ysel h ++ pre), post.
    unfold yall in *. cbn [list_set flat_map]. rewrite E1, E2, <- !app_assoc. split; reflexivity.
Qed.

Lemma pendf_list_set ts i x x' k : nth_error ts i = Some x ->
  pendf k (list_set ts i x') + length (filter (is_pf k) (ysel x)) =
  pendf k ts + length (filter (is_pf k) (ysel x')).
Proof.
  intros H. destruct (yall_list_set ts i x x' H) as (pre & post & E1 & E2).
  unfold pendf. rewrite E1, E2, !filter_app, !app_length. lia.
Qed.

Lemma yall_list_set_in ts i x x' z : nth_error ts i = Some x ->
  In z (yall (list_set ts i x')) -> In z (yall ts) \/ In z (ysel x').
Proof.
  intros H Hz. destruct (yall_list_set ts i x x' H) as (pre & post & E1 & E2).
  rewrite E2 in Hz. rewrite E1. apply in_app_or in Hz. destruct Hz as [Hz|Hz].
  - left. apply in_or_app. left. exact Hz.
  - apply in_app_or in Hz. destruct Hz as [Hz|Hz]; [right; exact Hz|].
    left. apply in_or_app. right. apply in_or_app. right. exact Hz.
Qed.

Lemma yall_nth_in ts i x z : nth_error ts i = Some x -> In z (ysel x) -> In z (yall ts).
Proof.
  intros H Hz. unfold yall. apply in_flat_map. exists x. split; [eapply nth_error_In; exact H|exact Hz].
Qed.

Lemma yall_list_set_same ts i x x' : nth_error ts i = Some x -> ysel x' = ysel x ->
  yall (list_set ts i x') = yall ts.
Proof.
  intros H Hs. destruct (yall_list_set ts i x x' H) as (pre & post & E1 & E2).
  rewrite E1, E2, Hs. reflexivity.
Qed.

Lemma pendf_zero k ts : (forall x, In x (yall ts) -> snd x <> k) -> pendf k ts = 0.
Proof.
  intros H. unfold pendf. induction (yall ts) as [|h t IH]; [reflexivity|]. cbn [filter].
  assert (Hh : is_pf k h = false).
  { unfold is_pf. destruct (Nat.eqb_spec (snd h) k) as [He|He]; [|apply andb_false_r].
    destruct (H h (or_introl eq_refl) He). }
  rewrite Hh. apply IH. intros x Hx. apply H. right. exact Hx.
Qed.

Lemma pendf_not_mentioned k ts bodies :
  (forall x, In x (yall ts) -> bmention (snd x) bodies) -> ~ bmention k bodies -> pendf k ts = 0.
Proof. intros Hm Hk. apply pendf_zero. intros x Hx He. apply Hk. rewrite <- He. apply Hm, Hx. Qed.

Lemma filter_pf_nofin k l : (forall x, In x l -> fst x = false) -> filter (is_pf k) l = [].
Proof.
  induction l as [|h t IH]; intros H; cbn [filter]; [reflexivity|].
  unfold is_pf at 1. rewrite (H h (or_introl eq_refl)). cbn [andb]. apply IH.
  intros x Hx. apply H. right. exact Hx.
Qed.

Lemma lazy_inv_pendf lzo l ts ts' :
  (forall k, pendf k ts' = pendf k ts) -> lazy_inv lzo l ts -> lazy_inv lzo l ts'.
Proof.
  intros Hp. unfold lazy_inv. destruct lzo as [lz|].
  - intros [Hnd Hc]. split; [exact Hnd|]. intros k. rewrite Hp. apply Hc.
  - intros Hc k. rewrite Hp. apply Hc.
Qed.

(* ---- counting log entries ---- *)
Lemma cnt_lazy_cons_init k k' l :
  cnt_lazy k' (LInitLazy k :: l) = (if Nat.eqb k k' then 1 else 0) + cnt_lazy k' l.
Proof. unfold cnt_lazy. cbn [filter is_lazy]. destruct (Nat.eqb k k'); reflexivity. Qed.

Lemma cnt_ldrop_cons_drop k k' l :
  cnt_ldrop k' (LDropLazy k :: l) = (if Nat.eqb k k' then 1 else 0) + cnt_ldrop k' l.
Proof. unfold cnt_ldrop. cbn [filter is_ldrop]. destruct (Nat.eqb k k'); reflexivity. Qed.

Lemma reg_snoc k k' lz x : ~ In k (map fst lz) ->
  reg k' (lz ++ [(k, x)]) = reg k' lz + (if Nat.eqb k k' then 1 else 0).
Proof.
  intros Hk. unfold reg. rewrite map_app. cbn [map fst]. rewrite existsb_snoc.
  destruct (existsb (Nat.eqb k') (map fst lz)) eqn:Hex; cbn [orb].
  - destruct (Nat.eqb_spec k k') as [->|Hne]; [|reflexivity].
    apply existsb_eqb_true in Hex. contradiction.
  - rewrite (Nat.eqb_sym k' k). destruct (Nat.eqb k k'); reflexivity.
Qed.

Lemma reg_le1 k lz : reg k lz <= 1.
Proof. unfold reg. destruct (existsb _ _); lia. Qed.

Lemma reg_in k lz : In k (map fst lz) -> reg k lz = 1.
Proof.
  intros H. unfold reg. destruct (existsb (Nat.eqb k) (map fst lz)) eqn:Hex; [reflexivity|].
  apply existsb_eqb_false in Hex. contradiction.
Qed.

Lemma existsb_fst_map (B : Type) k (lz : list (nat * B)) :
  existsb (fun x => Nat.eqb (fst x) k) lz = existsb (Nat.eqb k) (map fst lz).
Proof.
  induction lz as [|h t IH]; [reflexivity|]. cbn [existsb map]. rewrite IH, (Nat.eqb_sym k (fst h)). reflexivity.
Qed.

Lemma count_seq_filter (P : nat -> bool) k : forall n a,
  length (filter (fun j => Nat.eqb j k) (filter P (seq a n))) =
  if Nat.leb a k && Nat.ltb k (a + n) && P k then 1 else 0.
Proof.
  induction n as [|n IH]; intros a; cbn [seq filter].
  - destruct (Nat.leb_spec a k), (Nat.ltb_spec k (a + 0)); cbn [andb length]; try reflexivity. lia.
  - destruct (P a) eqn:Hp; cbn [filter].
    + destruct (Nat.eqb_spec a k) as [->|Hne]; cbn [length]; rewrite IH.
      * rewrite Hp. destruct (Nat.leb_spec (S k) k), (Nat.leb_spec k k), (Nat.ltb_spec k (k + S n));
          cbn [andb]; try reflexivity; lia.
      * destruct (Nat.leb_spec (S a) k), (Nat.leb_spec a k), (Nat.ltb_spec k (S a + n)),
          (Nat.ltb_spec k (a + S n)); cbn [andb]; try reflexivity; lia.
    + rewrite IH. destruct (Nat.eqb_spec a k) as [->|Hne].
      * rewrite Hp, !andb_false_r. reflexivity.
      * destruct (Nat.leb_spec (S a) k), (Nat.leb_spec a k), (Nat.ltb_spec k (S a + n)),
          (Nat.ltb_spec k (a + S n)); cbn [andb]; try reflexivity; lia.
Qed.

Lemma cnt_dkeys k lz :
  length (filter (fun j => Nat.eqb j k) (dkeys lz)) = if Nat.ltb k 8 then reg k lz else 0.
Proof.
  unfold dkeys. rewrite count_seq_filter. cbn [Nat.leb andb plus]. unfold reg.
  rewrite existsb_fst_map. destruct (Nat.ltb k 8); reflexivity.
Qed.

Lemma cnt_lazy_drops k ks l : cnt_lazy k (rev (map LDropLazy ks) ++ l) = cnt_lazy k l.
Proof.
  unfold cnt_lazy. rewrite filter_app_none; [reflexivity|].
  intros x Hx. apply in_rev in Hx. apply in_map_iff in Hx. destruct Hx as (a & <- & _). reflexivity.
Qed.

Lemma filter_rev_length (A : Type) (f : A -> bool) l : length (filter f (rev l)) = length (filter f l).
Proof.
  induction l as [|h t IH]; [reflexivity|]. cbn [rev filter]. rewrite filter_app, app_length, IH.
  cbn [filter]. destruct (f h); cbn [length]; lia.
Qed.

Lemma cnt_ldrop_drops k ks l :
  cnt_ldrop k (rev (map LDropLazy ks) ++ l) = length (filter (fun j => Nat.eqb j k) ks) + cnt_ldrop k l.
Proof.
  unfold cnt_ldrop. rewrite filter_app, app_length, filter_rev_length. f_equal.
  induction ks as [|h t IH]; [reflexivity|]. cbn [map filter is_ldrop].
  destruct (Nat.eqb h k); cbn [length]; rewrite IH; reflexivity.
Qed.

(* ---- preservation ---- *)
Lemma tstep_inv e e' : tstep e e' -> tl_inv e -> tl_inv e'.
Proof.
  intros H (I1 & I2 & I3 & I4 & I5 & I6).
  destruct H as [Hv|b H1 H2 H3 H4|i b l y k H1 H2 H3 H4 H5 H6|lz k x H1 H2 H3 H4 H5 H6|lz H1 H2 H3 H4 H5].
  - apply (veq_inv e e' Hv). exact (conj I1 (conj I2 (conj I3 (conj I4 (conj I5 I6))))).
  - (* spawn *)
    assert (Hnf : forall z, In z (ykeys (nth b (e_bodies e) [])) -> fst z = false /\ bmention (snd z) (e_bodies e)).
    { intros z Hz. destruct (nth_in_or_default b (e_bodies e) []) as [Hin|Hd].
      - split; [eapply I5; eassumption|]. exists (nth b (e_bodies e) []), z. auto.
      - rewrite Hd in Hz. destruct Hz. }
    assert (Hya : yall (tsig e ++ [(b, ([], ykeys (nth b (e_bodies e) [])))]) =
                  yall (tsig e) ++ ykeys (nth b (e_bodies e) [])).
    { unfold yall. rewrite flat_map_app. cbn [flat_map ysel snd]. rewrite app_nil_r. reflexivity. }
    unfold tl_inv. rewrite H1, H2, H3, H4. split; [|split; [|split; [|split; [exact I4|split; [exact I5|]]]]].
    + apply Forall_app. split; [exact I1|]. constructor; [constructor|constructor].
    + intros k b'. rewrite filter_app, app_length, I2. cbn [filter].
      assert (Hh : hit k b' (b, ([], ykeys (nth b (e_bodies e) []))) = false)
        by (unfold hit; cbn [fst snd existsb]; apply andb_false_r).
      rewrite Hh. cbn [length]. lia.
    + eapply lazy_inv_pendf; [|exact I3]. intros k. unfold pendf. rewrite Hya, filter_app, app_length.
      rewrite (filter_pf_nofin k (ykeys (nth b (e_bodies e) []))); [cbn [length]; lia|].
      intros z Hz. apply (Hnf z Hz).
    + intros z Hz. rewrite Hya in Hz. apply in_app_or in Hz. destruct Hz as [Hz|Hz]; [apply I6, Hz|apply (Hnf z Hz)].
  - (* first use of a thread-local *)
    assert (Hya : yall (list_set (tsig e) i (b, (l ++ [k], y))) = yall (tsig e))
      by (eapply yall_list_set_same; [exact H1|reflexivity]).
    unfold tl_inv. rewrite H3, H4, H5, H6. split; [|split; [|split; [|split; [|split; [exact I5|]]]]].
    + apply Forall_list_set; [exact I1|]. cbn [fst snd]. apply NoDup_snoc; [|exact H2].
      rewrite Forall_forall in I1. exact (I1 _ (nth_error_In _ _ H1)).
    + intros k' b'. pose proof (filter_list_set_length _ (hit k' b') _ i (b, (l ++ [k], y)) (b, (l, y)) H1) as Hc.
      specialize (I2 k' b'). unfold cnt_tls in *. cbn [filter is_tls].
      assert (Hx : hit k' b' (b, (l, y)) = Nat.eqb b b' && existsb (Nat.eqb k') l) by reflexivity.
      assert (Hy : hit k' b' (b, (l ++ [k], y)) = Nat.eqb b b' && (existsb (Nat.eqb k') l || Nat.eqb k' k))
        by (unfold hit; cbn [fst snd]; rewrite existsb_snoc; reflexivity).
      rewrite Hx, Hy in Hc. clear Hx Hy.
      destruct (Nat.eqb_spec b b') as [->|Hb]; cbn [andb] in Hc.
      * rewrite andb_true_r.
        destruct (existsb (Nat.eqb k') l) eqn:Hex; cbn [orb] in Hc.
        -- destruct (Nat.eqb_spec k k') as [->|Hk].
           ++ apply existsb_eqb_true in Hex. contradiction.
           ++ lia.
        -- rewrite (Nat.eqb_sym k k'). destruct (Nat.eqb k' k); cbn [length]; lia.
      * rewrite andb_false_r. lia.
    + assert (I3' : lazy_inv (e_lazy e) (inits e) (list_set (tsig e) i (b, (l ++ [k], y)))).
      { eapply lazy_inv_pendf; [|exact I3]. intros k'. unfold pendf. rewrite Hya. reflexivity. }
      unfold lazy_inv in *. destruct (e_lazy e) as [lz|]; exact I3'.
    + unfold lazy_inv1 in *. intros k' Hk'. specialize (I4 k' Hk'). destruct (e_lazy e) as [lz|]; exact I4.
    + rewrite Hya. exact I6.
  - (* MLazyGet initialises and registers k *)
    unfold tl_inv. rewrite H3, H4, H5, H6. split; [exact I1|]. split; [|split; [|split; [|split; [exact I5|exact I6]]]].
    + intros k' b'. unfold cnt_tls in *. cbn [filter is_tls]. apply I2.
    + rewrite H1 in I3. destruct I3 as [Hnd Hc]. cbn [lazy_inv]. split.
      * rewrite map_app. cbn [map fst]. apply NoDup_snoc; assumption.
      * intros k'. rewrite cnt_lazy_cons_init, (reg_snoc k k' lz x H2), Hc.
        change (cnt_ldrop k' (LInitLazy k :: inits e)) with (cnt_ldrop k' (inits e)). lia.
    + rewrite H1 in I4. exact I4.
  - (* shutdown *)
    unfold tl_inv. rewrite H2, H3, H4, H5. split; [exact I1|]. split; [|split; [|split; [|split; [exact I5|exact I6]]]].
    + intros k b. unfold cnt_tls. rewrite filter_app_none; [apply I2|].
      intros x Hx. apply in_rev in Hx. apply in_map_iff in Hx. destruct Hx as (a & <- & _). reflexivity.
    + rewrite H1 in I3. destruct I3 as [_ Hc]. cbn [lazy_inv]. intros k.
      rewrite cnt_lazy_drops, cnt_ldrop_drops, cnt_dkeys, Hc.
      pose proof (reg_le1 k lz) as Hr. destruct (Nat.ltb_spec k 8); repeat split; lia.
    + rewrite H1 in I3, I4. destruct I3 as [_ Hc]. intros k Hk.
      rewrite cnt_lazy_drops, Hc, (I4 k Hk), (pendf_not_mentioned k _ _ I6 Hk).
      pose proof (reg_le1 k lz). lia.
Qed.

Lemma hit_list_set (ts : list tview) i b l y y' k b' : nth_error ts i = Some (b, (l, y)) ->
  length (filter (hit k b') (list_set ts i (b, (l, y')))) = length (filter (hit k b') ts).
Proof.
  intros H. pose proof (filter_list_set_length tview (hit k b') ts i (b, (l, y')) (b, (l, y)) H) as Hc.
  assert (He : hit k b' (b, (l, y')) = hit k b' (b, (l, y))) by reflexivity.
  rewrite He in Hc. lia.
Qed.

Lemma ykind_keys k lzo f ny li lzo' z : ykind k lzo f ny li lzo' -> In z ny -> snd z = k.
Proof. intros [| |lz x _ _|_] Hz; [destruct Hz|destruct Hz as [<-|[]]; reflexivity|destruct Hz..]. Qed.

Lemma ystep_inv e e' : ystep e e' -> tl_inv e -> tl_inv e'.
Proof.
  intros [i b l f k y ny li lzo' H1 HK H2 H3 H4 H5] (I1 & I2 & I3 & I4 & I5 & I6).
  assert (Hm : bmention k (e_bodies e)).
  { apply (I6 (f, k)). eapply yall_nth_in; [exact H1|]. left. reflexivity. }
  assert (Hp : forall k', pendf k' (list_set (tsig e) i (b, (l, ny ++ y))) +
                          (if f && Nat.eqb k k' then 1 else 0) =
                          pendf k' (tsig e) + length (filter (is_pf k') ny)).
  { intros k'. pose proof (pendf_list_set (tsig e) i _ (b, (l, ny ++ y)) k' H1) as Hc.
    cbn [ysel snd filter] in Hc. rewrite filter_app, app_length in Hc.
    unfold is_pf at 1 in Hc. cbn [fst snd] in Hc.
    destruct (f && Nat.eqb k k'); cbn [length] in Hc; lia. }
  unfold tl_inv. rewrite H2, H3, H4, H5. split; [|split; [|split; [|split; [|split; [exact I5|]]]]].
  - apply Forall_list_set; [exact I1|]. rewrite Forall_forall in I1. exact (I1 _ (nth_error_In _ _ H1)).
  - intros k' b'. rewrite (hit_list_set _ _ _ _ _ _ _ _ H1), <- I2. destruct HK; reflexivity.
  - destruct HK as [| |lz x Hl Hn|Hin]; cbn [app] in Hp |- *.
    + eapply lazy_inv_pendf; [|exact I3]. intros k'. specialize (Hp k'). cbn [andb filter length] in Hp. lia.
    + assert (Hc : forall k', exists d, cnt_lazy k' (LInitLazy k :: inits e) = d + cnt_lazy k' (inits e) /\
                                      pendf k' (list_set (tsig e) i (b, (l, (true, k) :: y))) = d + pendf k' (tsig e)).
      { intros k'. exists (if Nat.eqb k k' then 1 else 0). split; [apply cnt_lazy_cons_init|].
        specialize (Hp k'). cbn [andb filter is_pf fst snd] in Hp.
        destruct (Nat.eqb k k'); cbn [length] in Hp; lia. }
      unfold lazy_inv in *. destruct (e_lazy e) as [lz|].
      * destruct I3 as [Hn I3]. split; [exact Hn|]. intros k'. destruct (Hc k') as (d & -> & ->).
        change (cnt_ldrop k' (LInitLazy k :: inits e)) with (cnt_ldrop k' (inits e)). specialize (I3 k'). lia.
      * intros k'. destruct (Hc k') as (d & -> & ->).
        change (cnt_ldrop k' (LInitLazy k :: inits e)) with (cnt_ldrop k' (inits e)). specialize (I3 k'). lia.
    + rewrite Hl in I3. destruct I3 as [Hnd Hc]. split.
      * rewrite map_app. cbn [map fst]. apply NoDup_snoc; assumption.
      * intros k'. rewrite (reg_snoc k k' lz x Hn), Hc. specialize (Hp k'). cbn [andb filter length] in Hp. lia.
    + assert (Hc : forall k', cnt_ldrop k' (LDropLazy k :: inits e) + pendf k' (list_set (tsig e) i (b, (l, y))) =
                              cnt_ldrop k' (inits e) + pendf k' (tsig e)).
      { intros k'. rewrite cnt_ldrop_cons_drop. specialize (Hp k'). cbn [andb filter length] in Hp. lia. }
      unfold lazy_inv in *. destruct (e_lazy e) as [lz|].
      * destruct I3 as [Hn I3]. split; [exact Hn|]. intros k'. specialize (I3 k'). specialize (Hc k').
        change (cnt_lazy k' (LDropLazy k :: inits e)) with (cnt_lazy k' (inits e)). lia.
      * intros k'. specialize (I3 k'). specialize (Hc k').
        change (cnt_lazy k' (LDropLazy k :: inits e)) with (cnt_lazy k' (inits e)). lia.
  - unfold lazy_inv1 in *. intros k' Hk'. specialize (I4 k' Hk').
    destruct HK as [| |lz x Hl Hn|Hin]; cbn [app].
    + exact I4.
    + destruct (e_lazy e) as [lz|]; [exact I4|].
      rewrite cnt_lazy_cons_init. destruct (Nat.eqb_spec k k') as [->|Hne]; [contradiction|exact I4].
    + rewrite Hl in I4. exact I4.
    + destruct (e_lazy e) as [lz|]; [|exact I4].
      rewrite cnt_ldrop_cons_drop. destruct (Nat.eqb_spec k k') as [->|Hne]; [contradiction|exact I4].
  - intros z Hz. destruct (yall_list_set_in _ _ _ _ z H1 Hz) as [Hz'|Hz']; [apply I6, Hz'|].
    cbn [ysel snd] in Hz'. apply in_app_or in Hz'. destruct Hz' as [Hz'|Hz'].
    + rewrite (ykind_keys _ _ _ _ _ _ z HK Hz'). exact Hm.
    + apply I6. eapply yall_nth_in; [exact H1|]. right. exact Hz'.
Qed.

Theorem exec_micro_inv e me m :
  ykey m = [] -> tl_inv e -> tl_inv (res_exec (exec_micro e me m)).
Proof. intros Hy. apply tstep_inv, exec_micro_tstep, Hy. Qed.

(* taking a micro-operation other than MLazyGetY / MLazyFinishY off the continuation *)
Lemma pop_veq e me t m rest :
  nth_error (e_threads e) me = Some t -> t_cont t = m :: rest -> ykey m = [] ->
  veq e (upd_thread e me (fun t => th_set_cont t rest)).
Proof.
  intros Ht Hc Hy. destruct (pop_view e me t m rest Ht Hc) as [Hn Hp]. rewrite Hy in Hn.
  split; [|repeat split]. rewrite Hp. apply list_set_id, Hn.
Qed.

Lemma ykey_cases m :
  ykey m = [] \/ (exists k, m = MLazyGetY k) \/ (exists k ci, m = MLazyFinishY k ci).
Proof. destruct m; try (left; reflexivity); right; [left|right]; eauto. Qed.

(* one step of Scheduler::run: the head of the active thread's continuation is
   taken off and executed *)
Theorem step_inv e me t m rest :
  nth_error (e_threads e) me = Some t -> t_cont t = m :: rest -> tl_inv e ->
  tl_inv (res_exec (exec_micro (upd_thread e me (fun t => th_set_cont t rest)) me m)).
Proof.
  intros Ht Hc Hi. destruct (ykey_cases m) as [Hy|[(k & ->)|(k & ci & ->)]].
  - apply exec_micro_inv; [exact Hy|]. eapply veq_inv; [eapply pop_veq; eassumption|exact Hi].
  - eapply ystep_inv; [eapply getY_ystep; eassumption|exact Hi].
  - eapply ystep_inv; [eapply finY_ystep; eassumption|exact Hi].
Qed.

Theorem steps_inv e e' : steps e e' -> tl_inv e -> tl_inv e'.
Proof.
  apply steps_invariant. intros e0 me t m rest e1 Hi _ Ht Hc Hx.
  pose proof (step_inv e0 me t m rest Ht Hc Hi) as Hm. rewrite Hx in Hm. exact Hm.
Qed.

Theorem run_inv : forall fuel e, tl_inv e -> tl_inv (fst (run fuel e)).
Proof. apply run_invariant. intros e me t m rest Hi _ Ht Hc. exact (step_inv e me t m rest Ht Hc Hi). Qed.

(* ---- the expanded program: the only lazy-static micro-operation with a
   yielding initialiser is MLazyGetY 2 ---- *)
Lemma expand_ykeys b pc i x : In x (ykeys (expand b pc i)) -> x = (false, 2).
Proof.
  destruct i; cbn [expand]; try (intros []; fail);
    try (cbn [ykeys flat_map ykey app]; intros H; destruct H; fail).
  destruct (Nat.eqb_spec k 2) as [->|Hne]; cbn [ykeys flat_map ykey app]; intros H.
  - destruct H as [<-|[]]. reflexivity.
  - destruct H.
Qed.

Lemma expand_body_ykeys b x : forall l pc, In x (ykeys (expand_body_from b pc l)) -> x = (false, 2).
Proof.
  induction l as [|i l IH]; intros pc H; cbn [expand_body_from] in H; [destruct H|].
  change (ykeys (?a :: ?c)) with (ykey a ++ ykeys c) in H. cbn [ykey app] in H.
  rewrite ykeys_app in H. apply in_app_or in H. destruct H as [H|H]; [eapply expand_ykeys; exact H|eapply IH; exact H].
Qed.

Lemma exit_seq_ykeys b : ykeys (exit_seq b) = [].
Proof. destruct b; reflexivity. Qed.

Lemma expand_prog_ykeys p c x : In c (expand_prog p) -> In x (ykeys c) -> x = (false, 2).
Proof.
  intros Hc Hx. apply In_nth_error in Hc. destruct Hc as [b Hb].
  unfold expand_prog in Hb. rewrite nth_error_mapi in Hb.
  destruct (nth_error (p_bodies p) b) as [body|]; [|discriminate Hb].
  cbn [option_map] in Hb. injection Hb as <-.
  rewrite ykeys_app, exit_seq_ykeys, app_nil_r in Hx. eapply expand_body_ykeys. exact Hx.
Qed.

Lemma expand_prog_bmention p k : bmention k (expand_prog p) -> k = 2.
Proof.
  intros (c & x & Hc & Hx & <-). rewrite (expand_prog_ykeys p c x Hc Hx). reflexivity.
Qed.

Lemma init_exec_inv p pa : tl_inv (init_exec p pa).
Proof.
  assert (Hm : forall x, In x (ykeys (nth 0 (expand_prog p) [])) ->
                 x = (false, 2) /\ bmention (snd x) (expand_prog p)).
  { intros x Hx. destruct (nth_in_or_default 0 (expand_prog p) []) as [Hin|Hd].
    - split; [eapply expand_prog_ykeys; eassumption|]. exists (nth 0 (expand_prog p) []), x. auto.
    - rewrite Hd in Hx. destruct Hx. }
  unfold tl_inv, tsig, inits, init_exec. cbn [e_threads e_log e_lazy e_bodies map filter lazy_inv].
  split; [repeat constructor|]. split; [|split; [|split; [|split]]].
  - intros k b. unfold cnt_tls, hit, bt. cbn. rewrite andb_false_r. reflexivity.
  - split; [constructor|]. intros k. unfold pendf. rewrite filter_pf_nofin; [reflexivity|].
    intros x Hx. unfold yall in Hx. cbn [flat_map ysel bt snd thread_new t_cont] in Hx.
    rewrite app_nil_r in Hx. destruct (Hm x Hx) as [-> _]. reflexivity.
  - intros k Hk. reflexivity.
  - intros c x Hc Hx. rewrite (expand_prog_ykeys p c x Hc Hx). reflexivity.
  - intros x Hx. unfold yall in Hx. cbn [flat_map ysel bt snd thread_new t_cont] in Hx.
    rewrite app_nil_r in Hx. apply (Hm x Hx).
Qed.

Corollary run_init_inv fuel p pa : tl_inv (fst (run fuel (init_exec p pa))).
Proof. apply run_inv, init_exec_inv. Qed.

(* ================================================================== *)
(* 4. Thread-locals                                                    *)
(* ================================================================== *)

Lemma filter_map_length (A B : Type) (g : A -> B) (f : B -> bool) l :
  length (filter f (map g l)) = length (filter (fun x => f (g x)) l).
Proof.
  induction l as [|h t IH]; cbn [map filter]; [reflexivity|].
  destruct (f (g h)); cbn [length]; rewrite IH; reflexivity.
Qed.

Lemma filter_length_imp (A : Type) (f g : A -> bool) l :
  (forall x, f x = true -> g x = true) -> length (filter f l) <= length (filter g l).
Proof.
  intros H. induction l as [|h t IH]; cbn [filter]; [apply Nat.le_refl|].
  destruct (f h) eqn:Hf.
  - rewrite (H h Hf). cbn [length]. lia.
  - destruct (g h); cbn [length]; lia.
Qed.

Lemma filter_key_none (B : Type) (q : nat * B -> bool) b (l : list (nat * B)) :
  ~ In b (map fst l) -> filter (fun y => Nat.eqb (fst y) b && q y) l = [].
Proof.
  induction l as [|h t IH]; intros Hn; cbn [filter]; [reflexivity|].
  cbn [map] in Hn. destruct (Nat.eqb_spec (fst h) b) as [He|He]; [destruct Hn; left; exact He|].
  cbn [andb]. apply IH. intros Hin. apply Hn. right. exact Hin.
Qed.

Lemma filter_key_le1 (B : Type) (q : nat * B -> bool) b (l : list (nat * B)) :
  NoDup (map fst l) -> length (filter (fun y => Nat.eqb (fst y) b && q y) l) <= 1.
Proof.
  induction l as [|h t IH]; intros Hnd; cbn [filter]; [cbn; lia|].
  cbn [map] in Hnd. inversion Hnd as [|x xs Hx Hnd']; subst.
  destruct (Nat.eqb_spec (fst h) b) as [He|He]; cbn [andb]; [|auto].
  subst b. rewrite (filter_key_none _ q (fst h) t Hx). destruct (q h); cbn; lia.
Qed.

Lemma filter_key_exact (B : Type) (q : nat * B -> bool) (x : nat * B) (l : list (nat * B)) :
  NoDup (map fst l) -> In x l ->
  length (filter (fun y => Nat.eqb (fst y) (fst x) && q y) l) = if q x then 1 else 0.
Proof.
  induction l as [|h t IH]; intros Hnd Hin; [destruct Hin|]. cbn [filter].
  cbn [map] in Hnd. inversion Hnd as [|y ys Hy Hnd']; subst. destruct Hin as [->|Hin].
  - rewrite Nat.eqb_refl. cbn [andb]. rewrite (filter_key_none _ q (fst x) t Hy).
    destruct (q x); reflexivity.
  - destruct (Nat.eqb_spec (fst h) (fst x)) as [He|He]; cbn [andb]; [|auto].
    destruct Hy. rewrite He. apply in_map. exact Hin.
Qed.

Lemma map_fst_tsig e : map fst (tsig e) = map t_body (e_threads e).
Proof. unfold tsig. rewrite map_map. reflexivity. Qed.

Lemma tls_count_hits e k b : tl_inv e -> cnt_tls k b (e_log e) = length (filter (hit k b) (tsig e)).
Proof. intros (_ & I2 & _). rewrite <- cnt_tls_inits. apply I2. Qed.

(* B.1: along every run, every thread's list of initialised keys is duplicate
   free ... *)
Theorem run_tls_nodup fuel p pa t :
  In t (e_threads (fst (run fuel (init_exec p pa)))) -> NoDup (t_tls t).
Proof.
  intros Hin. destruct (run_init_inv fuel p pa) as (I1 & _).
  rewrite Forall_forall in I1. apply (I1 (bt t)). unfold tsig. apply in_map. exact Hin.
Qed.

(* ... and the number of LInitTls k b entries of the log is the number of
   threads running body b that have initialised key k *)
Theorem run_tls_count fuel p pa k b :
  cnt_tls k b (e_log (fst (run fuel (init_exec p pa)))) =
  length (filter (fun t => Nat.eqb (t_body t) b && existsb (Nat.eqb k) (t_tls t))
                 (e_threads (fst (run fuel (init_exec p pa))))).
Proof.
  rewrite (tls_count_hits _ k b (run_init_inv fuel p pa)). unfold tsig. rewrite filter_map_length. reflexivity.
Qed.

(* hence at most one entry per thread running body b *)
Theorem tls_init_le_threads fuel p pa k b :
  cnt_tls k b (e_log (fst (run fuel (init_exec p pa)))) <=
  length (filter (fun t => Nat.eqb (t_body t) b) (e_threads (fst (run fuel (init_exec p pa))))).
Proof.
  rewrite run_tls_count. apply filter_length_imp. intros t H. apply andb_prop in H. exact (proj1 H).
Qed.

(* the requested per-thread form, when distinct threads run distinct bodies *)
Theorem run_tls_count_thread fuel p pa k t :
  let e := fst (run fuel (init_exec p pa)) in
  NoDup (map t_body (e_threads e)) -> In t (e_threads e) ->
  cnt_tls k (t_body t) (e_log e) = if existsb (Nat.eqb k) (t_tls t) then 1 else 0.
Proof.
  cbv zeta. intros Hnd Hin.
  rewrite (tls_count_hits _ k _ (run_init_inv fuel p pa)). rewrite <- map_fst_tsig in Hnd.
  assert (Hb : In (bt t) (tsig (fst (run fuel (init_exec p pa))))) by (unfold tsig; apply in_map; exact Hin).
  exact (filter_key_exact _ (fun y => existsb (Nat.eqb k) (fst (snd y))) (bt t) _ Hnd Hb).
Qed.

(* tls_init_once: at most one LInitTls k b in the log of a run in which no
   body is run by two threads *)
Theorem tls_init_once fuel p pa k b :
  let e := fst (run fuel (init_exec p pa)) in
  NoDup (map t_body (e_threads e)) -> cnt_tls k b (e_log e) <= 1.
Proof.
  cbv zeta. intros Hnd.
  rewrite (tls_count_hits _ k b (run_init_inv fuel p pa)). rewrite <- map_fst_tsig in Hnd.
  exact (filter_key_le1 _ (fun y => existsb (Nat.eqb k) (fst (snd y))) b _ Hnd).
Qed.

(* "occurs at most once", positionally *)
Lemma filter_le1_unique (A : Type) (f : A -> bool) l :
  length (filter f l) <= 1 ->
  forall i j x y, nth_error l i = Some x -> f x = true -> nth_error l j = Some y -> f y = true -> i = j.
Proof.
  induction l as [|h t IH]; intros Hle i j x y Hi Hx Hj Hy; [destruct i; discriminate|].
  cbn [filter] in Hle. destruct (f h) eqn:Hh.
  - cbn [length] in Hle. assert (Ht : filter f t = []) by (destruct (filter f t); [reflexivity|cbn in Hle; lia]).
    assert (Hno : forall n z, nth_error t n = Some z -> f z = false).
    { intros n z Hn. destruct (f z) eqn:Hz; [|reflexivity].
      assert (Hin : In z (filter f t)) by (apply filter_In; split; [eapply nth_error_In; exact Hn|exact Hz]).
      rewrite Ht in Hin. destruct Hin. }
    destruct i as [|i], j as [|j]; [reflexivity| | |]; cbn [nth_error] in Hi, Hj.
    + rewrite (Hno _ _ Hj) in Hy. discriminate.
    + rewrite (Hno _ _ Hi) in Hx. discriminate.
    + rewrite (Hno _ _ Hi) in Hx. discriminate.
  - destruct i as [|i], j as [|j]; cbn [nth_error] in Hi, Hj.
    + reflexivity.
    + injection Hi as ->. congruence.
    + injection Hj as ->. congruence.
    + f_equal. eapply IH; eassumption.
Qed.

Corollary tls_init_once_pos fuel p pa k b i j :
  let e := fst (run fuel (init_exec p pa)) in
  NoDup (map t_body (e_threads e)) ->
  nth_error (e_log e) i = Some (LInitTls k b) -> nth_error (e_log e) j = Some (LInitTls k b) -> i = j.
Proof.
  cbv zeta. intros Hnd Hi Hj. pose proof (tls_init_once fuel p pa k b Hnd) as Hle.
  eapply (filter_le1_unique _ (is_tls k b) _ Hle); try eassumption; cbn [is_tls]; rewrite !Nat.eqb_refl; reflexivity.
Qed.

(* the statement without the side condition is false: a body can be spawned
   twice (MSpawn never looks at e_spawned), both threads run the same code
   and each initialises its own instance; the log labels entries by body *)
Definition p_twice : prog :=
  mkProg (mkConfig 5 1000 None None None false) [] [[ISpawn 1; ISpawn 1]; [ITlsWith 0]].

Lemma tls_init_twice :
  exists fuel, cnt_tls 0 1 (e_log (fst (run fuel (init_exec p_twice (initial_path (p_cfg p_twice)))))) = 2 /\
               snd (run fuel (init_exec p_twice (initial_path (p_cfg p_twice)))) = IterDone.
Proof. exists 200. vm_compute. split; reflexivity. Qed.

(* ================================================================== *)
(* 5. Lazy statics                                                     *)
(* ================================================================== *)

(* B.2: the registry never holds a key twice: a lazy static is REGISTERED at
   most once per execution (all threads get the same instance), also when its
   initialiser ran more than once *)
Theorem lazy_nodup_inv e lz : tl_inv e -> e_lazy e = Some lz -> NoDup (map fst lz).
Proof. intros (_ & _ & I3 & _) Hl. rewrite Hl in I3. exact (proj1 I3). Qed.

Theorem run_lazy_nodup fuel p pa lz :
  e_lazy (fst (run fuel (init_exec p pa))) = Some lz -> NoDup (map fst lz).
Proof. apply lazy_nodup_inv, run_init_inv. Qed.

Corollary lazy_registered_once fuel p pa lz :
  e_lazy (fst (run fuel (init_exec p pa))) = Some lz -> NoDup (map fst lz).
Proof. apply run_lazy_nodup. Qed.

(* the expanded program is never changed *)
Lemma tstep_bodies e e' : tstep e e' -> e_bodies e' = e_bodies e.
Proof.
  intros H. destruct H as [(_ & _ & _ & Hv)|b _ _ _ H4|i b l y k _ _ _ _ _ H6|lz k x _ _ _ _ _ H6|lz _ _ _ _ H5];
    assumption.
Qed.

Lemma ystep_bodies e e' : ystep e e' -> e_bodies e' = e_bodies e.
Proof.
  intros [i b l f k y ny li lzo' _ _ _ _ _ H]. exact H.
Qed.

Lemma step_bodies e me t m rest :
  nth_error (e_threads e) me = Some t -> t_cont t = m :: rest ->
  e_bodies (res_exec (exec_micro (upd_thread e me (fun t => th_set_cont t rest)) me m)) = e_bodies e.
Proof.
  intros Ht Hc. destruct (ykey_cases m) as [Hy|[(k & ->)|(k & ci & ->)]].
  - rewrite (tstep_bodies _ _ (exec_micro_tstep _ me m Hy)). reflexivity.
  - apply ystep_bodies. eapply getY_ystep; eassumption.
  - apply ystep_bodies. eapply finY_ystep; eassumption.
Qed.

Lemma run_bodies : forall fuel e, e_bodies (fst (run fuel e)) = e_bodies e.
Proof.
  intros fuel e. apply (run_invariant (fun e' => e_bodies e' = e_bodies e)); [|reflexivity].
  intros e1 me t m rest He _ Ht Hc. rewrite <- He. exact (step_bodies e1 me t m rest Ht Hc).
Qed.

Lemma run_init_bodies fuel p pa : e_bodies (fst (run fuel (init_exec p pa))) = expand_prog p.
Proof. rewrite run_bodies. reflexivity. Qed.

(* ---- the balance, for every key ----
   while the registry is alive:
     #LInitLazy k = [k registered] + #LDropLazy k + #initialisers of k in flight
   i.e. every value built by an initialiser is the registered one, or has been
   dropped (its thread lost the race), or is still held by a thread between
   its MLazyGetY and its MLazyFinishY *)
Theorem lazy_balance e lz k : tl_inv e -> e_lazy e = Some lz ->
  cnt_lazy k (e_log e) = reg k lz + cnt_ldrop k (e_log e) + pendf k (tsig e).
Proof.
  intros (_ & _ & I3 & _) Hl. rewrite Hl in I3. rewrite <- cnt_lazy_inits, <- cnt_ldrop_inits.
  apply (proj2 I3).
Qed.

Theorem run_lazy_balance fuel p pa lz k :
  let e := fst (run fuel (init_exec p pa)) in
  e_lazy e = Some lz ->
  cnt_lazy k (e_log e) = reg k lz + cnt_ldrop k (e_log e) + pendf k (tsig e).
Proof. cbv zeta. apply lazy_balance, run_init_inv. Qed.

(* after the shutdown (which drops the registered values of the keys below 8)
   every value built is dropped or still in flight; a thread that finishes its
   initialiser after the shutdown drops its value while it unwinds *)
Theorem lazy_balance_shut e k : tl_inv e -> e_lazy e = None -> k < 8 ->
  cnt_lazy k (e_log e) = cnt_ldrop k (e_log e) + pendf k (tsig e).
Proof.
  intros (_ & _ & I3 & _) Hl Hk. rewrite Hl in I3. rewrite <- cnt_lazy_inits, <- cnt_ldrop_inits.
  apply (I3 k), Hk.
Qed.

Theorem run_lazy_balance_shut fuel p pa k :
  let e := fst (run fuel (init_exec p pa)) in
  e_lazy e = None -> k < 8 ->
  cnt_lazy k (e_log e) = cnt_ldrop k (e_log e) + pendf k (tsig e).
Proof. cbv zeta. apply lazy_balance_shut, run_init_inv. Qed.

Lemma pendf_no_conts e k : Forall (fun t => t_cont t = []) (e_threads e) -> pendf k (tsig e) = 0.
Proof.
  intros H. apply pendf_zero. intros x Hx. exfalso. unfold yall, tsig in Hx.
  apply in_flat_map in Hx. destruct Hx as (v & Hv & Hx). apply in_map_iff in Hv.
  destruct Hv as (t & <- & Ht). rewrite Forall_forall in H. unfold ysel, bt in Hx. cbn [snd] in Hx.
  rewrite (H t Ht) in Hx. destruct Hx.
Qed.

(* when all continuations are empty (all threads are done), initialisations
   and drops balance exactly: no value is leaked, none is dropped twice *)
Corollary run_lazy_all_dropped fuel p pa k :
  let e := fst (run fuel (init_exec p pa)) in
  e_lazy e = None -> k < 8 -> Forall (fun t => t_cont t = []) (e_threads e) ->
  cnt_lazy k (e_log e) = cnt_ldrop k (e_log e).
Proof.
  cbv zeta. intros Hl Hk Hc. rewrite (run_lazy_balance_shut fuel p pa k Hl Hk), (pendf_no_conts _ k Hc). lia.
Qed.

(* ---- the keys without yielding initialiser ---- *)
(* while the registry is alive the log has exactly one LInitLazy k per
   registered key; after the shutdown still at most one *)
Theorem lazy_count_plain e lz k : tl_inv e -> ~ bmention k (e_bodies e) -> e_lazy e = Some lz ->
  cnt_lazy k (e_log e) = if existsb (Nat.eqb k) (map fst lz) then 1 else 0.
Proof.
  intros (_ & _ & I3 & I4 & _ & I6) Hk Hl. rewrite Hl in I3, I4. rewrite <- cnt_lazy_inits.
  rewrite (proj2 I3 k), (I4 k Hk), (pendf_not_mentioned k _ _ I6 Hk). unfold reg. lia.
Qed.

Lemma lazy_count_le1 e k : tl_inv e -> ~ bmention k (e_bodies e) -> cnt_lazy k (e_log e) <= 1.
Proof.
  intros Hi Hk. destruct (e_lazy e) as [lz|] eqn:Hl.
  - rewrite (lazy_count_plain e lz k Hi Hk Hl). apply reg_le1.
  - destruct Hi as (_ & _ & _ & I4 & _). rewrite Hl in I4. rewrite <- cnt_lazy_inits. apply I4, Hk.
Qed.

Lemma run_not_mentioned fuel p pa k :
  k <> 2 -> ~ bmention k (e_bodies (fst (run fuel (init_exec p pa)))).
Proof. intros Hk Hm. rewrite run_init_bodies in Hm. apply Hk. eapply expand_prog_bmention. exact Hm. Qed.

Theorem run_lazy_count fuel p pa lz k :
  k <> 2 ->
  e_lazy (fst (run fuel (init_exec p pa))) = Some lz ->
  cnt_lazy k (e_log (fst (run fuel (init_exec p pa)))) =
  if existsb (Nat.eqb k) (map fst lz) then 1 else 0.
Proof.
  intros Hk Hl. apply lazy_count_plain; [apply run_init_inv|apply run_not_mentioned, Hk|exact Hl].
Qed.

(* a lazy static whose initialiser has no scheduling point (in the programs of
   Check.expand: every key but 2) is initialised at most once per execution *)
Theorem lazy_init_once fuel p pa k :
  k <> 2 -> cnt_lazy k (e_log (fst (run fuel (init_exec p pa)))) <= 1.
Proof. intros Hk. apply lazy_count_le1; [apply run_init_inv|apply run_not_mentioned, Hk]. Qed.

Corollary lazy_init_once_pos fuel p pa k i j :
  let e := fst (run fuel (init_exec p pa)) in
  k <> 2 ->
  nth_error (e_log e) i = Some (LInitLazy k) -> nth_error (e_log e) j = Some (LInitLazy k) -> i = j.
Proof.
  cbv zeta. intros Hk Hi Hj. pose proof (lazy_init_once fuel p pa k Hk) as Hle.
  eapply (filter_le1_unique _ (is_lazy k) _ Hle); try eassumption; cbn [is_lazy]; apply Nat.eqb_refl.
Qed.

(* the statement without the side condition is false: the initialiser of lazy
   static 2 yields, loom runs it outside the execution lock, and a second
   thread that finds the static unregistered runs it too.  Both initialisations
   are logged; the loser's value is dropped (the first LDropLazy 2) before the
   shutdown drops the registered one (the last LDropLazy 2); both threads read
   the same instance.  This is the ONLY iteration of the exploration: the
   schedule in which main registers the static before thread 1 looks is never
   explored (Lazy::get is no branch point). *)
Definition p_lazy_y : prog :=
  mkProg (mkConfig 5 1000 None None None false) [] [[ISpawn 1; ILazyGet 2; IJoin 1]; [ILazyGet 2]].

Definition lazy_lines (l : list logline) : list logline :=
  filter (fun x => match x with
                   | LInitLazy _ | LDropLazy _ | LOp _ _ (RVal _) => true
                   | _ => false
                   end) l.

Lemma lazy_yielding_init_runs_twice :
  map (fun it => (lazy_lines (ir_log it), ir_result it)) (fst (fst (check 100 1000 p_lazy_y))) =
    [([LInitLazy 2; LInitLazy 2; LOp 0 1 (RVal 43); LDropLazy 2; LOp 1 0 (RVal 43); LDropLazy 2],
      IterDone)] /\
  snd (fst (check 100 1000 p_lazy_y)) = RunOk /\
  (let r := run 1000 (init_exec p_lazy_y (initial_path (p_cfg p_lazy_y))) in
   cnt_lazy 2 (e_log (fst r)) = 2 /\ cnt_ldrop 2 (e_log (fst r)) = 2 /\ snd r = IterDone /\
   e_lazy (fst r) = None /\ forallb (fun t => match t_cont t with [] => true | _ => false end)
                                    (e_threads (fst r)) = true).
Proof. vm_compute. repeat split; reflexivity. Qed.

(* the registry only grows, until it is shut down; then it stays shut down *)
Definition lazy_ext (e e' : exec) : Prop :=
  match e_lazy e with
  | None => e_lazy e' = None
  | Some lz => e_lazy e' = None \/ exists ext, e_lazy e' = Some (lz ++ ext)
  end.

Lemma lazy_ext_refl e : lazy_ext e e.
Proof.
  unfold lazy_ext. destruct (e_lazy e) as [lz|]; [|reflexivity].
  right. exists []. rewrite app_nil_r. reflexivity.
Qed.

Lemma lazy_ext_trans e1 e2 e3 : lazy_ext e1 e2 -> lazy_ext e2 e3 -> lazy_ext e1 e3.
Proof.
  unfold lazy_ext. destruct (e_lazy e1) as [lz|].
  - intros [H12|(x & H12)]; rewrite H12; [intros ->; left; reflexivity|].
    intros [H23|(y & H23)]; [left; exact H23|]. right. exists (x ++ y). rewrite app_assoc. exact H23.
  - intros ->. auto.
Qed.

Lemma lazy_ext_eq e e' : e_lazy e' = e_lazy e -> lazy_ext e e'.
Proof. intros H. unfold lazy_ext. rewrite H. exact (lazy_ext_refl e). Qed.

Lemma tstep_lazy_ext e e' : tstep e e' -> lazy_ext e e'.
Proof.
  intros H.
  destruct H as [(_ & _ & Hv & _)|b _ _ H3 _|i b l y k _ _ _ _ H5 _|lz k x H1 _ H3 _ _ _|lz H1 H2 _ _ _].
  - apply lazy_ext_eq, Hv.
  - apply lazy_ext_eq, H3.
  - apply lazy_ext_eq, H5.
  - unfold lazy_ext. rewrite H1. right. eauto.
  - unfold lazy_ext. rewrite H1. left. exact H2.
Qed.

(* MLazyGetY never changes the registry; MLazyFinishY extends it or leaves it *)
Lemma getY_lazy e me k : e_lazy (res_exec (exec_micro e me (MLazyGetY k))) = e_lazy e.
Proof.
  destruct (e_lazy e) as [lz|] eqn:Hl.
  - destruct (find (fun x => Nat.eqb (fst x) k) lz) as [x|] eqn:Hf.
    + cbn [exec_micro]. rewrite Hl, Hf. cbn [res_exec]. exact Hl.
    + destruct (getY_init_ok e me k lz Hl Hf) as (e1 & ci & -> & (_ & _ & V3 & _)). cbn [res_exec].
      change (e_lazy (push_cont e1 me [MYield; MLazyFinishY k ci])) with (e_lazy e1). rewrite V3. exact Hl.
  - cbn [exec_micro]. rewrite Hl. cbn [res_exec]. exact Hl.
Qed.

Lemma finY_lazy_ext e me k ci : lazy_ext e (res_exec (exec_micro e me (MLazyFinishY k ci))).
Proof.
  unfold lazy_ext. cbn [exec_micro]. destruct (e_lazy e) as [lz|] eqn:Hl.
  - destruct (find (fun x => Nat.eqb (fst x) k) lz) as [x|]; cbn [res_exec]; right.
    + exists []. rewrite app_nil_r. exact Hl.
    + eexists. reflexivity.
  - cbn [res_exec]. exact Hl.
Qed.

Theorem exec_micro_lazy_ext e me m : lazy_ext e (res_exec (exec_micro e me m)).
Proof.
  destruct (ykey_cases m) as [Hy|[(k & ->)|(k & ci & ->)]].
  - apply tstep_lazy_ext, exec_micro_tstep, Hy.
  - apply lazy_ext_eq, getY_lazy.
  - apply finY_lazy_ext.
Qed.

(* once None, None under every micro-step *)
Theorem lazy_none_stays e me m :
  e_lazy e = None -> e_lazy (res_exec (exec_micro e me m)) = None.
Proof. intros Hl. pose proof (exec_micro_lazy_ext e me m) as H. unfold lazy_ext in H. rewrite Hl in H. exact H. Qed.

Theorem steps_lazy_ext e e' : steps e e' -> lazy_ext e e'.
Proof.
  intros H. apply (steps_invariant (lazy_ext e)) with (2 := H); [|apply lazy_ext_refl].
  intros e0 me t m rest e1 H0 _ _ _ Hx. eapply lazy_ext_trans; [exact H0|].
  pose proof (exec_micro_lazy_ext (upd_thread e0 me (fun t => th_set_cont t rest)) me m) as Hm.
  rewrite Hx in Hm. exact Hm.
Qed.

Theorem steps_lazy_none e e' : steps e e' -> e_lazy e = None -> e_lazy e' = None.
Proof. intros Hs Hl. pose proof (steps_lazy_ext e e' Hs) as H. unfold lazy_ext in H. rewrite Hl in H. exact H. Qed.

(* every later access fails: on the state reached and on that state with the
   accessing thread's continuation popped (where Check.run executes it).  An
   access MLazyGet k or MLazyGetY k panics at once; a thread that was inside
   the yielding initialiser when the registry was shut panics in MLazyFinishY
   (the second look at the registry) and its value is dropped by the
   unwinding: LDropLazy k is logged *)
Theorem lazy_get_after_shutdown e e' b k :
  steps e e' -> e_lazy e = None ->
  (forall m, m = MLazyGet k \/ m = MLazyGetY k ->
     exec_micro e' b m = MFail e' PanicLazyShutdown /\
     forall rest, exec_micro (upd_thread e' b (fun t => th_set_cont t rest)) b m =
                  MFail (upd_thread e' b (fun t => th_set_cont t rest)) PanicLazyShutdown) /\
  (forall ci,
     exec_micro e' b (MLazyFinishY k ci) =
       MFail (ex_set_log e' (LDropLazy k :: e_log e')) PanicLazyShutdown /\
     forall rest, let e1 := upd_thread e' b (fun t => th_set_cont t rest) in
                  exec_micro e1 b (MLazyFinishY k ci) =
                    MFail (ex_set_log e1 (LDropLazy k :: e_log e1)) PanicLazyShutdown).
Proof.
  intros Hs Hl. pose proof (steps_lazy_none e e' Hs Hl) as Hn. split.
  - intros m [->| ->]; (split; [|intros rest]); cbn [exec_micro upd_thread ex_set_threads e_lazy];
      rewrite Hn; reflexivity.
  - intros ci. split; [|intros rest; cbv zeta]; cbn [exec_micro upd_thread ex_set_threads e_lazy];
      rewrite Hn; reflexivity.
Qed.

Theorem lazy_drop_then_get_fails e a e1 e2 b k :
  exec_micro e a MLazyDrop = MOk e1 -> steps e1 e2 ->
  exec_micro e2 b (MLazyGet k) = MFail e2 PanicLazyShutdown /\
  exec_micro e2 b (MLazyGetY k) = MFail e2 PanicLazyShutdown.
Proof.
  intros Hd Hs.
  assert (Hl : e_lazy e1 = None).
  { cbn [exec_micro] in Hd. destruct (e_lazy e) as [lz|] eqn:Hl; injection Hd as <-; [reflexivity|exact Hl]. }
  destruct (lazy_get_after_shutdown e1 e2 b k Hs Hl) as [Hg _].
  split; [apply (Hg (MLazyGet k))|apply (Hg (MLazyGetY k))]; auto.
Qed.

(* ---- initialisation happens-before every access ---- *)
Lemma find_nodup_key (B : Type) k (v : B) (lz : list (nat * B)) :
  NoDup (map fst lz) -> In (k, v) lz -> find (fun x => Nat.eqb (fst x) k) lz = Some (k, v).
Proof.
  induction lz as [|h t IH]; intros Hnd Hin; [destruct Hin|]. cbn [find].
  cbn [map] in Hnd. inversion Hnd as [|y ys Hy Hnd']; subst. destruct Hin as [->|Hin].
  - cbn [fst]. rewrite Nat.eqb_refl. reflexivity.
  - destruct (Nat.eqb_spec (fst h) k) as [He|He]; [|auto].
    destruct Hy. rewrite He. change k with (fst (k, v)). apply in_map. exact Hin.
Qed.

Lemma lazy_tail_mono e me ci k : mono e (res_exec (lazy_tail e me ci k)).
Proof. unfold lazy_tail. cbv zeta. repeat mstep. all: mclose. Qed.

Lemma lazy_tail_lazy e me ci k : e_lazy (res_exec (lazy_tail e me ci k)) = e_lazy e.
Proof. exact (proj1 (proj2 (proj2 (lazy_tail_veq e me ci k)))). Qed.

(* an access that finds k registered acquires the registered view *)
Theorem lazy_get_acquires e me k lz ci sy e' :
  e_lazy e = Some lz -> NoDup (map fst lz) -> In (k, (ci, sy)) lz ->
  me < length (e_threads e) ->
  exec_micro e me (MLazyGet k) = MOk e' -> vle sy (caus_of e' me).
Proof.
  intros Hl Hnd Hin Hme Hx. rewrite exec_micro_lazy_get, Hl in Hx. unfold lazy_lookup in Hx.
  rewrite (find_nodup_key _ k (ci, sy) lz Hnd Hin) in Hx.
  pose proof (lazy_tail_mono (set_caus e me (sync_load (caus_of e me) sy Acquire)) me ci k) as Hm.
  rewrite Hx in Hm. cbn [res_exec] in Hm. destruct Hm as (_ & Hc & _). specialize (Hc me).
  rewrite caus_of_set_caus_same in Hc by exact Hme.
  eapply vle_trans; [|exact Hc]. apply sync_load_acq. reflexivity.
Qed.

(* the initialising access registers a view that contains the initialiser's clock *)
Theorem lazy_init_publishes e me k lz e' :
  e_lazy e = Some lz -> ~ In k (map fst lz) -> exec_micro e me (MLazyGet k) = MOk e' ->
  exists ci sy, e_lazy e' = Some (lz ++ [(k, (ci, sy))]) /\ vle (caus_of e me) sy.
Proof.
  intros Hl Hk Hx. rewrite exec_micro_lazy_get, Hl in Hx.
  destruct (lazy_lookup e me k lz) as [[e1 ci]|p] eqn:Hlk; [|discriminate Hx].
  pose proof (lazy_tail_lazy e1 me ci k) as Hz. rewrite Hx in Hz. cbn [res_exec] in Hz.
  destruct (lazy_lookup_tstep e me k lz e1 ci Hl Hlk) as [(sy & Hf & _)|(_ & sy & H1 & _ & _ & _ & Hpub)].
  - exfalso. apply Hk. eapply find_key_some. exact Hf.
  - exists ci, sy. split; [rewrite Hz; exact H1|exact Hpub].
Qed.

(* the same for the yielding initialiser: the thread that wins the race
   registers a view that contains its clock at the registration (which is
   after its initialiser) *)
Theorem lazy_finish_publishes e me k ci lz e' :
  e_lazy e = Some lz -> ~ In k (map fst lz) -> exec_micro e me (MLazyFinishY k ci) = MOk e' ->
  exists sy, e_lazy e' = Some (lz ++ [(k, (ci, sy))]) /\ vle (caus_of e me) sy.
Proof.
  intros Hl Hk Hx. cbn [exec_micro] in Hx. rewrite Hl in Hx.
  destruct (find (fun x => Nat.eqb (fst x) k) lz) as [x|] eqn:Hf.
  - exfalso. apply Hk. eapply find_key_some. exact Hf.
  - injection Hx as <-. eexists. split; [reflexivity|]. apply sync_store_rel. reflexivity.
Qed.

Lemma lazy_registered_acquired e1 e2 e2' lz k ci sy b e3 :
  tl_inv e1 -> e_lazy e1 = Some (lz ++ [(k, (ci, sy))]) -> steps e1 e2 ->
  e_lazy e2' = e_lazy e2 -> b < length (e_threads e2') ->
  exec_micro e2' b (MLazyGet k) = MOk e3 -> vle sy (caus_of e3 b).
Proof.
  intros Hi1 Hl1 Hs Hz Hb Hy.
  pose proof (steps_inv e1 e2 Hs Hi1) as Hi2.
  pose proof (steps_lazy_ext e1 e2 Hs) as He. unfold lazy_ext in He. rewrite Hl1 in He.
  destruct He as [Hn|(ext & He)].
  - rewrite exec_micro_lazy_get, Hz, Hn in Hy. discriminate Hy.
  - eapply (lazy_get_acquires e2' b k _ ci sy e3); [rewrite Hz; exact He| | |exact Hb|exact Hy].
    + eapply lazy_nodup_inv; eassumption.
    + apply in_or_app. left. apply in_or_app. right. left. reflexivity.
Qed.

(* the global statement: a initialises lazy static k; the execution continues
   for any number of steps; b's access to k (executed on the state reached, or
   on any state with the same registry, e.g. with b's continuation popped)
   acquires a's clock at the time of the initialisation *)
Theorem lazy_handover_global e a k lz e1 e2 e2' b e3 :
  tl_inv e -> e_lazy e = Some lz -> ~ In k (map fst lz) ->
  exec_micro e a (MLazyGet k) = MOk e1 -> steps e1 e2 ->
  e_lazy e2' = e_lazy e2 -> b < length (e_threads e2') ->
  exec_micro e2' b (MLazyGet k) = MOk e3 ->
  vle (caus_of e a) (caus_of e3 b).
Proof.
  intros Hi Hl Hk Hx Hs Hz Hb Hy.
  destruct (lazy_init_publishes e a k lz e1 Hl Hk Hx) as (ci & sy & Hl1 & Hpub).
  pose proof (exec_micro_inv e a (MLazyGet k) eq_refl Hi) as Hi1. rewrite Hx in Hi1. cbn [res_exec] in Hi1.
  eapply vle_trans; [exact Hpub|]. eapply lazy_registered_acquired; eassumption.
Qed.

(* and for the yielding static: the winner a registers k (MLazyFinishY); every
   later successful read of k -- by the winner, by a loser of the race after it
   dropped its own value, by any other thread -- acquires a's clock at the
   registration.  [tl_inv e1]: the state after the registration satisfies the
   invariant (true along runs: steps_inv / run_inv) *)
Theorem lazyY_handover_global e a k ci lz e1 e2 e2' b e3 :
  e_lazy e = Some lz -> ~ In k (map fst lz) ->
  exec_micro e a (MLazyFinishY k ci) = MOk e1 -> tl_inv e1 -> steps e1 e2 ->
  e_lazy e2' = e_lazy e2 -> b < length (e_threads e2') ->
  exec_micro e2' b (MLazyGet k) = MOk e3 ->
  vle (caus_of e a) (caus_of e3 b).
Proof.
  intros Hl Hk Hx Hi1 Hs Hz Hb Hy.
  destruct (lazy_finish_publishes e a k ci lz e1 Hl Hk Hx) as (sy & Hl1 & Hpub).
  eapply vle_trans; [exact Hpub|]. eapply lazy_registered_acquired; eassumption.
Qed.

(* the same for the runs of the model *)
Corollary run_lazy_handover p pa e a k lz e1 e2 b e3 :
  steps (init_exec p pa) e -> e_lazy e = Some lz -> ~ In k (map fst lz) ->
  exec_micro e a (MLazyGet k) = MOk e1 -> steps e1 e2 -> b < length (e_threads e2) ->
  exec_micro e2 b (MLazyGet k) = MOk e3 ->
  vle (caus_of e a) (caus_of e3 b).
Proof.
  intros H0 Hl Hk Hx Hs Hb Hy.
  eapply (lazy_handover_global e a k lz e1 e2 e2 b e3); eauto.
  eapply steps_inv; [exact H0|apply init_exec_inv].
Qed.

Print Assumptions exec_micro_tstep.
Print Assumptions exec_micro_inv.
Print Assumptions step_inv.
Print Assumptions run_inv.
Print Assumptions run_tls_nodup.
Print Assumptions run_tls_count.
Print Assumptions run_tls_count_thread.
Print Assumptions tls_init_le_threads.
Print Assumptions tls_init_once.
Print Assumptions tls_init_once_pos.
Print Assumptions tls_init_twice.
Print Assumptions run_lazy_nodup.
Print Assumptions lazy_registered_once.
Print Assumptions run_lazy_balance.
Print Assumptions run_lazy_balance_shut.
Print Assumptions run_lazy_all_dropped.
Print Assumptions run_lazy_count.
Print Assumptions lazy_init_once.
Print Assumptions lazy_init_once_pos.
Print Assumptions lazy_yielding_init_runs_twice.
Print Assumptions lazy_none_stays.
Print Assumptions steps_lazy_none.
Print Assumptions lazy_get_after_shutdown.
Print Assumptions lazy_drop_then_get_fails.
Print Assumptions lazy_get_acquires.
Print Assumptions lazy_init_publishes.
Print Assumptions lazy_finish_publishes.
Print Assumptions lazy_handover_global.
Print Assumptions lazyY_handover_global.

(* DEVIATIONS from the requested statements

   T1  tls_init_once without side condition ("for every k and b, LInitTls k b
       occurs at most once in the log of a run") is FALSE in the model:
       MSpawn b (and MSpawnW b n k, the spawn from inside a block_on poll,
       which is a second ts_spawn step) never looks at e_spawned, so a body
       can be spawned twice
       ([ISpawn 1; ISpawn 1]); the two threads are distinct threads, each
       initialises its own instance of the thread-local (as the real
       thread_local! does: this is NOT a double initialisation in loom), and
       the log labels the entries by body, not by thread id.  Counterexample:
       tls_init_twice (computed: two LInitTls 0 1 entries, the run ends
       normally).  What is true, and proved:
         run_tls_count         #LInitTls k b = #threads with body b that have
                               initialised k (always; the invariant tl_inv)
         tls_init_le_threads   <= #threads running body b
         run_tls_count_thread  the requested per-thread form (1 if k is in
                               t_tls t, 0 otherwise) and
         tls_init_once         <= 1, both under
                               NoDup (map t_body (e_threads e)) for the FINAL
                               state e of the run (threads are only appended
                               and never change body, so this is: no MSpawn 0
                               and no body spawned twice during the run).
       tls_init_once_pos / lazy_init_once_pos are the positional readings of
       "at most once".
   T2  All run theorems are about [fst (run fuel (init_exec p pa))] for every
       fuel, i.e. also for the state carried by a panic (exec_micro_tstep /
       exec_micro_inv / step_inv are proved for res_exec, MOk and MFail
       alike; for MLazyGetY this needs getY_init_ok: the panicking branches of
       the initialiser, whose state already carries LInitLazy k, are
       unreachable).
   T3  lazy_init_once / lazy_init_once_pos / run_lazy_count hold for the keys
       k <> 2 only: the initialiser of lazy static 2 contains a scheduling
       point, loom runs initialisers outside the execution lock
       (Lazy::get: "the first thread to get there wins"), so two threads that
       both find the static unregistered both run it.  Counterexample for
       k = 2: lazy_yielding_init_runs_twice (computed: the only iteration of
       [[ISpawn 1; ILazyGet 2; IJoin 1]; [ILazyGet 2]] logs LInitLazy 2 twice,
       then LDropLazy 2 for the loser, both threads read 43, and the shutdown
       logs the second LDropLazy 2).  What is true for EVERY key, and proved:
         run_lazy_nodup = lazy_registered_once
                               a static is registered at most once per
                               execution (all threads get the same instance)
         run_lazy_balance      while the registry is alive,
                               #LInitLazy k = [k registered] + #LDropLazy k
                                              + #initialisers of k in flight
                               (pendf: MLazyFinishY k _ in a continuation)
         run_lazy_balance_shut after the shutdown, for k < 8 (the keys that
                               MLazyDrop logs): #LInitLazy k = #LDropLazy k
                               + in flight
         run_lazy_all_dropped  with all continuations empty, exactly as many
                               drops as initialisations: no value is leaked
                               and none is dropped twice.
       The restriction k <> 2 comes from expand_prog_ykeys: in a program made
       by Check.expand the only MLazyGetY is MLazyGetY 2; the general forms
       (lazy_count_plain, lazy_count_le1) are stated with
       ~ bmention k (e_bodies e).
   T4  lazy_none_stays is stated for res_exec (both outcomes);
       lazy_get_after_shutdown is stated for SyncMono.steps, covers the
       popped state on which Check.run executes the access, and covers the
       three accesses MLazyGet k, MLazyGetY k (PanicLazyShutdown, state
       unchanged) and MLazyFinishY k ci (PanicLazyShutdown, LDropLazy k
       logged: the value built by the thread is dropped by the unwinding).
   T5  lazy_get_acquires has the hypotheses NoDup (map fst lz) (true along
       runs: run_lazy_nodup / lazy_nodup_inv; without it [find] may return an
       earlier entry for the same key with another view) and
       me < length (e_threads e) (set_caus is the identity out of range, as
       for every acquire lemma of SyncFacts).  Added: lazy_init_publishes (the
       registered view contains the initialiser's clock), the registry only
       grows until shutdown (lazy_ext), and lazy_handover_global:
       initialisation happens-before every later successful access;
       lazy_finish_publishes / lazyY_handover_global: the same for the
       registration by the winner of a yielding initialiser.
   T6  Fresh-per-iteration is C17_fresh_every_iteration (not redone);
       init_exec_inv is the base case of the invariant. *)
