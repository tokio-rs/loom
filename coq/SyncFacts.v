(* SyncFacts: the LOCAL causality-transfer lemmas behind "everything done
   before a release happens-before everything after the next acquire", for
   every synchronisation primitive of the model (Atomic.v, Ops.v).  All lemmas
   are stated on the transcribed functions themselves (post_acquire,
   release_lock, ..., atomic_store / atomic_load / atomic_rmw, threads_unpark)
   or, where the code only exists inline, on [exec_micro e me (M...)].  No
   statement or proof mentions a record constructor (mkChan, mkStore, ...), so
   adding bookkeeping fields to the object records does not break the file.
   vle is the pointwise order of VVFacts.v.

   Contents
     1. Generic     sync_store_{keeps,released,rel,rlx,rel_get,mono},
                    sync_load_{keeps,acq,rlx,least}, handover_chain
     2. Framing     (the list facts are in ListFacts.v) get_thread_*, caus_of_*,
                    e_objects_*, get_{mutex,rw,notify,chan,arc}_{nth,upd_const,objects_eq}
     3. Mutex       release_lock_{state,publishes,sync,clocks},
                    post_acquire_{acquires,clock,fails_iff,fail_id,other_clocks},
                    mutex_handover
     4. RwLock      post_acquire_{read,write}_{acquires,fails_iff,fail_id,other_clocks},
                    release_{read,write}_{publishes,clocks}, release_read_ok_iff,
                    rw_write_handover, rw_read_handover
     5. Notify      notify_post_{publishes,unparks,other_clocks,monotone},
                    notify_wait2_{acquires,fails_iff,other_clocks}, notify_handover,
                    join_schedules_wait, exit_schedules_post
     6. Channel     send_post_{publishes,last_view,clocks} (publishes / last_view:
                    receiver alive), send_post_{keeps_rx,disconnected}
                    (receiver gone: count and queued views untouched),
                    recv_post_{acquires,empty_fails,other_clocks}, channel_handover
     7. Arc         arc_dec_post_{publishes,released_fails,other_clocks},
                    arc_drop_handover, arc_get_mut_post_acquires,
                    arc_count_post_acquires, arc_inc_post_no_transfer
     8. Park        threads_unpark_{transfers,self,monotone,objects},
                    exec_micro_unpark_transfers
     9. Spawn       spawn_threads, spawn_transfers
    10. Atomics     atomic_store_from_{new_sync,new_value,new_hb,other,length} (any
                    RMW source [src]; atomic_store is the instance src = None),
                    atomic_store_{publishes,publishes_released,relaxed_sync,other,...},
                    alc_keeps_{sync,value}, load_view_keeps_*, load_half_keeps, atomic_load_{result,
                    acquires,relaxed,monotone}, atomic_rmw_release_sequence,
                    atomic_rmw_failure_loads, atomic_handover

   DEVIATIONS from the requested statements (nothing is weakened silently;
   every requested name exists).  No requested statement turned out false
   under the hypotheses that were requested for it; the differences are:

   D-a  release_read_publishes: the requested shape ended with
        [rw_lock s' = None] (as for the mutex).  That is FALSE for read locks:
        with rw_lock s = Some (RLRead [0;1]) and me = 0, release_read leaves
        rw_lock s' = Some (RLRead [1]).  Proved instead: there is rs with
        rw_lock s = Some (RLRead rs) and rw_lock s' = None if
        set_remove me rs = [], else Some (RLRead (set_remove me rs)).
        (release_read returns mres, so the lemma takes [release_read e me r =
        MOk e'] as hypothesis; release_read_ok_iff says it is MOk exactly when
        the lock is read-locked; otherwise MFail PanicRwInvalid.)
        release_write_publishes is existential in e' (release_write never
        fails on an rwlock object) and does end with rw_lock s' = None.
        Neither rwlock release has the [e_active e <> None] hypothesis of the
        mutex: only Mutex::release_lock skips the publication when no thread is
        active (then mx_lock becomes None but mx_sync is unchanged, which is
        why release_lock_publishes needs that hypothesis: with e_active e =
        None and caus_of e me = [1;0;0;0;0], mx_sync s = vv_new, the view stays
        vv_new).
   D-b  post_acquire_read_acquires: the lock field afterwards is
        [Some (RLRead rs)] with [In me rs] (readers are a set), not [Some me].
   D-c  mutex_handover additionally concludes [snd (post_acquire e2 b m) =
        true] (strengthening); its hypotheses are: get_mutex e m = Some s,
        e_active e <> None, get_mutex (release_lock e a m) m = Some s1,
        get_mutex e2 m = Some s2, vle (mx_sync s1) (mx_sync s2),
        mx_lock s2 = None, b < length (e_threads e2).
   D-d  Every acquire-side lemma about the acquiring thread's NEW clock carries
        [me < length (e_threads e)], as requested for post_acquire_acquires
        (notify_wait2_acquires, recv_post_acquires, arc_dec_post_publishes's
        count-reaches-0 clause, arc_get_mut_post_acquires,
        arc_count_post_acquires).  Without it the statements are false: for
        me >= length (e_threads e), set_caus is the identity and
        caus_of e' me = vv_new, which does not dominate e.g. a view [1;0;0;0;0].
        threads_unpark_transfers needs only id <> me and id < length
        (e_threads e); [me < length] is not needed (caus_of e me = vv_new then).
   D-e  recv_post_acquires takes [exec_micro ... = MOk e'] as hypothesis: with
        ch_cnt = S n and a non-empty ch_recv_sync the step can still be
        MFail _ (PanicModel 20) when the harness queue ho_q is empty (model
        stuck, never expected).  With ch_cnt = S n and ch_recv_sync = [] the
        step is MFail e PanicExpectMsg as for ch_cnt = 0.
   D-f  atomic_rmw_release_sequence is stated for a result
        [inl (s', caus', prev, true)] (the flag is true exactly in the Ok
        branch) and gives more than requested: also vle rel (st_sync new),
        vle caus caus', the acquire half, prev and the stored value.

   Things the lemmas make visible (true facts of the transcribed code):
   - a failed try_lock / try_read / try_write returns the state unchanged
     (post_acquire*_fail_id): no causality is acquired on failure;
   - Arc clone (MArcIncPost) transfers nothing; strong_count (MArcCountPost)
     and get_mut (MArcGetMutPost) acquire arc_sync;
   - a Relaxed store publishes exactly join(sync0, last release fence) and
     not the thread's clock (atomic_store_relaxed_sync); an RMW always carries
     the sync of the store it read from, whatever its ordering;
   - MNotifyPost joins the notifier's clock directly into every other thread
     whose pending operation is on the notify object (notify_post_unparks),
     in addition to publishing it in nt_sync. *)
Require Import LV.Base LV.VV LV.VVFacts LV.Path LV.Prog LV.Objects LV.Exec LV.Atomic LV.Ops.
Require Export LV.ListFacts.
From Coq Require Import List Arith Lia Bool.
Import ListNotations.

(* ================================================================== *)
(* 1. Generic: sync_store / sync_load                                  *)

Lemma sync_store_keeps : forall s c r o, vle s (sync_store s c r o).
Proof.
  intros s c r o. unfold sync_store. destruct (ord_rel o).
  - apply vle_trans with (vv_join s r); apply vle_join_l.
  - apply vle_join_l.
Qed.

Lemma sync_store_released : forall s c r o, vle r (sync_store s c r o).
Proof.
  intros s c r o. unfold sync_store. destruct (ord_rel o).
  - apply vle_trans with (vv_join s r); [apply vle_join_r | apply vle_join_l].
  - apply vle_join_r.
Qed.

Lemma sync_store_rel : forall s c r o, ord_rel o = true -> vle c (sync_store s c r o).
Proof.
  intros s c r o Hrel. unfold sync_store. rewrite Hrel. apply vle_join_r.
Qed.

Lemma sync_store_rlx : forall s c r o, ord_rel o = false ->
  forall i, vv_get (sync_store s c r o) i = Nat.max (vv_get s i) (vv_get r i).
Proof.
  intros s c r o Hrel i. unfold sync_store. rewrite Hrel. apply vv_get_join.
Qed.

(* the published view is exactly the join of its three inputs *)
Lemma sync_store_rel_get : forall s c r o, ord_rel o = true ->
  forall i, vv_get (sync_store s c r o) i =
            Nat.max (Nat.max (vv_get s i) (vv_get r i)) (vv_get c i).
Proof.
  intros s c r o Hrel i. unfold sync_store. rewrite Hrel. rewrite !vv_get_join. reflexivity.
Qed.

Lemma sync_store_mono : forall s s' c r o, vle s s' -> vle (sync_store s c r o) (sync_store s' c r o).
Proof.
  intros s s' c r o Hle. unfold sync_store. destruct (ord_rel o).
  - apply vv_join_mono; [apply vv_join_mono; [exact Hle | apply vle_refl] | apply vle_refl].
  - apply vv_join_mono; [exact Hle | apply vle_refl].
Qed.

Lemma sync_load_keeps : forall c s o, vle c (sync_load c s o).
Proof.
  intros c s o. unfold sync_load. destruct (ord_acq o).
  - apply vle_join_l.
  - apply vle_refl.
Qed.

Lemma sync_load_acq : forall c s o, ord_acq o = true -> vle s (sync_load c s o).
Proof.
  intros c s o Hacq. unfold sync_load. rewrite Hacq. apply vle_join_r.
Qed.

Lemma sync_load_rlx : forall c s o, ord_acq o = false -> sync_load c s o = c.
Proof.
  intros c s o Hacq. unfold sync_load. rewrite Hacq. reflexivity.
Qed.

Lemma sync_load_least : forall c s o x, vle c x -> vle s x -> vle (sync_load c s o) x.
Proof.
  intros c s o x Hc Hs. unfold sync_load. destruct (ord_acq o).
  - apply vle_join_lub; assumption.
  - exact Hc.
Qed.

(* every hand-over below: the releaser's clock is under the published view, the
   view only grows until the acquire, the acquirer's new clock is above it *)
Lemma handover_chain : forall c v1 v2 c', vle c v1 -> vle v1 v2 -> vle v2 c' -> vle c c'.
Proof.
  intros c v1 v2 c' Hpub Hle Hacq.
  apply vle_trans with v1; [exact Hpub|]. apply vle_trans with v2; [exact Hle | exact Hacq].
Qed.

(* ================================================================== *)
(* 2. Framing helpers                                                  *)

(* ---- thread state setters keep t_caus ---- *)
Lemma t_caus_set_blocked : forall t, t_caus (set_blocked t) = t_caus t.
Proof. reflexivity. Qed.
Lemma t_caus_set_runnable : forall t, t_caus (set_runnable t) = t_caus t.
Proof. reflexivity. Qed.
Lemma t_caus_th_set_state : forall t s, t_caus (th_set_state t s) = t_caus t.
Proof. reflexivity. Qed.
Lemma t_caus_th_set_caus : forall t v, t_caus (th_set_caus t v) = v.
Proof. reflexivity. Qed.
Lemma t_caus_th_set_cont : forall t c, t_caus (th_set_cont t c) = t_caus t.
Proof. reflexivity. Qed.
Lemma t_caus_set_unparked : forall t, t_caus (set_unparked t) = t_caus t.
Proof.
  intros t. unfold set_unparked.
  destruct (is_parked t); [reflexivity|].
  destruct (is_terminated t); reflexivity.
Qed.
Lemma t_caus_thread_unpark : forall t c, t_caus (thread_unpark t c) = vv_join (t_caus t) c.
Proof. intros t c. unfold thread_unpark. rewrite t_caus_set_unparked. reflexivity. Qed.
Lemma t_caus_thread_notified : forall t c, t_caus (thread_notified t c) = vv_join (t_caus t) c.
Proof. reflexivity. Qed.

(* ---- projections of the exec setters ---- *)
Lemma e_threads_set_threads : forall e l, e_threads (ex_set_threads e l) = l.
Proof. reflexivity. Qed.
Lemma e_objects_set_threads : forall e l, e_objects (ex_set_threads e l) = e_objects e.
Proof. reflexivity. Qed.
Lemma e_objects_upd_thread : forall e i f, e_objects (upd_thread e i f) = e_objects e.
Proof. reflexivity. Qed.
Lemma e_objects_set_caus : forall e i v, e_objects (set_caus e i v) = e_objects e.
Proof. reflexivity. Qed.
Lemma e_objects_map_others : forall e me p f, e_objects (map_others e me p f) = e_objects e.
Proof. reflexivity. Qed.
Lemma e_objects_upd_hobj : forall e i f, e_objects (upd_hobj e i f) = e_objects e.
Proof. reflexivity. Qed.
Lemma e_objects_push_cont : forall e me ms, e_objects (push_cont e me ms) = e_objects e.
Proof. reflexivity. Qed.
Lemma e_objects_set_slot : forall e k i b, e_objects (set_slot e k i b) = e_objects e.
Proof. reflexivity. Qed.
Lemma e_objects_set_log : forall e l, e_objects (ex_set_log e l) = e_objects e.
Proof. reflexivity. Qed.
Lemma e_objects_log_op : forall e me r, e_objects (log_op e me r) = e_objects e.
Proof. intros e me r. unfold log_op. destruct (get_thread e me); reflexivity. Qed.
Lemma e_objects_upd_object : forall e i f,
  e_objects (upd_object e i f) = list_upd (e_objects e) i f.
Proof. reflexivity. Qed.

Lemma e_threads_upd_object : forall e i f, e_threads (upd_object e i f) = e_threads e.
Proof. reflexivity. Qed.
Lemma e_threads_upd_hobj : forall e i f, e_threads (upd_hobj e i f) = e_threads e.
Proof. reflexivity. Qed.
Lemma e_threads_set_slot : forall e k i b, e_threads (set_slot e k i b) = e_threads e.
Proof. reflexivity. Qed.
Lemma e_threads_set_log : forall e l, e_threads (ex_set_log e l) = e_threads e.
Proof. reflexivity. Qed.
Lemma e_threads_log_op : forall e me r, e_threads (log_op e me r) = e_threads e.
Proof. intros e me r. unfold log_op. destruct (get_thread e me); reflexivity. Qed.
Lemma e_threads_upd_thread : forall e i f,
  e_threads (upd_thread e i f) = list_upd (e_threads e) i f.
Proof. reflexivity. Qed.
Lemma e_active_upd_object : forall e i f, e_active (upd_object e i f) = e_active e.
Proof. reflexivity. Qed.

Lemma length_threads_upd_thread : forall e i f,
  length (e_threads (upd_thread e i f)) = length (e_threads e).
Proof. intros e i f. rewrite e_threads_upd_thread. apply list_upd_length. Qed.

(* ---- get_thread ---- *)
Lemma get_thread_upd_thread_same : forall e i f,
  get_thread (upd_thread e i f) i = option_map f (get_thread e i).
Proof. intros e i f. unfold get_thread. rewrite e_threads_upd_thread. apply nth_error_list_upd_same. Qed.

Lemma get_thread_upd_thread_other : forall e i j f,
  i <> j -> get_thread (upd_thread e i f) j = get_thread e j.
Proof.
  intros e i j f Hne. unfold get_thread. rewrite e_threads_upd_thread.
  apply nth_error_list_upd_other. exact Hne.
Qed.

Lemma get_thread_upd_object : forall e i f j, get_thread (upd_object e i f) j = get_thread e j.
Proof. reflexivity. Qed.

Lemma get_thread_map_others : forall e me p f j,
  get_thread (map_others e me p f) j =
  option_map (fun t => if negb (Nat.eqb j me) && p t then f t else t) (get_thread e j).
Proof.
  intros e me p f j. unfold get_thread, map_others. rewrite e_threads_set_threads.
  apply nth_error_mapi.
Qed.

Lemma get_thread_some_lt : forall e i t, get_thread e i = Some t -> i < length (e_threads e).
Proof.
  intros e i t Hg. unfold get_thread in Hg. apply nth_error_Some. rewrite Hg. discriminate.
Qed.

Lemma get_thread_lt_some : forall e i, i < length (e_threads e) -> exists t, get_thread e i = Some t.
Proof.
  intros e i Hlt. unfold get_thread. destruct (nth_error (e_threads e) i) as [t|] eqn:Hn.
  - exists t. reflexivity.
  - apply nth_error_None in Hn. lia.
Qed.

(* ---- caus_of / rel_of ---- *)
Lemma caus_of_threads_eq : forall e1 e2 j,
  e_threads e1 = e_threads e2 -> caus_of e1 j = caus_of e2 j.
Proof. intros e1 e2 j Heq. unfold caus_of, get_thread. rewrite Heq. reflexivity. Qed.

Lemma rel_of_threads_eq : forall e1 e2 j,
  e_threads e1 = e_threads e2 -> rel_of e1 j = rel_of e2 j.
Proof. intros e1 e2 j Heq. unfold rel_of, get_thread. rewrite Heq. reflexivity. Qed.

Lemma caus_of_upd_thread_same : forall e i f t,
  get_thread e i = Some t -> caus_of (upd_thread e i f) i = t_caus (f t).
Proof.
  intros e i f t Hg. unfold caus_of. rewrite get_thread_upd_thread_same. rewrite Hg. reflexivity.
Qed.

Lemma caus_of_upd_thread_other : forall e i j f,
  i <> j -> caus_of (upd_thread e i f) j = caus_of e j.
Proof.
  intros e i j f Hne. unfold caus_of. rewrite get_thread_upd_thread_other by exact Hne. reflexivity.
Qed.

(* an update that keeps t_caus keeps every clock *)
Lemma caus_of_upd_thread_keep : forall e i f j,
  (forall t, t_caus (f t) = t_caus t) -> caus_of (upd_thread e i f) j = caus_of e j.
Proof.
  intros e i f j Hk. destruct (Nat.eq_dec i j) as [Heq|Hne].
  - subst j. unfold caus_of. rewrite get_thread_upd_thread_same.
    destruct (get_thread e i) as [t|]; simpl; [apply Hk | reflexivity].
  - apply caus_of_upd_thread_other. exact Hne.
Qed.

Lemma caus_of_upd_object : forall e i f j, caus_of (upd_object e i f) j = caus_of e j.
Proof. reflexivity. Qed.
Lemma rel_of_upd_object : forall e i f j, rel_of (upd_object e i f) j = rel_of e j.
Proof. reflexivity. Qed.
Lemma caus_of_upd_hobj : forall e i f j, caus_of (upd_hobj e i f) j = caus_of e j.
Proof. reflexivity. Qed.
Lemma caus_of_set_slot : forall e k i b j, caus_of (set_slot e k i b) j = caus_of e j.
Proof. reflexivity. Qed.
Lemma caus_of_set_log : forall e l j, caus_of (ex_set_log e l) j = caus_of e j.
Proof. reflexivity. Qed.
Lemma caus_of_log_op : forall e me r j, caus_of (log_op e me r) j = caus_of e j.
Proof. intros e me r j. apply caus_of_threads_eq. apply e_threads_log_op. Qed.
Lemma caus_of_push_cont : forall e me ms j, caus_of (push_cont e me ms) j = caus_of e j.
Proof. intros e me ms j. unfold push_cont. apply caus_of_upd_thread_keep. reflexivity. Qed.

Lemma caus_of_set_caus_same : forall e i v,
  i < length (e_threads e) -> caus_of (set_caus e i v) i = v.
Proof.
  intros e i v Hlt. destruct (get_thread_lt_some e i Hlt) as [t Ht].
  unfold set_caus. rewrite (caus_of_upd_thread_same e i _ t Ht). reflexivity.
Qed.

Lemma caus_of_set_caus_other : forall e i j v,
  j <> i -> caus_of (set_caus e i v) j = caus_of e j.
Proof.
  intros e i j v Hne. unfold set_caus. apply caus_of_upd_thread_other. exact (not_eq_sym Hne).
Qed.

Lemma caus_of_out_of_range : forall e i, length (e_threads e) <= i -> caus_of e i = vv_new.
Proof.
  intros e i Hle. unfold caus_of, get_thread.
  destruct (nth_error (e_threads e) i) as [t|] eqn:Hn; [|reflexivity].
  assert (i < length (e_threads e)) by (apply nth_error_Some; rewrite Hn; discriminate). lia.
Qed.

(* map_others with a function that keeps t_caus keeps every clock *)
Lemma caus_of_map_others_keep : forall e me p f j,
  (forall t, t_caus (f t) = t_caus t) -> caus_of (map_others e me p f) j = caus_of e j.
Proof.
  intros e me p f j Hk. unfold caus_of. rewrite get_thread_map_others.
  destruct (get_thread e j) as [t|]; simpl; [|reflexivity].
  destruct (negb (Nat.eqb j me) && p t); [apply Hk | reflexivity].
Qed.

(* map_others never touches [me] *)
Lemma caus_of_map_others_me : forall e me p f, caus_of (map_others e me p f) me = caus_of e me.
Proof.
  intros e me p f. unfold caus_of. rewrite get_thread_map_others.
  destruct (get_thread e me) as [t|]; simpl; [|reflexivity].
  rewrite Nat.eqb_refl. reflexivity.
Qed.

Lemma caus_of_map_others_hit : forall e me p f j t,
  j <> me -> get_thread e j = Some t -> p t = true ->
  caus_of (map_others e me p f) j = t_caus (f t).
Proof.
  intros e me p f j t Hne Hg Hp. unfold caus_of. rewrite get_thread_map_others. rewrite Hg. simpl.
  apply Nat.eqb_neq in Hne. rewrite Hne, Hp. reflexivity.
Qed.

Lemma caus_of_map_others_miss : forall e me p f j t,
  get_thread e j = Some t -> p t = false ->
  caus_of (map_others e me p f) j = t_caus t.
Proof.
  intros e me p f j t Hg Hp. unfold caus_of. rewrite get_thread_map_others. rewrite Hg. simpl.
  rewrite Hp. rewrite andb_false_r. reflexivity.
Qed.

Lemma length_threads_map_others : forall e me p f,
  length (e_threads (map_others e me p f)) = length (e_threads e).
Proof.
  intros e me p f. unfold map_others. rewrite e_threads_set_threads. unfold mapi.
  apply mapi_from_length.
Qed.

(* ---- objects ---- *)
Lemma nth_error_objects_upd_same : forall e i f,
  nth_error (e_objects (upd_object e i f)) i = option_map f (nth_error (e_objects e) i).
Proof. intros e i f. rewrite e_objects_upd_object. apply nth_error_list_upd_same. Qed.

Lemma nth_error_objects_upd_other : forall e i j f,
  i <> j -> nth_error (e_objects (upd_object e i f)) j = nth_error (e_objects e) j.
Proof. intros e i j f Hne. rewrite e_objects_upd_object. apply nth_error_list_upd_other. exact Hne. Qed.

Lemma get_mutex_nth : forall e m s,
  get_mutex e m = Some s -> nth_error (e_objects e) m = Some (OMutex s).
Proof.
  intros e m s Hg. unfold get_mutex in Hg.
  destruct (nth_error (e_objects e) m) as [o|]; [|discriminate].
  destruct o; try discriminate. inversion Hg. reflexivity.
Qed.

Lemma get_mutex_upd_const : forall e m o s',
  nth_error (e_objects e) m = Some o ->
  get_mutex (upd_object e m (fun _ => OMutex s')) m = Some s'.
Proof.
  intros e m o s' Hn. unfold get_mutex. rewrite nth_error_objects_upd_same. rewrite Hn. reflexivity.
Qed.

Lemma get_mutex_objects_eq : forall e1 e2 m,
  e_objects e1 = e_objects e2 -> get_mutex e1 m = get_mutex e2 m.
Proof. intros e1 e2 m Heq. unfold get_mutex. rewrite Heq. reflexivity. Qed.

Lemma get_rw_nth : forall e r s,
  get_rw e r = Some s -> nth_error (e_objects e) r = Some (ORwLock s).
Proof.
  intros e r s Hg. unfold get_rw in Hg.
  destruct (nth_error (e_objects e) r) as [o|]; [|discriminate].
  destruct o; try discriminate. inversion Hg. reflexivity.
Qed.

Lemma get_rw_upd_const : forall e r o s',
  nth_error (e_objects e) r = Some o ->
  get_rw (upd_object e r (fun _ => ORwLock s')) r = Some s'.
Proof.
  intros e r o s' Hn. unfold get_rw. rewrite nth_error_objects_upd_same. rewrite Hn. reflexivity.
Qed.

Lemma get_rw_objects_eq : forall e1 e2 r,
  e_objects e1 = e_objects e2 -> get_rw e1 r = get_rw e2 r.
Proof. intros e1 e2 r Heq. unfold get_rw. rewrite Heq. reflexivity. Qed.

Lemma get_notify_nth : forall e n s,
  get_notify e n = Some s -> nth_error (e_objects e) n = Some (ONotify s).
Proof.
  intros e n s Hg. unfold get_notify in Hg.
  destruct (nth_error (e_objects e) n) as [o|]; [|discriminate].
  destruct o; try discriminate. inversion Hg. reflexivity.
Qed.

Lemma get_notify_upd_const : forall e n o s',
  nth_error (e_objects e) n = Some o ->
  get_notify (upd_object e n (fun _ => ONotify s')) n = Some s'.
Proof.
  intros e n o s' Hn. unfold get_notify. rewrite nth_error_objects_upd_same. rewrite Hn. reflexivity.
Qed.

Lemma get_notify_objects_eq : forall e1 e2 n,
  e_objects e1 = e_objects e2 -> get_notify e1 n = get_notify e2 n.
Proof. intros e1 e2 n Heq. unfold get_notify. rewrite Heq. reflexivity. Qed.

Lemma get_chan_nth : forall e h s,
  get_chan e h = Some s -> nth_error (e_objects e) h = Some (OChannel s).
Proof.
  intros e h s Hg. unfold get_chan in Hg.
  destruct (nth_error (e_objects e) h) as [o|]; [|discriminate].
  destruct o; try discriminate. inversion Hg. reflexivity.
Qed.

Lemma get_chan_upd_const : forall e h o s',
  nth_error (e_objects e) h = Some o ->
  get_chan (upd_object e h (fun _ => OChannel s')) h = Some s'.
Proof.
  intros e h o s' Hn. unfold get_chan. rewrite nth_error_objects_upd_same. rewrite Hn. reflexivity.
Qed.

Lemma get_chan_objects_eq : forall e1 e2 h,
  e_objects e1 = e_objects e2 -> get_chan e1 h = get_chan e2 h.
Proof. intros e1 e2 h Heq. unfold get_chan. rewrite Heq. reflexivity. Qed.

Lemma get_arc_nth : forall e k s,
  get_arc e k = Some s -> nth_error (e_objects e) k = Some (OArc s).
Proof.
  intros e k s Hg. unfold get_arc in Hg.
  destruct (nth_error (e_objects e) k) as [o|]; [|discriminate].
  destruct o; try discriminate. inversion Hg. reflexivity.
Qed.

Lemma get_arc_upd_const : forall e k o s',
  nth_error (e_objects e) k = Some o ->
  get_arc (upd_object e k (fun _ => OArc s')) k = Some s'.
Proof.
  intros e k o s' Hn. unfold get_arc. rewrite nth_error_objects_upd_same. rewrite Hn. reflexivity.
Qed.

Lemma get_arc_objects_eq : forall e1 e2 k,
  e_objects e1 = e_objects e2 -> get_arc e1 k = get_arc e2 k.
Proof. intros e1 e2 k Heq. unfold get_arc. rewrite Heq. reflexivity. Qed.

Lemma MOk_inj : forall a b, MOk a = MOk b -> a = b.
Proof. intros a b H. injection H as H. exact H. Qed.

Lemma is_some_false : forall (A : Type) (o : option A), is_some o = false <-> o = None.
Proof. intros A o. destruct o; simpl; split; intros H; try reflexivity; discriminate. Qed.

(* ================================================================== *)
(* 3. Mutex (C07 hand-over)                                            *)

Lemma release_lock_state : forall e me m s,
  get_mutex e m = Some s -> e_active e <> None ->
  exists s', get_mutex (release_lock e me m) m = Some s' /\
             mx_sync s' = sync_store (mx_sync s) (caus_of e me) (rel_of e me) Release /\
             mx_lock s' = None.
Proof.
  intros e me m s Hget Hact.
  pose proof (get_mutex_nth e m s Hget) as Hnth.
  unfold release_lock. rewrite Hget. cbv zeta.
  rewrite e_active_upd_object.
  destruct (e_active e) as [a|] eqn:Ha; [|exfalso; apply Hact; reflexivity].
  rewrite caus_of_upd_object, rel_of_upd_object.
  eexists. split.
  - eapply get_mutex_upd_const.
    rewrite nth_error_objects_upd_same. rewrite Hnth. reflexivity.
  - split; reflexivity.
Qed.

Lemma release_lock_publishes : forall e me m s,
  get_mutex e m = Some s -> e_active e <> None ->
  exists s', get_mutex (release_lock e me m) m = Some s' /\
             vle (caus_of e me) (mx_sync s') /\
             vle (mx_sync s) (mx_sync s') /\
             mx_lock s' = None.
Proof.
  intros e me m s Hget Hact.
  destruct (release_lock_state e me m s Hget Hact) as [s' [Hg [Hsy Hlk]]].
  exists s'. rewrite Hsy. split; [exact Hg|].
  split; [apply sync_store_rel; reflexivity | split; [apply sync_store_keeps | exact Hlk]].
Qed.

Lemma release_lock_sync : forall e me m s,
  get_mutex e m = Some s -> e_active e <> None ->
  exists s', get_mutex (release_lock e me m) m = Some s' /\
             mx_sync s' = sync_store (mx_sync s) (caus_of e me) (rel_of e me) Release.
Proof.
  intros e me m s Hget Hact.
  destruct (release_lock_state e me m s Hget Hact) as [s' [Hg [Hsy _]]].
  exists s'. split; [exact Hg | exact Hsy].
Qed.

(* unlocking never changes any thread's clock *)
Lemma release_lock_clocks : forall e me m j, caus_of (release_lock e me m) j = caus_of e j.
Proof.
  intros e me m j. unfold release_lock.
  destruct (get_mutex e m) as [s|]; [|reflexivity]. cbv zeta.
  rewrite e_active_upd_object.
  destruct (e_active e) as [a|]; [|reflexivity].
  rewrite caus_of_map_others_keep by (intros t; reflexivity).
  reflexivity.
Qed.

Lemma post_acquire_acquires : forall e me m s e',
  get_mutex e m = Some s -> post_acquire e me m = (e', true) ->
  me < length (e_threads e) ->
  vle (mx_sync s) (caus_of e' me) /\
  vle (caus_of e me) (caus_of e' me) /\
  exists s', get_mutex e' m = Some s' /\ mx_lock s' = Some me /\ mx_sync s' = mx_sync s.
Proof.
  intros e me m s e' Hget Hpa Hlt.
  pose proof (get_mutex_nth e m s Hget) as Hnth.
  unfold post_acquire in Hpa. rewrite Hget in Hpa. cbv zeta in Hpa.
  destruct (is_some (mx_lock s)) eqn:Hlk; [discriminate|].
  inversion Hpa as [He']. clear Hpa.
  rewrite caus_of_map_others_me.
  rewrite caus_of_set_caus_same by exact Hlt.
  rewrite caus_of_upd_object.
  split; [|split].
  - apply sync_load_acq. reflexivity.
  - apply sync_load_keeps.
  - eexists. split; [exact (get_mutex_upd_const e m _ _ Hnth) | split; reflexivity].
Qed.

(* the acquirer's new clock, exactly *)
Lemma post_acquire_clock : forall e me m s e',
  get_mutex e m = Some s -> post_acquire e me m = (e', true) ->
  me < length (e_threads e) ->
  caus_of e' me = vv_join (caus_of e me) (mx_sync s).
Proof.
  intros e me m s e' Hget Hpa Hlt.
  unfold post_acquire in Hpa. rewrite Hget in Hpa. cbv zeta in Hpa.
  destruct (is_some (mx_lock s)) eqn:Hlk; [discriminate|].
  inversion Hpa as [He']. clear Hpa.
  rewrite caus_of_map_others_me.
  rewrite caus_of_set_caus_same by exact Hlt.
  rewrite caus_of_upd_object. reflexivity.
Qed.

Lemma post_acquire_fails_iff : forall e me m s,
  get_mutex e m = Some s ->
  (snd (post_acquire e me m) = false <-> mx_lock s <> None).
Proof.
  intros e me m s Hget. unfold post_acquire. rewrite Hget. cbv zeta.
  destruct (mx_lock s) as [o|]; simpl.
  - split; [intros _; discriminate | reflexivity].
  - split; [discriminate | intros H; exfalso; apply H; reflexivity].
Qed.

(* a failed (try_)lock changes nothing *)
Lemma post_acquire_fail_id : forall e me m e',
  post_acquire e me m = (e', false) -> e' = e.
Proof.
  intros e me m e' Hpa. unfold post_acquire in Hpa.
  destruct (get_mutex e m) as [s|]; [|inversion Hpa; reflexivity].
  cbv zeta in Hpa.
  destruct (is_some (mx_lock s)); [inversion Hpa; reflexivity | discriminate].
Qed.

Lemma post_acquire_other_clocks : forall e me m e' b,
  post_acquire e me m = (e', b) -> forall j, j <> me -> caus_of e' j = caus_of e j.
Proof.
  intros e me m e' b Hpa j Hne. unfold post_acquire in Hpa.
  destruct (get_mutex e m) as [s|]; [|inversion Hpa; reflexivity].
  cbv zeta in Hpa.
  destruct (is_some (mx_lock s)); [inversion Hpa; reflexivity|].
  inversion Hpa as [[He' Hb]]. clear Hpa.
  rewrite caus_of_map_others_keep by (intros t; reflexivity).
  rewrite caus_of_set_caus_other by exact Hne.
  apply caus_of_upd_object.
Qed.

Corollary mutex_handover : forall e a m s s1 e2 b s2,
  get_mutex e m = Some s -> e_active e <> None ->
  get_mutex (release_lock e a m) m = Some s1 ->
  get_mutex e2 m = Some s2 -> vle (mx_sync s1) (mx_sync s2) -> mx_lock s2 = None ->
  b < length (e_threads e2) ->
  snd (post_acquire e2 b m) = true /\
  vle (caus_of e a) (caus_of (fst (post_acquire e2 b m)) b).
Proof.
  intros e a m s s1 e2 b s2 Hget Hact Hget1 Hget2 Hle Hfree Hlt.
  destruct (release_lock_publishes e a m s Hget Hact) as [s' [Hs' [Hpub _]]].
  rewrite Hget1 in Hs'. inversion Hs' as [Heq]. subst s'. clear Hs'.
  destruct (post_acquire e2 b m) as [e3 ok] eqn:Hpa.
  assert (Hok : ok = true).
  { destruct ok; [reflexivity|]. exfalso.
    pose proof (post_acquire_fails_iff e2 b m s2 Hget2) as Hiff.
    rewrite Hpa in Hiff. simpl in Hiff. apply Hiff; [reflexivity | exact Hfree]. }
  subst ok. simpl. split; [reflexivity|].
  destruct (post_acquire_acquires e2 b m s2 e3 Hget2 Hpa Hlt) as [Hacq _].
  exact (handover_chain _ _ _ _ Hpub Hle Hacq).
Qed.

(* ================================================================== *)
(* 4. RwLock                                                           *)

Lemma set_insert_In : forall x l, In x (set_insert x l).
Proof.
  intros x. induction l as [|h t IHt]; simpl.
  - left. reflexivity.
  - destruct (Nat.eqb h x) eqn:Heq.
    + apply Nat.eqb_eq in Heq. left. exact Heq.
    + right. exact IHt.
Qed.

Lemma set_insert_incl : forall x y l, In y l -> In y (set_insert x l).
Proof.
  intros x y. induction l as [|h t IHt]; simpl; intros Hin.
  - contradiction.
  - destruct (Nat.eqb h x).
    + exact Hin.
    + destruct Hin as [Hh|Ht]; [left; exact Hh | right; apply IHt; exact Ht].
Qed.

Lemma set_remove_not_In : forall x l, ~ In x (set_remove x l).
Proof.
  intros x l Hin. unfold set_remove in Hin. apply filter_In in Hin.
  destruct Hin as [_ Hf]. rewrite Nat.eqb_refl in Hf. discriminate.
Qed.

Lemma post_acquire_read_acquires : forall e me r s e',
  get_rw e r = Some s -> post_acquire_read e me r = (e', true) ->
  me < length (e_threads e) ->
  vle (rw_sync s) (caus_of e' me) /\
  vle (caus_of e me) (caus_of e' me) /\
  exists s' rs, get_rw e' r = Some s' /\ rw_lock s' = Some (RLRead rs) /\ In me rs /\
                rw_sync s' = rw_sync s.
Proof.
  intros e me r s e' Hget Hpa Hlt.
  pose proof (get_rw_nth e r s Hget) as Hnth.
  unfold post_acquire_read in Hpa. rewrite Hget in Hpa.
  destruct (rw_lock s) as [[rs|w]|] eqn:Hlk; cbv beta iota zeta in Hpa; try discriminate;
    inversion Hpa as [He']; clear Hpa;
    rewrite caus_of_map_others_me;
    rewrite caus_of_set_caus_same by exact Hlt;
    rewrite caus_of_upd_object;
    (split; [apply sync_load_acq; reflexivity |
     split; [apply sync_load_keeps |]]).
  - eexists. exists (set_insert me rs). split; [exact (get_rw_upd_const e r _ _ Hnth)|].
    split; [reflexivity | split; [apply set_insert_In | reflexivity]].
  - eexists. exists [me]. split; [exact (get_rw_upd_const e r _ _ Hnth)|].
    split; [reflexivity | split; [left; reflexivity | reflexivity]].
Qed.

Lemma post_acquire_read_fails_iff : forall e me r s,
  get_rw e r = Some s ->
  (snd (post_acquire_read e me r) = false <-> exists w, rw_lock s = Some (RLWrite w)).
Proof.
  intros e me r s Hget. unfold post_acquire_read. rewrite Hget.
  destruct (rw_lock s) as [[rs|w]|]; cbv beta iota zeta; simpl.
  - split; [discriminate | intros [w Hw]; discriminate].
  - split; [intros _; exists w; reflexivity | reflexivity].
  - split; [discriminate | intros [w Hw]; discriminate].
Qed.

Lemma post_acquire_read_fail_id : forall e me r e',
  post_acquire_read e me r = (e', false) -> e' = e.
Proof.
  intros e me r e' Hpa. unfold post_acquire_read in Hpa.
  destruct (get_rw e r) as [s|]; [|inversion Hpa; reflexivity].
  destruct (rw_lock s) as [[rs|w]|]; cbv beta iota zeta in Hpa;
    try discriminate; inversion Hpa; reflexivity.
Qed.

Lemma post_acquire_read_other_clocks : forall e me r e' b,
  post_acquire_read e me r = (e', b) -> forall j, j <> me -> caus_of e' j = caus_of e j.
Proof.
  intros e me r e' b Hpa j Hne. unfold post_acquire_read in Hpa.
  destruct (get_rw e r) as [s|]; [|inversion Hpa; reflexivity].
  destruct (rw_lock s) as [[rs|w]|]; cbv beta iota zeta in Hpa;
    inversion Hpa as [[He' Hb]]; clear Hpa; try reflexivity;
    rewrite caus_of_map_others_keep by (intros t; reflexivity);
    rewrite caus_of_set_caus_other by exact Hne;
    apply caus_of_upd_object.
Qed.

Lemma post_acquire_write_acquires : forall e me r s e',
  get_rw e r = Some s -> post_acquire_write e me r = (e', true) ->
  me < length (e_threads e) ->
  vle (rw_sync s) (caus_of e' me) /\
  vle (caus_of e me) (caus_of e' me) /\
  exists s', get_rw e' r = Some s' /\ rw_lock s' = Some (RLWrite me) /\ rw_sync s' = rw_sync s.
Proof.
  intros e me r s e' Hget Hpa Hlt.
  pose proof (get_rw_nth e r s Hget) as Hnth.
  unfold post_acquire_write in Hpa. rewrite Hget in Hpa.
  destruct (rw_lock s) as [lk|] eqn:Hlk; cbv beta iota zeta in Hpa; [discriminate|].
  inversion Hpa as [He']. clear Hpa.
  rewrite caus_of_map_others_me.
  rewrite caus_of_set_caus_same by exact Hlt.
  rewrite caus_of_upd_object.
  split; [apply sync_load_acq; reflexivity | split; [apply sync_load_keeps |]].
  eexists. split; [exact (get_rw_upd_const e r _ _ Hnth) | split; reflexivity].
Qed.

Lemma post_acquire_write_fails_iff : forall e me r s,
  get_rw e r = Some s ->
  (snd (post_acquire_write e me r) = false <-> rw_lock s <> None).
Proof.
  intros e me r s Hget. unfold post_acquire_write. rewrite Hget.
  destruct (rw_lock s) as [lk|]; cbv beta iota zeta; simpl.
  - split; [intros _; discriminate | reflexivity].
  - split; [discriminate | intros H; exfalso; apply H; reflexivity].
Qed.

Lemma post_acquire_write_fail_id : forall e me r e',
  post_acquire_write e me r = (e', false) -> e' = e.
Proof.
  intros e me r e' Hpa. unfold post_acquire_write in Hpa.
  destruct (get_rw e r) as [s|]; [|inversion Hpa; reflexivity].
  destruct (rw_lock s) as [lk|]; cbv beta iota zeta in Hpa;
    [inversion Hpa; reflexivity | discriminate].
Qed.

Lemma post_acquire_write_other_clocks : forall e me r e' b,
  post_acquire_write e me r = (e', b) -> forall j, j <> me -> caus_of e' j = caus_of e j.
Proof.
  intros e me r e' b Hpa j Hne. unfold post_acquire_write in Hpa.
  destruct (get_rw e r) as [s|]; [|inversion Hpa; reflexivity].
  destruct (rw_lock s) as [lk|]; cbv beta iota zeta in Hpa;
    inversion Hpa as [[He' Hb]]; clear Hpa; [reflexivity|].
  rewrite caus_of_map_others_keep by (intros t; reflexivity).
  rewrite caus_of_set_caus_other by exact Hne.
  apply caus_of_upd_object.
Qed.

(* release_read: the lock field afterwards is None exactly when [me] was the
   last reader, otherwise the remaining reader set *)
Lemma release_read_publishes : forall e me r s e',
  get_rw e r = Some s -> release_read e me r = MOk e' ->
  exists s', get_rw e' r = Some s' /\
             vle (caus_of e me) (rw_sync s') /\
             vle (rw_sync s) (rw_sync s') /\
             exists rs, rw_lock s = Some (RLRead rs) /\
                        rw_lock s' = match set_remove me rs with
                                     | [] => None
                                     | rs' => Some (RLRead rs')
                                     end.
Proof.
  intros e me r s e' Hget Hrel.
  pose proof (get_rw_nth e r s Hget) as Hnth.
  unfold release_read in Hrel. rewrite Hget in Hrel. cbv zeta in Hrel.
  destruct (rw_lock s) as [[rs|w]|] eqn:Hlk; try discriminate.
  destruct (set_remove me rs) as [|x rs'] eqn:Hrm; inversion Hrel as [He']; clear Hrel.
  - eexists. split; [exact (get_rw_upd_const e r _ _ Hnth)|]. simpl.
    split; [apply sync_store_rel; reflexivity | split; [apply sync_store_keeps |]].
    exists rs. rewrite Hrm. split; reflexivity.
  - eexists. split; [exact (get_rw_upd_const e r _ _ Hnth)|]. simpl.
    split; [apply sync_store_rel; reflexivity | split; [apply sync_store_keeps |]].
    exists rs. rewrite Hrm. split; reflexivity.
Qed.

Lemma release_read_ok_iff : forall e me r s,
  get_rw e r = Some s ->
  ((exists e', release_read e me r = MOk e') <-> exists rs, rw_lock s = Some (RLRead rs)).
Proof.
  intros e me r s Hget. unfold release_read. rewrite Hget. cbv zeta.
  destruct (rw_lock s) as [[rs|w]|].
  - split; [intros _; exists rs; reflexivity|]. intros _.
    destruct (set_remove me rs); eexists; reflexivity.
  - split; [intros [e' H]; discriminate | intros [rs H]; discriminate].
  - split; [intros [e' H]; discriminate | intros [rs H]; discriminate].
Qed.

Lemma release_read_clocks : forall e me r e' j,
  release_read e me r = MOk e' -> caus_of e' j = caus_of e j.
Proof.
  intros e me r e' j Hrel. unfold release_read in Hrel.
  destruct (get_rw e r) as [s|]; [|discriminate]. cbv zeta in Hrel.
  destruct (rw_lock s) as [[rs|w]|]; try discriminate.
  destruct (set_remove me rs) as [|x rs']; inversion Hrel as [He']; clear Hrel.
  - rewrite caus_of_map_others_keep by (intros t; reflexivity). reflexivity.
  - reflexivity.
Qed.

Lemma release_write_publishes : forall e me r s,
  get_rw e r = Some s ->
  exists e' s', release_write e me r = MOk e' /\
                get_rw e' r = Some s' /\
                vle (caus_of e me) (rw_sync s') /\
                vle (rw_sync s) (rw_sync s') /\
                rw_lock s' = None.
Proof.
  intros e me r s Hget.
  pose proof (get_rw_nth e r s Hget) as Hnth.
  unfold release_write. rewrite Hget. cbv zeta.
  eexists. eexists. split; [reflexivity|]. split; [exact (get_rw_upd_const e r _ _ Hnth)|].
  simpl. split; [apply sync_store_rel; reflexivity | split; [apply sync_store_keeps | reflexivity]].
Qed.

Lemma release_write_clocks : forall e me r e' j,
  release_write e me r = MOk e' -> caus_of e' j = caus_of e j.
Proof.
  intros e me r e' j Hrel. unfold release_write in Hrel.
  destruct (get_rw e r) as [s|]; [|discriminate]. cbv zeta in Hrel.
  inversion Hrel as [He']. clear Hrel.
  rewrite caus_of_map_others_keep by (intros t; reflexivity). reflexivity.
Qed.

(* writer -> next reader or writer *)
Corollary rw_write_handover : forall e a r s e1 s1 e2 b s2,
  get_rw e r = Some s -> release_write e a r = MOk e1 -> get_rw e1 r = Some s1 ->
  get_rw e2 r = Some s2 -> vle (rw_sync s1) (rw_sync s2) ->
  b < length (e_threads e2) ->
  (forall e3, post_acquire_write e2 b r = (e3, true) -> vle (caus_of e a) (caus_of e3 b)) /\
  (forall e3, post_acquire_read e2 b r = (e3, true) -> vle (caus_of e a) (caus_of e3 b)).
Proof.
  intros e a r s e1 s1 e2 b s2 Hget Hrel Hget1 Hget2 Hle Hlt.
  destruct (release_write_publishes e a r s Hget) as [e1' [s1' [Hrel' [Hg1' [Hpub _]]]]].
  rewrite Hrel in Hrel'. inversion Hrel' as [Heq]. subst e1'. clear Hrel'.
  rewrite Hget1 in Hg1'. inversion Hg1' as [Heq]. subst s1'. clear Hg1'.
  split; intros e3 Hpa.
  - destruct (post_acquire_write_acquires e2 b r s2 e3 Hget2 Hpa Hlt) as [Hacq _].
    exact (handover_chain _ _ _ _ Hpub Hle Hacq).
  - destruct (post_acquire_read_acquires e2 b r s2 e3 Hget2 Hpa Hlt) as [Hacq _].
    exact (handover_chain _ _ _ _ Hpub Hle Hacq).
Qed.

(* reader -> next writer *)
Corollary rw_read_handover : forall e a r s e1 s1 e2 b s2 e3,
  get_rw e r = Some s -> release_read e a r = MOk e1 -> get_rw e1 r = Some s1 ->
  get_rw e2 r = Some s2 -> vle (rw_sync s1) (rw_sync s2) ->
  b < length (e_threads e2) ->
  post_acquire_write e2 b r = (e3, true) ->
  vle (caus_of e a) (caus_of e3 b).
Proof.
  intros e a r s e1 s1 e2 b s2 e3 Hget Hrel Hget1 Hget2 Hle Hlt Hpa.
  destruct (release_read_publishes e a r s e1 Hget Hrel) as [s1' [Hg1' [Hpub _]]].
  rewrite Hget1 in Hg1'. inversion Hg1' as [Heq]. subst s1'. clear Hg1'.
  destruct (post_acquire_write_acquires e2 b r s2 e3 Hget2 Hpa Hlt) as [Hacq _].
  exact (handover_chain _ _ _ _ Hpub Hle Hacq).
Qed.

(* ================================================================== *)
(* 5. Notify / join / thread exit (C08)                                *)

Lemma exec_micro_notify_post : forall e me n,
  exec_micro e me (MNotifyPost n) =
  match get_notify e n with
  | None => MFail e (PanicModel 13)
  | Some s =>
      let sy := sync_store (nt_sync s) (caus_of e me) (rel_of e me) Release in
      let e1 := upd_object e n (fun _ => ONotify (nt_set s (nt_did_spur s) true sy)) in
      MOk (map_others e1 me (pending_on n) (fun t => thread_notified t (caus_of e1 me)))
  end.
Proof. reflexivity. Qed.

Lemma exec_micro_notify_wait2 : forall e me n,
  exec_micro e me (MNotifyWait2 n) =
  match get_notify e n with
  | None => MFail e (PanicModel 13)
  | Some s =>
      if negb (nt_notified s) then MFail e PanicNotified
      else MOk (upd_object (set_caus e me (sync_load (caus_of e me) (nt_sync s) Acquire)) n
                  (fun _ => ONotify (nt_set s (nt_did_spur s) false (nt_sync s))))
  end.
Proof. reflexivity. Qed.

Lemma notify_post_publishes : forall e me n s e',
  get_notify e n = Some s -> exec_micro e me (MNotifyPost n) = MOk e' ->
  exists s', get_notify e' n = Some s' /\
             vle (caus_of e me) (nt_sync s') /\
             vle (nt_sync s) (nt_sync s') /\
             nt_notified s' = true.
Proof.
  intros e me n s e' Hget Hex.
  pose proof (get_notify_nth e n s Hget) as Hnth.
  rewrite exec_micro_notify_post in Hex. rewrite Hget in Hex. cbv zeta in Hex.
  inversion Hex as [He']. clear Hex.
  eexists. split; [exact (get_notify_upd_const e n _ _ Hnth)|].
  simpl. split; [apply sync_store_rel; reflexivity | split; [apply sync_store_keeps | reflexivity]].
Qed.

(* every OTHER thread pending on the notify is unparked with the notifier's clock *)
Lemma notify_post_unparks : forall e me n s e' j t,
  get_notify e n = Some s -> exec_micro e me (MNotifyPost n) = MOk e' ->
  j <> me -> get_thread e j = Some t -> pending_on n t = true ->
  vle (caus_of e me) (caus_of e' j) /\ vle (caus_of e j) (caus_of e' j) /\
  caus_of e' j = vv_join (caus_of e j) (caus_of e me).
Proof.
  intros e me n s e' j t Hget Hex Hne Hth Hpend.
  rewrite exec_micro_notify_post in Hex. rewrite Hget in Hex. cbv zeta in Hex.
  inversion Hex as [He']. clear Hex.
  rewrite (caus_of_map_others_hit _ me (pending_on n) _ j t Hne);
    [| rewrite get_thread_upd_object; exact Hth | exact Hpend].
  rewrite t_caus_thread_notified. rewrite caus_of_upd_object.
  assert (Hcj : caus_of e j = t_caus t) by (unfold caus_of; rewrite Hth; reflexivity).
  rewrite Hcj.
  split; [apply vle_join_r | split; [apply vle_join_l | reflexivity]].
Qed.

(* the notifier itself and the threads not pending on [n] keep their clocks *)
Lemma notify_post_other_clocks : forall e me n s e' j,
  get_notify e n = Some s -> exec_micro e me (MNotifyPost n) = MOk e' ->
  (j = me \/ forall t, get_thread e j = Some t -> pending_on n t = false) ->
  caus_of e' j = caus_of e j.
Proof.
  intros e me n s e' j Hget Hex Hcase.
  rewrite exec_micro_notify_post in Hex. rewrite Hget in Hex. cbv zeta in Hex.
  inversion Hex as [He']. clear Hex.
  destruct Hcase as [Heq|Hnp].
  - subst j. rewrite caus_of_map_others_me. apply caus_of_upd_object.
  - destruct (get_thread e j) as [t|] eqn:Hth.
    + rewrite (caus_of_map_others_miss _ me (pending_on n) _ j t);
        [| rewrite get_thread_upd_object; exact Hth | apply Hnp; reflexivity].
      unfold caus_of. rewrite Hth. reflexivity.
    + unfold caus_of at 1. rewrite get_thread_map_others. rewrite get_thread_upd_object.
      rewrite Hth. simpl. unfold caus_of. rewrite Hth. reflexivity.
Qed.

(* clocks never shrink in a notify *)
Lemma notify_post_monotone : forall e me n s e' j,
  get_notify e n = Some s -> exec_micro e me (MNotifyPost n) = MOk e' ->
  vle (caus_of e j) (caus_of e' j).
Proof.
  intros e me n s e' j Hget Hex.
  destruct (Nat.eq_dec j me) as [Heq|Hne].
  - rewrite (notify_post_other_clocks e me n s e' j Hget Hex (or_introl Heq)). apply vle_refl.
  - destruct (get_thread e j) as [t|] eqn:Hth.
    + destruct (pending_on n t) eqn:Hp.
      * destruct (notify_post_unparks e me n s e' j t Hget Hex Hne Hth Hp) as [_ [H _]]. exact H.
      * rewrite (notify_post_other_clocks e me n s e' j Hget Hex).
        -- apply vle_refl.
        -- right. intros t' Ht'. rewrite Hth in Ht'. inversion Ht'. subst t'. exact Hp.
    + rewrite (notify_post_other_clocks e me n s e' j Hget Hex).
      * apply vle_refl.
      * right. intros t' Ht'. rewrite Hth in Ht'. discriminate.
Qed.

Lemma notify_wait2_acquires : forall e me n s e',
  get_notify e n = Some s -> exec_micro e me (MNotifyWait2 n) = MOk e' ->
  me < length (e_threads e) ->
  nt_notified s = true /\
  vle (nt_sync s) (caus_of e' me) /\
  vle (caus_of e me) (caus_of e' me) /\
  exists s', get_notify e' n = Some s' /\ nt_notified s' = false /\ nt_sync s' = nt_sync s.
Proof.
  intros e me n s e' Hget Hex Hlt.
  pose proof (get_notify_nth e n s Hget) as Hnth.
  rewrite exec_micro_notify_wait2 in Hex. rewrite Hget in Hex.
  destruct (nt_notified s) eqn:Hnot; simpl in Hex; [|discriminate].
  inversion Hex as [He']. clear Hex.
  split; [reflexivity|].
  rewrite caus_of_upd_object.
  rewrite caus_of_set_caus_same by exact Hlt.
  split; [apply sync_load_acq; reflexivity | split; [apply sync_load_keeps |]].
  eexists. split; [exact (get_notify_upd_const e n _ _ Hnth) | split; reflexivity].
Qed.

Lemma notify_wait2_fails_iff : forall e me n s,
  get_notify e n = Some s ->
  ((exists e', exec_micro e me (MNotifyWait2 n) = MFail e' PanicNotified) <->
   nt_notified s = false).
Proof.
  intros e me n s Hget. rewrite exec_micro_notify_wait2. rewrite Hget.
  destruct (nt_notified s); simpl.
  - split; [intros [e' H]; discriminate | discriminate].
  - split; [reflexivity | intros _; exists e; reflexivity].
Qed.

Lemma notify_wait2_other_clocks : forall e me n e' j,
  exec_micro e me (MNotifyWait2 n) = MOk e' -> j <> me -> caus_of e' j = caus_of e j.
Proof.
  intros e me n e' j Hex Hne. rewrite exec_micro_notify_wait2 in Hex.
  destruct (get_notify e n) as [s|]; [|discriminate].
  destruct (negb (nt_notified s)); [discriminate|].
  inversion Hex as [He']. clear Hex.
  rewrite caus_of_upd_object.
  apply caus_of_set_caus_other. exact Hne.
Qed.

(* notify (thread exit) -> wait (join) *)
Corollary notify_handover : forall e a n s e1 s1 e2 b s2 e3,
  get_notify e n = Some s -> exec_micro e a (MNotifyPost n) = MOk e1 ->
  get_notify e1 n = Some s1 ->
  get_notify e2 n = Some s2 -> vle (nt_sync s1) (nt_sync s2) ->
  b < length (e_threads e2) ->
  exec_micro e2 b (MNotifyWait2 n) = MOk e3 ->
  vle (caus_of e a) (caus_of e3 b).
Proof.
  intros e a n s e1 s1 e2 b s2 e3 Hget Hpost Hget1 Hget2 Hle Hlt Hwait.
  destruct (notify_post_publishes e a n s e1 Hget Hpost) as [s1' [Hg1' [Hpub _]]].
  rewrite Hget1 in Hg1'. inversion Hg1' as [Heq]. subst s1'. clear Hg1'.
  destruct (notify_wait2_acquires e2 b n s2 e3 Hget2 Hwait Hlt) as [_ [Hacq _]].
  exact (handover_chain _ _ _ _ Hpub Hle Hacq).
Qed.

(* the join / exit wrappers only schedule the two micro-steps above *)
Lemma join_schedules_wait : forall e me b e',
  exec_micro e me (MJoin b) = MOk e' ->
  exists tid nidx, nth b (e_spawned e) None = Some (tid, nidx) /\
    (forall j, caus_of e' j = caus_of e j) /\ e_objects e' = e_objects e.
Proof.
  intros e me b e' Hex. unfold exec_micro in Hex.
  destruct (nth b (e_spawned e) None) as [[tid nidx]|]; [|discriminate].
  destruct (nth b (e_joined e) true); [discriminate|].
  inversion Hex as [He']. clear Hex.
  exists tid, nidx. split; [reflexivity|]. split.
  - intros j. rewrite caus_of_push_cont. reflexivity.
  - reflexivity.
Qed.

Lemma exit_schedules_post : forall e me e',
  exec_micro e me MExitNotify = MOk e' ->
  (forall j, caus_of e' j = caus_of e j) /\ e_objects e' = e_objects e.
Proof.
  intros e me e' Hex. unfold exec_micro in Hex.
  destruct (get_thread e me) as [t|]; [|discriminate].
  destruct (nth (t_body t) (e_spawned e) None) as [[tid nidx]|]; [|discriminate].
  inversion Hex as [He']. clear Hex. split.
  - intros j. rewrite caus_of_push_cont. reflexivity.
  - reflexivity.
Qed.

(* ================================================================== *)
(* 6. Channel (C09)                                                    *)

(* MSendPost with the receiver gone writes the channel object twice (push, then
   Channel::undo_send): the first write is dead.  These equations bring the
   result back to the single-write shape the framing tactics of the later
   files (SyncMono, NotifyFacts, ClockFacts, LeakFacts, ...) know. *)
Lemma upd_object_upd_object_const : forall e i o1 o2,
  upd_object (upd_object e i (fun _ => o1)) i (fun _ => o2) = upd_object e i (fun _ => o2).
Proof.
  intros e i o1 o2. unfold upd_object. cbn [e_objects ex_set_objects].
  rewrite list_upd_upd_const. reflexivity.
Qed.

Lemma upd_object_map_others_upd_object_const : forall e i o1 o2 me p f,
  upd_object (map_others (upd_object e i (fun _ => o1)) me p f) i (fun _ => o2) =
  map_others (upd_object e i (fun _ => o2)) me p f.
Proof.
  intros e i o1 o2 me p f. unfold upd_object, map_others.
  cbn [e_objects e_threads ex_set_objects ex_set_threads].
  rewrite list_upd_upd_const. reflexivity.
Qed.

(* the harness flag "receiver alive" as MSendPost reads it (after the channel
   object and the wake-ups were written) is the flag of the state before *)
Lemma send_post_rx_frame : forall e h f me p g (c : bool),
  get_h (if c then map_others (upd_object e h f) me p g else upd_object e h f) h = get_h e h.
Proof. intros e h f me p g c. destruct c; reflexivity. Qed.

Lemma send_post_keeps_rx : forall e me h v e',
  exec_micro e me (MSendPost h v) = MOk e' -> ho_rx (get_h e' h) = ho_rx (get_h e h).
Proof.
  intros e me h v e' Hex. unfold exec_micro in Hex.
  destruct (get_chan e h) as [s|]; [|discriminate]. cbv zeta in Hex.
  rewrite send_post_rx_frame in Hex.
  apply MOk_inj in Hex. subst e'.
  assert (Hlog : forall e0 r, get_h (log_op e0 me r) h = get_h e0 h).
  { intros e0 r. unfold log_op. destruct (get_thread e0 me); reflexivity. }
  rewrite Hlog.
  destruct (ho_rx (get_h e h)) eqn:Hrx.
  - unfold get_h, upd_hobj. change (e_h (ex_set_h ?a ?l)) with l.
    rewrite (nth_list_upd_proj _ _ ho_rx) by (intros x; reflexivity).
    match goal with |- context [if ?c then map_others _ _ _ _ else _] => destruct c end;
      exact Hrx.
  - match goal with |- context [if ?c then map_others _ _ _ _ else _] => destruct c end;
      exact Hrx.
Qed.

(* receiver alive: the message is queued *)
Lemma send_post_publishes : forall e me h v s e',
  get_chan e h = Some s -> ho_rx (get_h e h) = true ->
  exec_micro e me (MSendPost h v) = MOk e' ->
  exists s', get_chan e' h = Some s' /\
             ch_cnt s' = S (ch_cnt s) /\
             ch_recv_sync s' = ch_recv_sync s ++ [ch_sender_sync s'] /\
             vle (caus_of e me) (ch_sender_sync s') /\
             vle (ch_sender_sync s) (ch_sender_sync s').
Proof.
  intros e me h v s e' Hget Hrx Hex.
  pose proof (get_chan_nth e h s Hget) as Hnth.
  unfold exec_micro in Hex. rewrite Hget in Hex. cbv zeta in Hex.
  rewrite send_post_rx_frame in Hex. rewrite Hrx in Hex. cbv iota in Hex.
  apply MOk_inj in Hex. subst e'.
  eexists. split.
  - rewrite (get_chan_objects_eq _ _ h (e_objects_log_op _ _ _)).
    match goal with |- context [if ?c then map_others _ _ _ _ else _] => destruct c end;
      exact (get_chan_upd_const e h _ _ Hnth).
  - cbn [ch_cnt ch_recv_sync ch_sender_sync]. split; [reflexivity | split; [reflexivity |
             split; [apply sync_store_rel; reflexivity | apply sync_store_keeps]]].
Qed.

(* receiver gone: the message comes back to the sender; the count and the queued
   per-message views are left alone, only the sender-side view advances (it still
   receives the sender's clock) *)
Lemma send_post_disconnected : forall e me h v s e',
  get_chan e h = Some s -> ho_rx (get_h e h) = false ->
  exec_micro e me (MSendPost h v) = MOk e' ->
  exists s', get_chan e' h = Some s' /\
             ch_cnt s' = ch_cnt s /\
             ch_recv_sync s' = ch_recv_sync s /\
             vle (caus_of e me) (ch_sender_sync s') /\
             vle (ch_sender_sync s) (ch_sender_sync s').
Proof.
  intros e me h v s e' Hget Hrx Hex.
  pose proof (get_chan_nth e h s Hget) as Hnth.
  unfold exec_micro in Hex. rewrite Hget in Hex. cbv zeta in Hex.
  rewrite send_post_rx_frame in Hex. rewrite Hrx in Hex. cbv iota in Hex.
  apply MOk_inj in Hex. subst e'.
  eexists. split.
  - rewrite (get_chan_objects_eq _ _ h (e_objects_log_op _ _ _)).
    eapply get_chan_upd_const.
    match goal with |- context [if ?c then map_others _ _ _ _ else _] => destruct c end;
      [rewrite e_objects_map_others|];
      rewrite e_objects_upd_object; rewrite nth_error_list_upd_same; rewrite Hnth; reflexivity.
  - cbn [ch_cnt ch_recv_sync ch_sender_sync]. split; [reflexivity | split; [reflexivity |
             split; [apply sync_store_rel; reflexivity | apply sync_store_keeps]]].
Qed.

(* the view pushed for the new message dominates the sender's clock *)
Corollary send_post_last_view : forall e me h v s e' s',
  get_chan e h = Some s -> ho_rx (get_h e h) = true ->
  exec_micro e me (MSendPost h v) = MOk e' ->
  get_chan e' h = Some s' ->
  exists sy, ch_recv_sync s' = ch_recv_sync s ++ [sy] /\
             vle (caus_of e me) sy /\ vle (ch_sender_sync s) sy.
Proof.
  intros e me h v s e' s' Hget Hrx Hex Hget'.
  destruct (send_post_publishes e me h v s e' Hget Hrx Hex) as [s'' [Hg [_ [Hrs [Hc Hs]]]]].
  rewrite Hget' in Hg. inversion Hg as [Heq]. subst s''. clear Hg.
  exists (ch_sender_sync s'). split; [exact Hrs | split; [exact Hc | exact Hs]].
Qed.

Lemma send_post_clocks : forall e me h v e' j,
  exec_micro e me (MSendPost h v) = MOk e' -> caus_of e' j = caus_of e j.
Proof.
  intros e me h v e' j Hex. unfold exec_micro in Hex.
  destruct (get_chan e h) as [s|]; [|discriminate]. cbv zeta in Hex.
  apply MOk_inj in Hex. subst e'.
  rewrite caus_of_log_op.
  match goal with |- caus_of (if ?c then _ else _) _ = _ => destruct c end;
    [rewrite caus_of_upd_hobj|rewrite caus_of_upd_object];
    (match goal with |- context [if ?c then map_others _ _ _ _ else _] => destruct c end;
     [rewrite caus_of_map_others_keep by (intros t; reflexivity)|];
     apply caus_of_upd_object).
Qed.

Lemma recv_post_acquires : forall e me h lg s n sy rest e',
  get_chan e h = Some s -> ch_cnt s = S n -> ch_recv_sync s = sy :: rest ->
  exec_micro e me (MRecvPost h lg) = MOk e' ->
  me < length (e_threads e) ->
  vle sy (caus_of e' me) /\
  vle (caus_of e me) (caus_of e' me) /\
  exists s', get_chan e' h = Some s' /\ ch_cnt s' = n /\ ch_recv_sync s' = rest /\
             ch_sender_sync s' = ch_sender_sync s.
Proof.
  intros e me h lg s n sy rest e' Hget Hcnt Hrs Hex Hlt.
  pose proof (get_chan_nth e h s Hget) as Hnth.
  unfold exec_micro in Hex. rewrite Hget, Hcnt, Hrs in Hex. cbv zeta in Hex.
  match type of Hex with match ho_q ?x with _ => _ end = _ => destruct (ho_q x) as [|v q] end;
    [discriminate|].
  apply MOk_inj in Hex. subst e'.
  assert (Hc : forall e0, caus_of (if lg then log_op (upd_hobj e0 h (fun ho => ho_set_q ho q)) me (RVal v)
                                   else upd_hobj e0 h (fun ho => ho_set_q ho q)) me = caus_of e0 me).
  { intros e0. destruct lg; [rewrite caus_of_log_op|]; apply caus_of_upd_hobj. }
  assert (Ho : forall e0, e_objects (if lg then log_op (upd_hobj e0 h (fun ho => ho_set_q ho q)) me (RVal v)
                                     else upd_hobj e0 h (fun ho => ho_set_q ho q)) = e_objects e0).
  { intros e0. destruct lg; [rewrite e_objects_log_op|]; apply e_objects_upd_hobj. }
  rewrite Hc.
  assert (Hcm : forall e0, caus_of (if Nat.eqb n 0 then map_others e0 me (pending_on_act h ARecv) set_blocked else e0) me
                           = caus_of e0 me).
  { intros e0. destruct (Nat.eqb n 0); [apply caus_of_map_others_me | reflexivity]. }
  rewrite Hcm.
  rewrite caus_of_set_caus_same by exact Hlt.
  rewrite caus_of_upd_object.
  split; [apply sync_load_acq; reflexivity | split; [apply sync_load_keeps |]].
  eexists. split.
  - rewrite (get_chan_objects_eq _ _ h (Ho _)).
    destruct (Nat.eqb n 0); exact (get_chan_upd_const e h _ _ Hnth).
  - simpl. split; [reflexivity | split; reflexivity].
Qed.

Lemma recv_post_empty_fails : forall e me h lg s,
  get_chan e h = Some s -> ch_cnt s = 0 ->
  exec_micro e me (MRecvPost h lg) = MFail e PanicExpectMsg.
Proof.
  intros e me h lg s Hget Hcnt. unfold exec_micro. rewrite Hget, Hcnt. reflexivity.
Qed.

Lemma recv_post_other_clocks : forall e me h lg e' j,
  exec_micro e me (MRecvPost h lg) = MOk e' -> j <> me -> caus_of e' j = caus_of e j.
Proof.
  intros e me h lg e' j Hex Hne. unfold exec_micro in Hex.
  destruct (get_chan e h) as [s|]; [|discriminate].
  destruct (ch_cnt s) as [|n]; [discriminate|].
  destruct (ch_recv_sync s) as [|sy rest]; [discriminate|]. cbv zeta in Hex.
  match type of Hex with match ho_q ?x with _ => _ end = _ => destruct (ho_q x) as [|v q] end;
    [discriminate|].
  apply MOk_inj in Hex. subst e'.
  destruct lg; [rewrite caus_of_log_op|]; rewrite caus_of_upd_hobj;
    (destruct (Nat.eqb n 0);
     [rewrite caus_of_map_others_keep by (intros t; reflexivity)|];
     rewrite caus_of_set_caus_other by exact Hne;
     apply caus_of_upd_object).
Qed.

(* send -> the receive that consumes that very slot *)
Corollary channel_handover : forall e a h v s e1 e2 b lg s2 n sy rest e3,
  get_chan e h = Some s -> exec_micro e a (MSendPost h v) = MOk e1 ->
  get_chan e2 h = Some s2 -> ch_cnt s2 = S n -> ch_recv_sync s2 = sy :: rest ->
  vle (sync_store (ch_sender_sync s) (caus_of e a) (rel_of e a) Release) sy ->
  exec_micro e2 b (MRecvPost h lg) = MOk e3 -> b < length (e_threads e2) ->
  vle (caus_of e a) (caus_of e3 b).
Proof.
  intros e a h v s e1 e2 b lg s2 n sy rest e3 Hget Hsend Hget2 Hcnt Hrs Hle Hrecv Hlt.
  destruct (recv_post_acquires e2 b h lg s2 n sy rest e3 Hget2 Hcnt Hrs Hrecv Hlt) as [Hacq _].
  exact (handover_chain _ _ _ _ (sync_store_rel _ _ _ Release eq_refl) Hle Hacq).
Qed.

(* ================================================================== *)
(* 7. Arc (C11)                                                        *)

Lemma exec_micro_arc_dec_post : forall e me k unwrap,
  exec_micro e me (MArcDecPost k unwrap) =
  match get_arc e k with
  | None => MFail e (PanicModel 22)
  | Some s =>
      match arc_cnt s with
      | 0 => MFail e PanicArcReleased
      | S cnt =>
          let sy := sync_store (arc_sync s) (caus_of e me) (rel_of e me) Release in
          let e := upd_object e k (fun _ => OArc (arc_set s cnt sy)) in
          let e := if Nat.eqb cnt 0 then set_caus e me (sync_load (caus_of e me) sy Acquire) else e in
          let e := if Nat.eqb cnt 0 then ex_set_log e (LDrop k :: e_log e) else e in
          MOk (log_op e me (if unwrap then RBool true else if Nat.eqb cnt 0 then RVal 1 else RUnit))
      end
  end.
Proof. reflexivity. Qed.

Lemma arc_dec_post_publishes : forall e me k u s e',
  get_arc e k = Some s -> exec_micro e me (MArcDecPost k u) = MOk e' ->
  exists cnt s', arc_cnt s = S cnt /\ get_arc e' k = Some s' /\ arc_cnt s' = cnt /\
                 vle (caus_of e me) (arc_sync s') /\
                 vle (arc_sync s) (arc_sync s') /\
                 vle (caus_of e me) (caus_of e' me) /\
                 (cnt = 0 -> me < length (e_threads e) -> vle (arc_sync s') (caus_of e' me)) /\
                 (cnt <> 0 -> caus_of e' me = caus_of e me).
Proof.
  intros e me k u s e' Hget Hex.
  pose proof (get_arc_nth e k s Hget) as Hnth.
  rewrite exec_micro_arc_dec_post in Hex. rewrite Hget in Hex.
  destruct (arc_cnt s) as [|cnt] eqn:Hcnt; [discriminate|]. cbv zeta in Hex.
  apply MOk_inj in Hex. subst e'.
  set (sy := sync_store (arc_sync s) (caus_of e me) (rel_of e me) Release).
  exists cnt, (arc_set s cnt sy). split; [reflexivity|]. split.
  { rewrite (get_arc_objects_eq _ _ k (e_objects_log_op _ _ _)).
    destruct (Nat.eqb cnt 0); exact (get_arc_upd_const e k _ _ Hnth). }
  split; [reflexivity|].
  split; [apply sync_store_rel; reflexivity|]. split; [apply sync_store_keeps|].
  rewrite caus_of_log_op. destruct (Nat.eqb_spec cnt 0) as [Hz|Hz].
  -    rewrite caus_of_set_log. split; [|split].
    + destruct (Nat.lt_ge_cases me (length (e_threads e))) as [Hlt|Hge].
      * rewrite caus_of_set_caus_same by exact Hlt. apply sync_load_keeps.
      * rewrite (caus_of_out_of_range e me Hge). apply vle_new.
    + intros _ Hlt. rewrite caus_of_set_caus_same by exact Hlt. apply sync_load_acq. reflexivity.
    + intros Hnz. destruct (Hnz Hz).
  - rewrite caus_of_upd_object.
    split; [apply vle_refl|]. split; [intros Hz'; destruct (Hz Hz') | intros _; reflexivity].
Qed.

Lemma arc_dec_post_released_fails : forall e me k u s,
  get_arc e k = Some s -> arc_cnt s = 0 ->
  exec_micro e me (MArcDecPost k u) = MFail e PanicArcReleased.
Proof.
  intros e me k u s Hget Hcnt. rewrite exec_micro_arc_dec_post. rewrite Hget, Hcnt. reflexivity.
Qed.

Lemma arc_dec_post_other_clocks : forall e me k u e' j,
  exec_micro e me (MArcDecPost k u) = MOk e' -> j <> me -> caus_of e' j = caus_of e j.
Proof.
  intros e me k u e' j Hex Hne. rewrite exec_micro_arc_dec_post in Hex.
  destruct (get_arc e k) as [s|]; [|discriminate].
  destruct (arc_cnt s) as [|cnt]; [discriminate|]. cbv zeta in Hex.
  inversion Hex as [He']. clear Hex.
  rewrite caus_of_log_op.
  destruct (Nat.eqb cnt 0).
  - rewrite caus_of_set_log.
    rewrite caus_of_set_caus_other by exact Hne.
    apply caus_of_upd_object.
  - apply caus_of_upd_object.
Qed.

(* an earlier decrement happens-before the final drop *)
Corollary arc_drop_handover : forall e a k u s e1 s1 e2 b u2 s2 e3,
  get_arc e k = Some s -> exec_micro e a (MArcDecPost k u) = MOk e1 ->
  get_arc e1 k = Some s1 ->
  get_arc e2 k = Some s2 -> vle (arc_sync s1) (arc_sync s2) -> arc_cnt s2 = 1 ->
  exec_micro e2 b (MArcDecPost k u2) = MOk e3 -> b < length (e_threads e2) ->
  vle (caus_of e a) (caus_of e3 b).
Proof.
  intros e a k u s e1 s1 e2 b u2 s2 e3 Hget Hdec Hget1 Hget2 Hle Hone Hdrop Hlt.
  destruct (arc_dec_post_publishes e a k u s e1 Hget Hdec)
    as [c1 [s1' [_ [Hg1 [_ [Hpub _]]]]]].
  rewrite Hget1 in Hg1. inversion Hg1 as [Heq]. subst s1'. clear Hg1.
  destruct (arc_dec_post_publishes e2 b k u2 s2 e3 Hget2 Hdrop)
    as [c2 [s3 [Hc2 [_ [_ [_ [Hkeep [_ [Hacq _]]]]]]]]].
  rewrite Hone in Hc2. inversion Hc2 as [Hc0]. symmetry in Hc0.
  apply (handover_chain _ _ _ _ Hpub Hle).
  apply vle_trans with (arc_sync s3); [exact Hkeep | exact (Hacq Hc0 Hlt)].
Qed.

Lemma arc_get_mut_post_acquires : forall e me k i u s e',
  get_arc e k = Some s -> exec_micro e me (MArcGetMutPost k i u) = MOk e' ->
  me < length (e_threads e) ->
  arc_cnt s <> 0 /\ vle (arc_sync s) (caus_of e' me) /\ vle (caus_of e me) (caus_of e' me) /\
  get_arc e' k = Some s.
Proof.
  intros e me k i u s e' Hget Hex Hlt. unfold exec_micro in Hex. rewrite Hget in Hex.
  destruct (Nat.eqb (arc_cnt s) 0) eqn:Hz; [discriminate|]. cbv zeta in Hex.
  apply Nat.eqb_neq in Hz. split; [exact Hz|].
  assert (Hc : caus_of e' me = sync_load (caus_of e me) (arc_sync s) Acquire /\
               e_objects e' = e_objects e).
  { destruct u; [destruct (Nat.eqb (arc_cnt s) 1)|]; inversion Hex as [He']; clear Hex.
    - rewrite caus_of_push_cont, caus_of_set_slot.
      rewrite caus_of_set_caus_same by exact Hlt. split; reflexivity.
    - rewrite caus_of_log_op. rewrite e_objects_log_op.
      rewrite caus_of_set_caus_same by exact Hlt. split; reflexivity.
    - rewrite caus_of_log_op. rewrite e_objects_log_op.
      rewrite caus_of_set_caus_same by exact Hlt. split; reflexivity. }
  destruct Hc as [Hc Ho]. rewrite Hc.
  split; [apply sync_load_acq; reflexivity | split; [apply sync_load_keeps |]].
  rewrite (get_arc_objects_eq _ _ k Ho). exact Hget.
Qed.

Lemma arc_count_post_acquires : forall e me k s e',
  get_arc e k = Some s -> exec_micro e me (MArcCountPost k) = MOk e' ->
  me < length (e_threads e) ->
  arc_cnt s <> 0 /\ vle (arc_sync s) (caus_of e' me) /\ vle (caus_of e me) (caus_of e' me) /\
  get_arc e' k = Some s.
Proof.
  intros e me k s e' Hget Hex Hlt. unfold exec_micro in Hex. rewrite Hget in Hex.
  destruct (Nat.eqb (arc_cnt s) 0) eqn:Hz; [discriminate|]. cbv zeta in Hex.
  apply Nat.eqb_neq in Hz. split; [exact Hz|].
  inversion Hex as [He']. clear Hex.
  rewrite caus_of_log_op. rewrite caus_of_set_caus_same by exact Hlt.
  split; [apply sync_load_acq; reflexivity | split; [apply sync_load_keeps |]].
  rewrite (get_arc_objects_eq _ _ k (e_objects_log_op _ _ _)). exact Hget.
Qed.

(* a clone (RefInc) transfers nothing: arc_sync and all clocks are unchanged *)
Lemma arc_inc_post_no_transfer : forall e me k j0 s e',
  get_arc e k = Some s -> exec_micro e me (MArcIncPost k j0) = MOk e' ->
  (forall j, caus_of e' j = caus_of e j) /\
  exists s', get_arc e' k = Some s' /\ arc_sync s' = arc_sync s /\ arc_cnt s' = S (arc_cnt s).
Proof.
  intros e me k j0 s e' Hget Hex.
  pose proof (get_arc_nth e k s Hget) as Hnth.
  unfold exec_micro in Hex. rewrite Hget in Hex. cbv zeta in Hex.
  inversion Hex as [He']. clear Hex. split.
  - intros j. rewrite caus_of_log_op, caus_of_set_slot. apply caus_of_upd_object.
  - eexists. split.
    + rewrite (get_arc_objects_eq _ _ k (e_objects_log_op _ _ _)).
      exact (get_arc_upd_const e k _ _ Hnth).
    + split; reflexivity.
Qed.

(* ================================================================== *)
(* 8. Park / unpark (C08)                                              *)

Lemma threads_unpark_transfers : forall e me id,
  id <> me -> id < length (e_threads e) ->
  let e' := threads_unpark e me id in
  vle (caus_of e me) (caus_of e' id) /\
  vle (caus_of e id) (caus_of e' id) /\
  caus_of e' id = vv_join (caus_of e id) (caus_of e me) /\
  forall j, j <> id -> caus_of e' j = caus_of e j.
Proof.
  intros e me id Hne Hlt e'. subst e'. unfold threads_unpark.
  apply Nat.eqb_neq in Hne. rewrite Hne. cbv zeta.
  destruct (get_thread_lt_some e id Hlt) as [t Ht].
  rewrite (caus_of_upd_thread_same e id _ t Ht). rewrite t_caus_thread_unpark.
  assert (Hc : caus_of e id = t_caus t) by (unfold caus_of; rewrite Ht; reflexivity).
  rewrite Hc.
  split; [apply vle_join_r | split; [apply vle_join_l | split; [reflexivity|]]].
  intros j Hj. apply caus_of_upd_thread_other. intros Heq. apply Hj. symmetry. exact Heq.
Qed.

(* unparking oneself transfers nothing *)
Lemma threads_unpark_self : forall e me j, caus_of (threads_unpark e me me) j = caus_of e j.
Proof.
  intros e me j. unfold threads_unpark. rewrite Nat.eqb_refl.
  apply caus_of_upd_thread_keep. apply t_caus_set_unparked.
Qed.

Lemma threads_unpark_monotone : forall e me id j,
  vle (caus_of e j) (caus_of (threads_unpark e me id) j).
Proof.
  intros e me id j. destruct (Nat.eq_dec id me) as [Heq|Hne].
  - subst id. rewrite threads_unpark_self. apply vle_refl.
  - destruct (Nat.lt_ge_cases id (length (e_threads e))) as [Hlt|Hge].
    + destruct (threads_unpark_transfers e me id Hne Hlt) as [_ [Hk [_ Ho]]].
      destruct (Nat.eq_dec j id) as [Hj|Hj].
      * subst j. exact Hk.
      * rewrite (Ho j Hj). apply vle_refl.
    + unfold threads_unpark. apply Nat.eqb_neq in Hne. rewrite Hne. cbv zeta.
      unfold upd_thread, list_upd.
      assert (Hn : nth_error (e_threads e) id = None) by (apply nth_error_None; exact Hge).
      rewrite Hn. apply vle_refl.
Qed.

Lemma threads_unpark_objects : forall e me id, e_objects (threads_unpark e me id) = e_objects e.
Proof.
  intros e me id. unfold threads_unpark. destruct (Nat.eqb id me); reflexivity.
Qed.

Lemma exec_micro_unpark_transfers : forall e me b tid e',
  body_tid e b = Some tid -> exec_micro e me (MUnpark b) = MOk e' ->
  tid <> me -> tid < length (e_threads e) ->
  vle (caus_of e me) (caus_of e' tid) /\ vle (caus_of e tid) (caus_of e' tid).
Proof.
  intros e me b tid e' Hb Hex Hne Hlt. unfold exec_micro in Hex. rewrite Hb in Hex.
  inversion Hex as [He']. clear Hex.
  rewrite caus_of_log_op.
  destruct (threads_unpark_transfers e me tid Hne Hlt) as [H1 [H2 _]].
  split; assumption.
Qed.

(* ================================================================== *)
(* 9. Spawn                                                            *)

(* the threads after a spawn: the new thread, which starts from the parent's clock
   plus its own first tick, is appended; then the parent's own component is bumped *)
Lemma spawn_threads : forall e me b e',
  exec_micro e me (MSpawn b) = MOk e' ->
  exists nt,
    e_threads e' = list_upd (e_threads e ++ [nt]) me (fun t => th_set_caus t (vv_inc (t_caus t) me)) /\
    t_caus nt = vv_inc (vv_join vv_new (caus_of e me)) (length (e_threads e)).
Proof.
  intros e me b e' Hex. cbn [exec_micro] in Hex.
  match type of Hex with (if ?c then _ else _) = _ => destruct c; [discriminate Hex|] end.
  apply MOk_inj in Hex. subst e'. rewrite e_threads_log_op. eexists. split; reflexivity.
Qed.

Lemma spawn_transfers : forall e me b e',
  exec_micro e me (MSpawn b) = MOk e' ->
  let tid := length (e_threads e) in
  vle (caus_of e me) (caus_of e' tid) /\
  length (e_threads e') = S tid /\
  (forall j, j < tid -> j <> me -> caus_of e' j = caus_of e j) /\
  vle (caus_of e me) (caus_of e' me).
Proof.
  intros e me b e' Hex tid. destruct (spawn_threads e me b e' Hex) as [nt [Hth Hnt]].
  unfold caus_of, get_thread in *. rewrite Hth. fold tid in Hnt.
  set (c := match nth_error (e_threads e) me with Some t => t_caus t | None => vv_new end) in *.
  assert (Hle : vle c (t_caus nt)).
  { rewrite Hnt. eapply vle_trans; [apply vle_join_r | apply vle_inc]. }
  assert (Hn : nth_error (e_threads e ++ [nt]) tid = Some nt)
    by (rewrite nth_error_app2, Nat.sub_diag by apply Nat.le_refl; reflexivity).
  assert (Hout : tid <= me -> c = vv_new)
    by (intros Hge; unfold c; rewrite (proj2 (nth_error_None _ _) Hge); reflexivity).
  split; [|split; [|split]].
  - destruct (Nat.eq_dec me tid) as [Heq|Hne].
    + rewrite Hout by lia. apply vle_new.
    + rewrite nth_error_list_upd_other by exact Hne. rewrite Hn. exact Hle.
  - rewrite list_upd_length, app_length. cbn [length]. unfold tid. lia.
  - intros j Hj Hne. rewrite nth_error_list_upd_other by exact (not_eq_sym Hne).
    rewrite nth_error_app1 by exact Hj. reflexivity.
  - destruct (Nat.lt_ge_cases me tid) as [Hlt|Hge]; [|rewrite Hout by exact Hge; apply vle_new].
    rewrite nth_error_list_upd_same, nth_error_app1 by exact Hlt. unfold c.
    destruct (nth_error (e_threads e) me) as [t|]; [apply vle_inc | apply vle_new].
Qed.

(* ================================================================== *)
(* 10. Atomics (C03 / C04 building blocks)                             *)

Lemma aindex_lt : forall c, aindex c < MAX_ATOMIC_HISTORY.
Proof.
  intros c. unfold aindex. apply Nat.mod_upper_bound. unfold MAX_ATOMIC_HISTORY. discriminate.
Qed.

Lemma at_stores_set_stores : forall s st c, at_stores (at_set_stores s st c) = st.
Proof. reflexivity. Qed.
Lemma at_cnt_set_stores : forall s st c, at_cnt (at_set_stores s st c) = c.
Proof. reflexivity. Qed.

(* the history after a store: slot aindex(cnt) is overwritten by a store whose
   value / happens_before / sync are as follows.  [atomic_store_from] is the
   general form (the store half of an RMW passes the slot and id of the store it
   read as [src]); whatever [src] is, only the modification order of the new
   store depends on it, and no lemma of this file looks at st_mo. *)
Lemma at_stores_atomic_store_from : forall s me caus rel sync0 v o src, exists x,
  at_stores (atomic_store_from s me caus rel sync0 v o src) =
    list_set (at_stores s) (aindex (at_cnt s)) x /\
  st_sync x = sync_store sync0 caus rel o /\
  st_value x = v /\
  st_hb x = caus.
Proof.
  intros s me caus rel sync0 v o src. unfold atomic_store_from. cbv zeta.
  eexists. split; [reflexivity | split; [reflexivity | split; reflexivity]].
Qed.

Lemma at_cnt_atomic_store_from : forall s me caus rel sync0 v o src,
  at_cnt (atomic_store_from s me caus rel sync0 v o src) = S (at_cnt s).
Proof. reflexivity. Qed.

Lemma atomic_store_from_length : forall s me caus rel sync0 v o src,
  length (at_stores (atomic_store_from s me caus rel sync0 v o src)) = length (at_stores s).
Proof.
  intros s me caus rel sync0 v o src.
  destruct (at_stores_atomic_store_from s me caus rel sync0 v o src) as [x [Hx _]].
  rewrite Hx. apply list_set_length.
Qed.

Lemma atomic_store_from_new_sync : forall s me caus rel sync0 v o src,
  length (at_stores s) = MAX_ATOMIC_HISTORY ->
  st_sync (get_store (atomic_store_from s me caus rel sync0 v o src) (aindex (at_cnt s))) =
  sync_store sync0 caus rel o.
Proof.
  intros s me caus rel sync0 v o src Hlen. unfold get_store.
  destruct (at_stores_atomic_store_from s me caus rel sync0 v o src) as [x [Hx [Hs [Hv Hh]]]].
  rewrite Hx. rewrite list_set_nth_same by (rewrite Hlen; apply aindex_lt). assumption.
Qed.

Lemma atomic_store_from_new_value : forall s me caus rel sync0 v o src,
  length (at_stores s) = MAX_ATOMIC_HISTORY ->
  st_value (get_store (atomic_store_from s me caus rel sync0 v o src) (aindex (at_cnt s))) = v.
Proof.
  intros s me caus rel sync0 v o src Hlen. unfold get_store.
  destruct (at_stores_atomic_store_from s me caus rel sync0 v o src) as [x [Hx [Hs [Hv Hh]]]].
  rewrite Hx. rewrite list_set_nth_same by (rewrite Hlen; apply aindex_lt). assumption.
Qed.

Lemma atomic_store_from_new_hb : forall s me caus rel sync0 v o src,
  length (at_stores s) = MAX_ATOMIC_HISTORY ->
  st_hb (get_store (atomic_store_from s me caus rel sync0 v o src) (aindex (at_cnt s))) = caus.
Proof.
  intros s me caus rel sync0 v o src Hlen. unfold get_store.
  destruct (at_stores_atomic_store_from s me caus rel sync0 v o src) as [x [Hx [Hs [Hv Hh]]]].
  rewrite Hx. rewrite list_set_nth_same by (rewrite Hlen; apply aindex_lt). assumption.
Qed.

Lemma atomic_store_from_other : forall s me caus rel sync0 v o src j,
  j <> aindex (at_cnt s) ->
  get_store (atomic_store_from s me caus rel sync0 v o src) j = get_store s j.
Proof.
  intros s me caus rel sync0 v o src j Hne. unfold get_store.
  destruct (at_stores_atomic_store_from s me caus rel sync0 v o src) as [x [Hx _]]. rewrite Hx.
  apply list_set_nth_other. intros Heq. apply Hne. symmetry. exact Heq.
Qed.

(* [atomic_store] is [atomic_store_from] without a source *)
Lemma atomic_store_eq : forall s me caus rel sync0 v o,
  atomic_store s me caus rel sync0 v o = atomic_store_from s me caus rel sync0 v o None.
Proof. reflexivity. Qed.

Lemma at_stores_atomic_store : forall s me caus rel sync0 v o, exists x,
  at_stores (atomic_store s me caus rel sync0 v o) =
    list_set (at_stores s) (aindex (at_cnt s)) x /\
  st_sync x = sync_store sync0 caus rel o /\
  st_value x = v /\
  st_hb x = caus.
Proof.
  intros s me caus rel sync0 v o. exact (at_stores_atomic_store_from s me caus rel sync0 v o None).
Qed.

Lemma at_cnt_atomic_store : forall s me caus rel sync0 v o,
  at_cnt (atomic_store s me caus rel sync0 v o) = S (at_cnt s).
Proof. reflexivity. Qed.

Lemma atomic_store_length : forall s me caus rel sync0 v o,
  length (at_stores (atomic_store s me caus rel sync0 v o)) = length (at_stores s).
Proof.
  intros s me caus rel sync0 v o. exact (atomic_store_from_length s me caus rel sync0 v o None).
Qed.

Lemma atomic_store_new_sync : forall s me caus rel sync0 v o,
  length (at_stores s) = MAX_ATOMIC_HISTORY ->
  st_sync (get_store (atomic_store s me caus rel sync0 v o) (aindex (at_cnt s))) =
  sync_store sync0 caus rel o.
Proof.
  intros s me caus rel sync0 v o. exact (atomic_store_from_new_sync s me caus rel sync0 v o None).
Qed.

Lemma atomic_store_new_value : forall s me caus rel sync0 v o,
  length (at_stores s) = MAX_ATOMIC_HISTORY ->
  st_value (get_store (atomic_store s me caus rel sync0 v o) (aindex (at_cnt s))) = v.
Proof.
  intros s me caus rel sync0 v o. exact (atomic_store_from_new_value s me caus rel sync0 v o None).
Qed.

Lemma atomic_store_new_hb : forall s me caus rel sync0 v o,
  length (at_stores s) = MAX_ATOMIC_HISTORY ->
  st_hb (get_store (atomic_store s me caus rel sync0 v o) (aindex (at_cnt s))) = caus.
Proof.
  intros s me caus rel sync0 v o. exact (atomic_store_from_new_hb s me caus rel sync0 v o None).
Qed.

Lemma atomic_store_other : forall s me caus rel sync0 v o j,
  j <> aindex (at_cnt s) ->
  get_store (atomic_store s me caus rel sync0 v o) j = get_store s j.
Proof.
  intros s me caus rel sync0 v o j. exact (atomic_store_from_other s me caus rel sync0 v o None j).
Qed.

Lemma atomic_store_publishes : forall s me caus rel sync0 v o,
  ord_rel o = true -> length (at_stores s) = MAX_ATOMIC_HISTORY ->
  let s' := atomic_store s me caus rel sync0 v o in
  vle caus (st_sync (get_store s' (aindex (at_cnt s)))) /\
  st_value (get_store s' (aindex (at_cnt s))) = v /\
  at_cnt s' = S (at_cnt s).
Proof.
  intros s me caus rel sync0 v o Hrel Hlen s'. subst s'.
  rewrite atomic_store_new_sync by exact Hlen.
  rewrite atomic_store_new_value by exact Hlen.
  split; [apply sync_store_rel; exact Hrel | split; reflexivity].
Qed.

(* whatever the ordering, the released view (last release fence) and the
   carried view [sync0] are published *)
Lemma atomic_store_publishes_released : forall s me caus rel sync0 v o,
  length (at_stores s) = MAX_ATOMIC_HISTORY ->
  let s' := atomic_store s me caus rel sync0 v o in
  vle rel (st_sync (get_store s' (aindex (at_cnt s)))) /\
  vle sync0 (st_sync (get_store s' (aindex (at_cnt s)))).
Proof.
  intros s me caus rel sync0 v o Hlen s'. subst s'.
  rewrite atomic_store_new_sync by exact Hlen.
  split; [apply sync_store_released | apply sync_store_keeps].
Qed.

(* a relaxed store publishes exactly join(sync0, released): not the thread's clock *)
Lemma atomic_store_relaxed_sync : forall s me caus rel sync0 v o,
  ord_rel o = false -> length (at_stores s) = MAX_ATOMIC_HISTORY ->
  forall i, vv_get (st_sync (get_store (atomic_store s me caus rel sync0 v o) (aindex (at_cnt s)))) i
            = Nat.max (vv_get sync0 i) (vv_get rel i).
Proof.
  intros s me caus rel sync0 v o Hrel Hlen i.
  rewrite atomic_store_new_sync by exact Hlen. apply sync_store_rlx. exact Hrel.
Qed.

(* ---- the track_* checks never touch the store history ---- *)
Lemma track_load_stores : forall s caus s1,
  track_load s caus = inl s1 -> at_stores s1 = at_stores s /\ at_cnt s1 = at_cnt s.
Proof.
  intros s caus s1 Ht. unfold track_load in Ht.
  destruct (at_mutating s); [discriminate|].
  destruct (vv_ahead caus (at_unsync_mut s)); [discriminate|].
  injection Ht as Ht. subst s1. split; reflexivity.
Qed.

Lemma track_store_stores : forall s caus s1,
  track_store s caus = inl s1 -> at_stores s1 = at_stores s /\ at_cnt s1 = at_cnt s.
Proof.
  intros s caus s1 Ht. unfold track_store in Ht.
  destruct (at_mutating s); [discriminate|].
  destruct (vv_ahead caus (at_unsync_mut s)); [discriminate|].
  destruct (vv_ahead caus (at_unsync_loaded s)); [discriminate|].
  injection Ht as Ht. subst s1. split; reflexivity.
Qed.

Lemma get_store_stores_eq : forall s1 s2 j,
  at_stores s1 = at_stores s2 -> get_store s1 j = get_store s2 j.
Proof. intros s1 s2 j Heq. unfold get_store. rewrite Heq. reflexivity. Qed.

(* ---- apply_load_coherence changes st_mo only ---- *)
(* both the update of the loaded store and the propagation to the stores ordered after
   it go through [st_set_mo]: any projection that [st_set_mo] preserves is kept *)
(* [l'] has the length of [l] and the same [g]-projection in every slot *)
Definition keeps_proj {B : Type} (g : astore -> B) (l l' : list astore) : Prop :=
  length l' = length l /\
  forall j, g (nth j l' store_default) = g (nth j l store_default).

Lemma keeps_proj_refl : forall (B : Type) (g : astore -> B) l, keeps_proj g l l.
Proof. intros B g l. split; [reflexivity | intros j; reflexivity]. Qed.

Lemma keeps_proj_trans : forall {B : Type} {g : astore -> B} {l1 l2 l3},
  keeps_proj g l1 l2 -> keeps_proj g l2 l3 -> keeps_proj g l1 l3.
Proof.
  intros B g l1 l2 l3 [Hl12 Hg12] [Hl23 Hg23]. split.
  - rewrite Hl23. exact Hl12.
  - intros j. rewrite Hg23. apply Hg12.
Qed.

Section MoOnly.
  Variable B : Type.
  Variable g : astore -> B.
  Hypothesis Hg : forall x m, g (st_set_mo x m) = g x.

  Lemma raise_mo_keeps : forall stores a v, keeps_proj g stores (raise_mo stores a v).
  Proof.
    intros stores a v. unfold raise_mo. cbv zeta.
    destruct (vv_eqb (vv_join (st_mo (nth a stores store_default)) v)
                     (st_mo (nth a stores store_default))); [apply keeps_proj_refl|].
    split.
    - apply mapi_length.
    - intros j. apply (nth_mapi_proj _ _ g). intros i x.
      destruct (Nat.eqb a i); [apply Hg|].
      destruct (vv_lt (st_mo (nth a stores store_default)) (st_mo x)); [apply Hg | reflexivity].
  Qed.

  Lemma close_step_keeps : forall acc ri, keeps_proj g (fst acc) (fst (close_step acc ri)).
  Proof.
    intros [stores changed] [r i]. unfold close_step. cbv zeta. cbn [fst].
    destruct (st_rmw_src (nth r stores store_default)) as [[slot sid]|];
      [|apply keeps_proj_refl].
    destruct (negb (Nat.eqb slot r) && Nat.eqb (st_id (nth slot stores store_default)) sid);
      [|apply keeps_proj_refl].
    destruct (Nat.eqb i r || Nat.eqb i slot); [apply keeps_proj_refl|].
    destruct (vv_le (st_mo (nth slot stores store_default)) (st_mo (nth i stores store_default)) &&
              negb (vv_le (st_mo (nth r stores store_default)) (st_mo (nth i stores store_default))));
      [apply raise_mo_keeps|].
    destruct (vv_le (st_mo (nth i stores store_default)) (st_mo (nth r stores store_default)) &&
              negb (vv_le (st_mo (nth i stores store_default)) (st_mo (nth slot stores store_default))));
      [apply raise_mo_keeps | apply keeps_proj_refl].
  Qed.

  Lemma close_fold_keeps : forall ris acc,
    keeps_proj g (fst acc) (fst (fold_left close_step ris acc)).
  Proof.
    induction ris as [|ri ris IH]; intros acc.
    - apply keeps_proj_refl.
    - cbn [fold_left].
      apply (keeps_proj_trans (close_step_keeps acc ri)). apply IH.
  Qed.

  Lemma close_rmw_atomicity_keeps : forall fuel live stores,
    keeps_proj g stores (close_rmw_atomicity fuel live stores).
  Proof.
    induction fuel as [|f IH]; intros live stores.
    - apply keeps_proj_refl.
    - cbn [close_rmw_atomicity].
      pose proof (close_fold_keeps (list_prod (seq 0 live) (seq 0 live)) (stores, false)) as Hfold.
      destruct (fold_left close_step (list_prod (seq 0 live) (seq 0 live)) (stores, false))
        as [stores' changed].
      cbn [fst] in Hfold. destruct changed; [|exact Hfold].
      apply (keeps_proj_trans Hfold). apply IH.
  Qed.

  (* the part of apply_load_coherence before the RMW-atomicity closure *)
  Lemma alc_keeps_all : forall s caus idx,
    keeps_proj g (at_stores s) (at_stores (apply_load_coherence s caus idx)).
  Proof.
    intros s caus idx. unfold apply_load_coherence. cbv zeta.
    rewrite at_stores_set_stores.
    eapply keeps_proj_trans; [|apply close_rmw_atomicity_keeps].
    assert (Hupd : forall m, keeps_proj g (at_stores s)
                     (list_upd (at_stores s) idx (fun x => st_set_mo x m))).
    { intros m. split; [apply list_upd_length|].
      intros j. apply (nth_list_upd_proj _ _ g). intros x. apply Hg. }
    match goal with |- context [if ?c then _ else _] => destruct c end; [apply Hupd|].
    eapply keeps_proj_trans; [apply Hupd|].
    split; [apply mapi_length|].
    intros j. apply (nth_mapi_proj _ _ g). intros i x.
    match goal with |- context [if ?c then _ else _] => destruct c end;
      [apply Hg | reflexivity].
  Qed.
End MoOnly.

Lemma alc_keeps_proj : forall (B : Type) (g : astore -> B),
  (forall x m, g (st_set_mo x m) = g x) ->
  forall s caus idx j,
  g (get_store (apply_load_coherence s caus idx) j) = g (get_store s j).
Proof.
  intros B g Hg s caus idx j. unfold get_store.
  destruct (alc_keeps_all _ g Hg s caus idx) as [_ Hnth]. apply Hnth.
Qed.

Lemma alc_keeps_sync : forall s caus idx j,
  st_sync (get_store (apply_load_coherence s caus idx) j) = st_sync (get_store s j).
Proof. apply (alc_keeps_proj _ st_sync). intros x m. reflexivity. Qed.

Lemma alc_keeps_value : forall s caus idx j,
  st_value (get_store (apply_load_coherence s caus idx) j) = st_value (get_store s j).
Proof. apply (alc_keeps_proj _ st_value). intros x m. reflexivity. Qed.

Lemma alc_keeps_cnt : forall s caus idx, at_cnt (apply_load_coherence s caus idx) = at_cnt s.
Proof. reflexivity. Qed.

Lemma alc_keeps_length : forall s caus idx,
  length (at_stores (apply_load_coherence s caus idx)) = length (at_stores s).
Proof.
  intros s caus idx.
  destruct (alc_keeps_all _ st_sync (fun x m => eq_refl) s caus idx) as [Hlen _]. exact Hlen.
Qed.

(* ---- the state after the load part of load / rmw ---- *)
Definition load_view (s1 : atomic_state) (me : nat) (caus : vv) (index : nat) : atomic_state :=
  let s2 := apply_load_coherence s1 caus index in
  at_set_stores s2
    (list_upd (at_stores s2) index
       (fun x => st_set_seen x (seen_touch (st_seen x) me (vv_get caus me))))
    (at_cnt s2).

Lemma load_view_keeps_sync : forall s1 me caus idx j,
  st_sync (get_store (load_view s1 me caus idx) j) = st_sync (get_store s1 j).
Proof.
  intros s1 me caus idx j. unfold load_view. cbv zeta.
  unfold get_store at 1. rewrite at_stores_set_stores.
  rewrite (nth_list_upd_proj _ _ st_sync) by (intros x; reflexivity).
  apply alc_keeps_sync.
Qed.

Lemma load_view_keeps_value : forall s1 me caus idx j,
  st_value (get_store (load_view s1 me caus idx) j) = st_value (get_store s1 j).
Proof.
  intros s1 me caus idx j. unfold load_view. cbv zeta.
  unfold get_store at 1. rewrite at_stores_set_stores.
  rewrite (nth_list_upd_proj _ _ st_value) by (intros x; reflexivity).
  apply alc_keeps_value.
Qed.

Lemma load_view_keeps_cnt : forall s1 me caus idx, at_cnt (load_view s1 me caus idx) = at_cnt s1.
Proof. reflexivity. Qed.

Lemma load_view_keeps_length : forall s1 me caus idx,
  length (at_stores (load_view s1 me caus idx)) = length (at_stores s1).
Proof.
  intros s1 me caus idx. unfold load_view. cbv zeta. rewrite at_stores_set_stores.
  rewrite list_upd_length. apply alc_keeps_length.
Qed.

Lemma atomic_load_eq : forall s me caus idx o,
  atomic_load s me caus idx o =
  match track_load s caus with
  | inr p => inr p
  | inl s1 =>
      inl (load_view s1 me caus idx,
           sync_load caus (st_sync (get_store (load_view s1 me caus idx) idx)) o,
           st_value (get_store (load_view s1 me caus idx) idx))
  end.
Proof. reflexivity. Qed.

Lemma atomic_rmw_eq : forall s me caus rel idx so fo f,
  atomic_rmw s me caus rel idx so fo f =
  match track_load s caus with
  | inr p => inr p
  | inl s1 =>
      let s3 := load_view s1 me caus idx in
      let prev := st_value (get_store s3 idx) in
      match f prev with
      | Some next =>
          match track_store s3 caus with
          | inr p => inr p
          | inl s4 =>
              let sync := st_sync (get_store s4 idx) in
              let caus' := sync_load caus sync so in
              inl (atomic_store_from s4 me caus' rel sync next so
                     (Some (idx, st_id (get_store s4 idx))), caus', prev, true)
          end
      | None => inl (s3, sync_load caus (st_sync (get_store s3 idx)) fo, prev, false)
      end
  end.
Proof. reflexivity. Qed.

(* the load half of a load or an RMW (race check, coherence, seen-mark) leaves
   the views, the values, the count and the length of the history alone *)
Lemma load_half_keeps : forall s me caus idx s1,
  track_load s caus = inl s1 ->
  (forall j, st_sync (get_store (load_view s1 me caus idx) j) = st_sync (get_store s j)) /\
  (forall j, st_value (get_store (load_view s1 me caus idx) j) = st_value (get_store s j)) /\
  at_cnt (load_view s1 me caus idx) = at_cnt s /\
  length (at_stores (load_view s1 me caus idx)) = length (at_stores s).
Proof.
  intros s me caus idx s1 Ht. destruct (track_load_stores s caus s1 Ht) as [Hst Hcnt].
  split; [|split; [|split]].
  - intros j. rewrite load_view_keeps_sync. rewrite (get_store_stores_eq s1 s j Hst). reflexivity.
  - intros j. rewrite load_view_keeps_value. rewrite (get_store_stores_eq s1 s j Hst). reflexivity.
  - rewrite load_view_keeps_cnt. exact Hcnt.
  - rewrite load_view_keeps_length. rewrite Hst. reflexivity.
Qed.

Lemma atomic_load_result : forall s me caus idx o s' caus' v,
  atomic_load s me caus idx o = inl (s', caus', v) ->
  caus' = sync_load caus (st_sync (get_store s idx)) o /\
  v = st_value (get_store s idx) /\
  (forall j, st_sync (get_store s' j) = st_sync (get_store s j)) /\
  (forall j, st_value (get_store s' j) = st_value (get_store s j)) /\
  at_cnt s' = at_cnt s.
Proof.
  intros s me caus idx o s' caus' v Hld. rewrite atomic_load_eq in Hld.
  destruct (track_load s caus) as [s1|p] eqn:Ht; [|discriminate].
  destruct (load_half_keeps s me caus idx s1 Ht) as [Hsy [Hva [Hcnt _]]].
  injection Hld as Hs Hc Hv. subst s' caus' v.
  rewrite Hsy, Hva.
  split; [reflexivity | split; [reflexivity | split; [exact Hsy | split; [exact Hva | exact Hcnt]]]].
Qed.

Lemma atomic_load_acquires : forall s me caus idx o s' caus' v,
  atomic_load s me caus idx o = inl (s', caus', v) -> ord_acq o = true ->
  vle (st_sync (get_store s idx)) caus' /\ vle caus caus' /\ v = st_value (get_store s idx).
Proof.
  intros s me caus idx o s' caus' v Hld Hacq.
  destruct (atomic_load_result s me caus idx o s' caus' v Hld) as [Hc [Hv _]]. subst caus'.
  split; [apply sync_load_acq; exact Hacq | split; [apply sync_load_keeps | exact Hv]].
Qed.

Lemma atomic_load_relaxed : forall s me caus idx o s' caus' v,
  atomic_load s me caus idx o = inl (s', caus', v) -> ord_acq o = false ->
  caus' = caus /\ v = st_value (get_store s idx).
Proof.
  intros s me caus idx o s' caus' v Hld Hacq.
  destruct (atomic_load_result s me caus idx o s' caus' v Hld) as [Hc [Hv _]]. subst caus'.
  split; [apply sync_load_rlx; exact Hacq | exact Hv].
Qed.

(* whatever the ordering, a load never shrinks the clock *)
Lemma atomic_load_monotone : forall s me caus idx o s' caus' v,
  atomic_load s me caus idx o = inl (s', caus', v) -> vle caus caus'.
Proof.
  intros s me caus idx o s' caus' v Hld.
  destruct (atomic_load_result s me caus idx o s' caus' v Hld) as [Hc _]. subst caus'.
  apply sync_load_keeps.
Qed.

Lemma atomic_rmw_release_sequence : forall s me caus rel idx so fo f s' caus' prev,
  atomic_rmw s me caus rel idx so fo f = inl (s', caus', prev, true) ->
  length (at_stores s) = MAX_ATOMIC_HISTORY ->
  let new := get_store s' (aindex (at_cnt s)) in
  vle (st_sync (get_store s idx)) (st_sync new) /\
  vle rel (st_sync new) /\
  (ord_rel so = true -> vle caus' (st_sync new)) /\
  vle caus caus' /\
  (ord_acq so = true -> vle (st_sync (get_store s idx)) caus') /\
  (ord_acq so = false -> caus' = caus) /\
  prev = st_value (get_store s idx) /\
  f prev = Some (st_value new) /\
  at_cnt s' = S (at_cnt s).
Proof.
  intros s me caus rel idx so fo f s' caus' prev Hrmw Hlen new.
  rewrite atomic_rmw_eq in Hrmw.
  destruct (track_load s caus) as [s1|p] eqn:Ht; [|discriminate].
  destruct (load_half_keeps s me caus idx s1 Ht) as [Hsy [Hva [Hcnt3 Hlen3]]].
  cbv zeta in Hrmw.
  destruct (f (st_value (get_store (load_view s1 me caus idx) idx))) as [next|] eqn:Hf;
    [|discriminate].
  destruct (track_store (load_view s1 me caus idx) caus) as [s4|p] eqn:Hts; [|discriminate].
  destruct (track_store_stores _ caus s4 Hts) as [Hst4 Hcnt4].
  injection Hrmw as Hs Hc Hp.
  assert (Hsync4 : st_sync (get_store s4 idx) = st_sync (get_store s idx)).
  { rewrite (get_store_stores_eq s4 _ idx Hst4). apply Hsy. }
  assert (Hc4 : at_cnt s4 = at_cnt s) by (rewrite Hcnt4; exact Hcnt3).
  assert (Hl4 : length (at_stores s4) = MAX_ATOMIC_HISTORY) by (rewrite Hst4, Hlen3; exact Hlen).
  rewrite Hsync4 in Hs, Hc. rewrite Hva in Hp, Hf.
  subst new. subst s'. rewrite <- Hc4.
  rewrite atomic_store_from_new_sync by exact Hl4.
  rewrite atomic_store_from_new_value by exact Hl4.
  rewrite at_cnt_atomic_store_from.
  subst caus' prev.
  split; [apply sync_store_keeps|].
  split; [apply sync_store_released|].
  split; [intros Hrel; apply sync_store_rel; exact Hrel|].
  split; [apply sync_load_keeps|].
  split; [intros Hacq; apply sync_load_acq; exact Hacq|].
  split; [intros Hacq; apply sync_load_rlx; exact Hacq|].
  split; [reflexivity|].
  split; [exact Hf | reflexivity].
Qed.

(* failed compare-exchange: a pure load with the failure ordering *)
Lemma atomic_rmw_failure_loads : forall s me caus rel idx so fo f s' caus' prev,
  atomic_rmw s me caus rel idx so fo f = inl (s', caus', prev, false) ->
  caus' = sync_load caus (st_sync (get_store s idx)) fo /\
  prev = st_value (get_store s idx) /\ f prev = None /\
  (forall j, st_sync (get_store s' j) = st_sync (get_store s j)) /\
  at_cnt s' = at_cnt s.
Proof.
  intros s me caus rel idx so fo f s' caus' prev Hrmw.
  rewrite atomic_rmw_eq in Hrmw.
  destruct (track_load s caus) as [s1|p] eqn:Ht; [|discriminate].
  destruct (load_half_keeps s me caus idx s1 Ht) as [Hsy [Hva [Hcnt _]]].
  cbv zeta in Hrmw.
  destruct (f (st_value (get_store (load_view s1 me caus idx) idx))) as [next|] eqn:Hf.
  - destruct (track_store (load_view s1 me caus idx) caus); discriminate.
  - injection Hrmw as Hs Hc Hp. subst s' caus' prev.
    rewrite Hva in Hf. rewrite Hsy, Hva.
    split; [reflexivity | split; [reflexivity | split; [exact Hf | split; [exact Hsy | exact Hcnt]]]].
Qed.

(* release store -> acquire load of that store (C03), on the functions *)
Corollary atomic_handover : forall s me caus rel sync0 v o s2 me2 caus2 o2 s3 caus3 v3,
  ord_rel o = true -> length (at_stores s) = MAX_ATOMIC_HISTORY ->
  let idx := aindex (at_cnt s) in
  vle (st_sync (get_store (atomic_store s me caus rel sync0 v o) idx)) (st_sync (get_store s2 idx)) ->
  atomic_load s2 me2 caus2 idx o2 = inl (s3, caus3, v3) -> ord_acq o2 = true ->
  vle caus caus3.
Proof.
  intros s me caus rel sync0 v o s2 me2 caus2 o2 s3 caus3 v3 Hrel Hlen idx Hle Hld Hacq.
  destruct (atomic_store_publishes s me caus rel sync0 v o Hrel Hlen) as [Hpub _].
  destruct (atomic_load_acquires s2 me2 caus2 idx o2 s3 caus3 v3 Hld Hacq) as [Hacq' _].
  exact (handover_chain _ _ _ _ Hpub Hle Hacq').
Qed.

(* ================================================================== *)
Print Assumptions mutex_handover.
Print Assumptions post_acquire_fails_iff.
Print Assumptions atomic_load_acquires.
Print Assumptions sync_store_rel.
Print Assumptions release_lock_publishes.
Print Assumptions rw_write_handover.
Print Assumptions release_read_publishes.
Print Assumptions notify_handover.
Print Assumptions notify_post_unparks.
Print Assumptions channel_handover.
Print Assumptions send_post_publishes.
Print Assumptions arc_drop_handover.
Print Assumptions threads_unpark_transfers.
Print Assumptions spawn_transfers.
Print Assumptions atomic_store_publishes.
Print Assumptions atomic_rmw_release_sequence.
